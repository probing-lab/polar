(* C07 — the reported basis generates all polynomial relations among the goals.
   PARTIAL BY DESIGN: degree-bounded.  What is missing for the full statement is the theorem that the
   elimination ideal of the closed-form/lattice ideal is the full relation ideal in every degree
   (Kauers–Zimmermann); relations of degree > D are not covered, nor that the set is a Groebner basis.
   Property theorems, each closed by [exact] and followed by Print Assumptions; then non-vacuity
   and refutation examples by vm_compute. *)
From Coq Require Import List Arith QArith Qcanon.
From Polar Require Import Qcx CRing ExpPoly Lattice Invariant InvariantComplete.
Import ListNotations.

(* the monomial list really is "all monomials of degree <= D in k variables" *)
Theorem C07_mons_spec :
  forall k D es, In es (mons k D) <-> (length es = k /\ (list_sum es <= D)%nat).
Proof. exact mons_spec. Qed.
Print Assumptions C07_mons_spec.

(* kernel certificate: Ev has one row per unknown;  K*Ev = 0  and  P*K + Ev*Q = d*I, d*dinv = 1  =>
   EVERY x with x*Ev = 0 is the combination (x*P) of the rows of K *)
Theorem C07_kernel_cert_sound_partial :
  forall (R : cring) (m : nat) (Ev K P Q : list (list R)) (d dinv : R),
    check_kernel_cert m Ev K P Q d dinv = true ->
    forall (x : list R) (kk : nat), length x = m -> veq (lincomb kk x Ev) [] ->
      x = lincomb m (vscale dinv (lincomb (length K) x P)) K.
Proof. exact kernel_cert_sound. Qed.
Print Assumptions C07_kernel_cert_sound_partial.

(* degree-bounded completeness: every polynomial of degree <= D (any coefficient vector x over ALL
   monomials of degree <= D) that vanishes on the closed forms for all n >= n0 is a polynomial
   combination  sum_j q_j * g_j  of elements g_j of the reported basis G (as functions on R^k) *)
Theorem C07_complete_deg_sound_partial :
  forall (R : cring) (k D n0 N : nat) (F : list (epoly R)) (G : list (mpoly R))
         (KC : list (list R * list (mpoly R))) (P Q : list (list R)) (d dinv : R),
    check_complete k D n0 N F G KC P Q d dinv = true ->
    forall x : list R, length x = length (mons k D) ->
      (forall n, (n0 <= n)%nat -> poly_eval (poly_of x (mons k D)) (evalF F n) = r0) ->
      in_ideal k G (poly_of x (mons k D)).
Proof. exact complete_deg_sound. Qed.
Print Assumptions C07_complete_deg_sound_partial.

(* "There are no polynomial invariants": with an empty basis and a trivial kernel, the only
   polynomial of degree <= D vanishing on the sequences is the zero polynomial *)
Theorem C07_no_invariants_sound_partial :
  forall (R : cring) (k D n0 N : nat) (F : list (epoly R)) (P Q : list (list R)) (d dinv : R),
    check_complete k D n0 N F [] [] P Q d dinv = true ->
    forall x : list R, length x = length (mons k D) ->
      (forall n, (n0 <= n)%nat -> poly_eval (poly_of x (mons k D)) (evalF F n) = r0) ->
      x = zeros (length (mons k D)).
Proof. exact no_invariants_sound. Qed.
Print Assumptions C07_no_invariants_sound_partial.

(* the cofactor identities rest on this sound syntactic equality test for polynomials *)
Theorem C07_mpeq_sound :
  forall (R : cring) (p q : mpoly R), mpeq p q = true -> forall xs, poly_eval p xs = poly_eval q xs.
Proof. exact mpeq_sound. Qed.
Print Assumptions C07_mpeq_sound.


(* Non-vacuity, on certificates produced by the harness for the real InvariantIdeal output. *)
(* a = 2^n, b = 4^n, reported basis {a^2 - b}: every relation of degree <= 2 is in its ideal *)
Example C07_nonvacuous_2_4 :
  check_complete (R := Qc_cring) 2 2 0 9 [[((mkq (2) 1), [(mkq (1) 1)])]; [((mkq (4) 1), [(mkq (1) 1)])]] [[((mkq (1) 1), [2; 0]%nat); ((mkq (-1) 1), [0; 1]%nat)]] [([(mkq (0) 1); (mkq (-1) 1); (mkq (0) 1); (mkq (0) 1); (mkq (0) 1); (mkq (1) 1)], [[((mkq (1) 1), [0; 0]%nat)]])] [[(mkq (0) 1)]; [(mkq (0) 1)]; [(mkq (0) 1)]; [(mkq (0) 1)]; [(mkq (0) 1)]; [(mkq (20160) 1)]] [[(mkq (65536) 1); (mkq (17920) 1); (mkq (64) 1); (mkq (-61440) 1); (mkq (-1920) 1); (mkq (0) 1)]; [(mkq (-61440) 1); (mkq (-30240) 1); (mkq (-120) 1); (mkq (88320) 1); (mkq (3480) 1); (mkq (0) 1)]; [(mkq (17920) 1); (mkq (14140) 1); (mkq (70) 1); (mkq (-30240) 1); (mkq (-1890) 1); (mkq (0) 1)]; [(mkq (-1920) 1); (mkq (-1890) 1); (mkq (-15) 1); (mkq (3480) 1); (mkq (345) 1); (mkq (0) 1)]; [(mkq (64) 1); (mkq (70) 1); (mkq (1) 1); (mkq (-120) 1); (mkq (-15) 1); (mkq (0) 1)]; [(mkq (0) 1); (mkq (0) 1); (mkq (0) 1); (mkq (0) 1); (mkq (0) 1); (mkq (0) 1)]; [(mkq (0) 1); (mkq (0) 1); (mkq (0) 1); (mkq (0) 1); (mkq (0) 1); (mkq (0) 1)]; [(mkq (0) 1); (mkq (0) 1); (mkq (0) 1); (mkq (0) 1); (mkq (0) 1); (mkq (0) 1)]; [(mkq (0) 1); (mkq (0) 1); (mkq (0) 1); (mkq (0) 1); (mkq (0) 1); (mkq (0) 1)]] (mkq (20160) 1) (mkq (1) 20160) = true.
Proof. vm_compute. reflexivity. Qed.
(* a = 2^n, b = 3^n, "no invariants": no non-zero polynomial of degree <= 2 vanishes *)
Example C07_nonvacuous_no_invariants :
  check_complete (R := Qc_cring) 2 2 0 9 [[((mkq (2) 1), [(mkq (1) 1)])]; [((mkq (3) 1), [(mkq (1) 1)])]] [] [] [[]; []; []; []; []; []] [[(mkq (27216) 1); (mkq (60480) 1); (mkq (-144) 1); (mkq (-58320) 1); (mkq (3024) 1); (mkq (-27216) 1)]; [(mkq (-37044) 1); (mkq (-122640) 1); (mkq (324) 1); (mkq (108540) 1); (mkq (-6636) 1); (mkq (57456) 1)]; [(mkq (18900) 1); (mkq (83440) 1); (mkq (-260) 1); (mkq (-65610) 1); (mkq (5110) 1); (mkq (-41580) 1)]; [(mkq (-4515) 1); (mkq (-24220) 1); (mkq (95) 1); (mkq (17370) 1); (mkq (-1750) 1); (mkq (13020) 1)]; [(mkq (504) 1); (mkq (3080) 1); (mkq (-16) 1); (mkq (-2070) 1); (mkq (266) 1); (mkq (-1764) 1)]; [(mkq (-21) 1); (mkq (-140) 1); (mkq (1) 1); (mkq (90) 1); (mkq (-14) 1); (mkq (84) 1)]; [(mkq (0) 1); (mkq (0) 1); (mkq (0) 1); (mkq (0) 1); (mkq (0) 1); (mkq (0) 1)]; [(mkq (0) 1); (mkq (0) 1); (mkq (0) 1); (mkq (0) 1); (mkq (0) 1); (mkq (0) 1)]; [(mkq (0) 1); (mkq (0) 1); (mkq (0) 1); (mkq (0) 1); (mkq (0) 1); (mkq (0) 1)]] (mkq (5040) 1) (mkq (1) 5040) = true.
Proof. vm_compute. reflexivity. Qed.
(* the same certificate is rejected for a = 2^n, b = 4^n (the relation a^2 - b exists) *)
Example C07_rejects_missing_relation :
  check_complete (R := Qc_cring) 2 2 0 9 [[((mkq (2) 1), [(mkq (1) 1)])]; [((mkq (4) 1), [(mkq (1) 1)])]] [] [] [[]; []; []; []; []; []] [[(mkq (27216) 1); (mkq (60480) 1); (mkq (-144) 1); (mkq (-58320) 1); (mkq (3024) 1); (mkq (-27216) 1)]; [(mkq (-37044) 1); (mkq (-122640) 1); (mkq (324) 1); (mkq (108540) 1); (mkq (-6636) 1); (mkq (57456) 1)]; [(mkq (18900) 1); (mkq (83440) 1); (mkq (-260) 1); (mkq (-65610) 1); (mkq (5110) 1); (mkq (-41580) 1)]; [(mkq (-4515) 1); (mkq (-24220) 1); (mkq (95) 1); (mkq (17370) 1); (mkq (-1750) 1); (mkq (13020) 1)]; [(mkq (504) 1); (mkq (3080) 1); (mkq (-16) 1); (mkq (-2070) 1); (mkq (266) 1); (mkq (-1764) 1)]; [(mkq (-21) 1); (mkq (-140) 1); (mkq (1) 1); (mkq (90) 1); (mkq (-14) 1); (mkq (84) 1)]; [(mkq (0) 1); (mkq (0) 1); (mkq (0) 1); (mkq (0) 1); (mkq (0) 1); (mkq (0) 1)]; [(mkq (0) 1); (mkq (0) 1); (mkq (0) 1); (mkq (0) 1); (mkq (0) 1); (mkq (0) 1)]; [(mkq (0) 1); (mkq (0) 1); (mkq (0) 1); (mkq (0) 1); (mkq (0) 1); (mkq (0) 1)]] (mkq (5040) 1) (mkq (1) 5040) = false.
Proof. vm_compute. reflexivity. Qed.
