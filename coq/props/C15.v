(* C15 — Bayesian-network import and queries agree with the network's joint law.
   Property theorems, each an instance or a conjunction of theorems of theories/BayesNet*.v and
   followed by Print Assumptions; then a concrete network with the examples about it.
   Everything is about the Gallina model theories/BayesNet.v (tied to bayesnet/*.py by the
   correspondence check harness/checks/c15.py on every run) and the reference semantics
   theories/BayesNetSem.v. *)
From Coq Require Import String Arith Bool QArith Qcanon List Permutation Reals.
From Coquelicot Require Import Coquelicot.
From Polar Require Import Qcx BayesNet BayesNetSem BayesNetSpec BayesNetTopo BayesNetCpt BayesNetQuery
     BayesNetJoint BayesNetLimit BayesNetMain.
Import ListNotations.
Open Scope nat_scope.

(* acceptance: an accepted file has only fully specified rows (no NaN row left: every
   row has one number per domain value), each within the tolerance; parents exist; the CPT
   has exactly one row per combination of parent values, in product order. *)
Theorem C15_accepted_rows_specified_and_valid :
  forall tol b net, assemble tol b = Some net -> wf_network net /\ rows_valid tol net.
Proof. exact assemble_wf. Qed.
Print Assumptions C15_accepted_rows_specified_and_valid.

(* the table notation (own value slowest, parents in product order), the per-entry
   notation, and either of them after a default or table that is completely overwritten
   denote the same CPT. *)
Theorem C15_cpt_notations_agree :
  forall tol vars xn x parnames pars (rows : list row) dflt,
    wf_vtable vars -> find_var vars xn = Some x -> omap (find_var vars) parnames = Some pars ->
    length rows = length (cpt_keys vars pars) ->
    (forall r, In r rows -> length r = dsize vars x /\ sum_valid tol r = true) ->
    (length dflt = dsize vars x /\ sum_valid tol dflt = true) ->
    let mk items := assemble_cpt tol vars {| pb_var := xn; pb_parents := parnames; pb_items := items |} in
    let target := Some (x, pars, combine (cpt_keys vars pars) rows) in
       mk [ITable (table_of (dsize vars x) rows)] = target
    /\ mk (entries_of vars pars rows) = target
    /\ mk [IDefault dflt; ITable (table_of (dsize vars x) rows)] = target
    /\ mk (IDefault dflt :: entries_of vars pars rows) = target
    /\ mk (ITable (table_of (dsize vars x) rows) :: entries_of vars pars rows) = target.
Proof. exact cpt_notations_agree. Qed.
Print Assumptions C15_cpt_notations_agree.

(* the hypothesis wf_vtable is what the variable blocks of an accepted file guarantee *)
Theorem C15_check_vars_wf : forall vs vars, check_vars vs [] = Some vars -> wf_vtable vars.
Proof. exact check_vars_wf. Qed.
Print Assumptions C15_check_vars_wf.

(* topological sort: whenever the assert passes, the order is a permutation with
   parents first and no variable lists a parent twice; it passes on every DAG and only on
   DAGs. *)
Theorem C15_topo_sort_ok :
  forall pars ord,
    (forall i ps, nth_error pars i = Some ps -> forall p, In p ps -> p < length pars) ->
    topo_sort pars = Some ord ->
    Permutation ord (seq 0 (length pars)) /\ parents_first pars ord /\ wf_pars pars /\ acyclic pars.
Proof.
  intros pars ord Hb Hs. pose proof (topo_sort_nodup pars ord Hb Hs) as Hwf.
  destruct (topo_sort_sound pars ord Hwf Hs) as [H1 H2].
  exact (conj H1 (conj H2 (conj Hwf (topo_sort_acyclic pars ord Hwf Hs)))).
Qed.
Print Assumptions C15_topo_sort_ok.

Theorem C15_topo_sort_complete :
  forall pars, wf_pars pars -> acyclic pars -> exists ord, topo_sort pars = Some ord.
Proof. exact topo_sort_complete. Qed.
Print Assumptions C15_topo_sort_complete.

(* exact inference: after the query statements ind = [evidence], inf = X * ind,
   E[inf^k] / E[ind] is the conditional expectation of X^k given the evidence, for every
   distribution D of the state before them and every k >= 1. *)
Theorem C15_exact_inference_identity :
  forall m c t, t < m -> forall (D : dist) k,
    let D' := bind D (exec_body (qs_exact m c t)) in
    expect D' (fun s' => qpow (qnat (s' (S m))) (S k))
      = expect D (fun s => (ind (cond_true c s) * qpow (qnat (s t)) (S k))%Qc) /\
    expect D' (fun s' => qnat (s' m)) = mass D (cond_true c) /\
    (mass D (cond_true c) <> 0%Qc ->
     (expect D' (fun s' => qpow (qnat (s' (S m))) (S k)) / expect D' (fun s' => qnat (s' m)))%Qc
     = (expect D (fun s => (ind (cond_true c s) * qpow (qnat (s t)) (S k))%Qc) / mass D (cond_true c))%Qc).
Proof. exact exact_inference_identity. Qed.
Print Assumptions C15_exact_inference_identity.

(* sampling time: if one execution of the body hits the evidence with probability q
   from every state, keeps total mass 1 and does not touch count/continue, then after n
   iterations E[count] = sum_{i<=n} (1-q)^i, in closed form q * E[count]_n = 1 - (1-q)^(n+1) *)
Theorem C15_sampling_time_identity :
  forall (body : list gstmt) (m : nat) (c : gcond) (q : Qc),
    (forall s, mass (exec_body body s) (cond_true c) = q) ->
    (forall s, expect (exec_body body s) (fun _ => 1%Qc) = 1%Qc) ->
    (forall s ws, In ws (exec_body body s) -> snd ws m = s m /\ snd ws (S m) = s (S m)) ->
    forall s0, s0 m = 1 -> s0 (S m) = 1 -> forall n,
      expect (iter_body (body ++ qs_sample m c) n [(1%Qc, s0)]) (fun s => qnat (s m)) = geom (1 - q) n
      /\ (q * geom (1 - q) n = 1 - qpow (1 - q) (S n))%Qc.
Proof.
  intros body m c q Hq Htot Hfr s0 H1 H2 n. split.
  - exact (sampling_count_n body m c q Hq Htot Hfr s0 H1 H2 n).
  - exact (sampling_closed_form q n).
Qed.
Print Assumptions C15_sampling_time_identity.

(* and its limit: the expected number of samples until the evidence is 1/q *)
Theorem C15_sampling_time_limit :
  forall q : Qc, (0 < q)%Qc -> (q <= 1)%Qc ->
    is_lim_seq (fun n => Q2R (geom (1 - q) n)) (/ Q2R q)%R.
Proof. exact sampling_time_limit. Qed.
Print Assumptions C15_sampling_time_limit.

(* THE generated loop body draws the joint law.  For every accepted BIF file (any DAG, any
   domain sizes >= 1, any notation mix) whose network the code generator sorts, one execution
   of the generated body from ANY state s0 gives each assignment a of domain positions to
   (X_1..X_m) exactly the product over all variables of P(X_i = a_i | parents = a_pa(i))
   (joint_prob: a product in declaration order, no reference to the topological order), where
   the law of a CPT row r of a d-valued variable is row_law d r: r's first d-1 entries and
   the remainder 1 - (r_0 + ... + r_(d-2)) for the last value — the implicit last probability
   of the generated choice.  row_law d r = r when r sums to 1 (C15_row_law_exact); otherwise it
   differs from r in the last entry only, by 1 - sum r, which acceptance bounds by the
   tolerance (C15_row_law_shape, C15_accepted_rows_specified_and_valid). *)
Theorem C15_generated_body_is_joint :
  forall tol b net body,
    assemble tol b = Some net -> gen_body net = Some body ->
    forall s0 a, In a (all_assignments net) ->
      mass (exec_body body s0) (fun s => nats_eqb (read (length net) s) a) = joint_prob net a.
Proof.
  intros tol b net body Ha. exact (generated_body_joint net (proj1 (assemble_wf tol b net Ha)) body).
Qed.
Print Assumptions C15_generated_body_is_joint.

(* the same for any well-formed network, not only assembled ones *)
Theorem C15_generated_body_is_joint_wf :
  forall net body, wf_network net -> gen_body net = Some body ->
    forall s0 a, In a (all_assignments net) ->
      mass (exec_body body s0) (fun s => nats_eqb (read (length net) s) a) = joint_prob net a.
Proof. intros net body Hwf. exact (generated_body_joint net Hwf body). Qed.
Print Assumptions C15_generated_body_is_joint_wf.

(* total mass 1, all drawn values are domain positions, no other variable is touched; hence
   the expectation of ANY function of the network variables is its sum against the product law *)
Theorem C15_generated_body_support :
  forall net body, wf_network net -> gen_body net = Some body ->
    forall s0,
      expect (exec_body body s0) (fun _ => 1%Qc) = 1%Qc /\
      forall ws, In ws (exec_body body s0) ->
        In (read (length net) (snd ws)) (all_assignments net) /\
        forall y, length net <= y -> snd ws y = s0 y.
Proof.
  intros net body Hwf Hg s0.
  exact (conj (generated_body_total net Hwf body Hg s0) (generated_body_support net Hwf body Hg s0)).
Qed.
Print Assumptions C15_generated_body_support.

Theorem C15_body_expect_by_enumeration :
  forall net body, wf_network net -> gen_body net = Some body ->
    forall s0 (g : list nat -> Qc),
      expect (exec_body body s0) (fun s => g (read (length net) s)) = joint_expect net g.
Proof. intros net body Hwf. exact (body_expect_by_enumeration net Hwf body). Qed.
Print Assumptions C15_body_expect_by_enumeration.

Theorem C15_row_law_exact :
  forall d (r : row), 1 <= d -> length r = d -> qsum r = 1%Qc -> row_law d r = r.
Proof. exact row_law_exact. Qed.
Print Assumptions C15_row_law_exact.

Theorem C15_row_law_shape :
  forall d (r : row), 1 <= d -> length r = d ->
    row_law d r = firstn (d - 1) r ++ [(nth (d - 1) r 0 + (1 - qsum r))%Qc].
Proof. exact row_law_shape. Qed.
Print Assumptions C15_row_law_shape.

(* the whole generated query programs, n loop iterations from the generated initial state.
   Exact inference: at every n >= 1 and k >= 1, E[inf^k] and E[ind] are the enumeration sums
   sum_a P(a) [a |= evidence] a_t^k and P(evidence), so E[inf^k]/E[ind] = E[X_t^k | evidence]. *)
Theorem C15_exact_inference_program :
  forall net tn ev p, wf_network net -> codegen net (QExact tn ev) = Some p ->
    exists c t, resolve_evidence net ev = Some c /\ find_nvar net tn = Some t /\
      forall n k,
        expect (run p (S n)) (fun s => qpow (qnat (s (S (length net)))) (S k))
          = joint_expect net (fun a => (ind (ev_holds c a) * qpow (qnat (nth t a O)) (S k))%Qc) /\
        expect (run p (S n)) (fun s => qnat (s (length net)))
          = joint_expect net (fun a => ind (ev_holds c a)).
Proof. exact exact_inference_program. Qed.
Print Assumptions C15_exact_inference_program.

(* Sampling time: E[count]_n = sum_{i<=n} (1-q)^i with q = P(evidence) by enumeration, the
   closed form q * E[count]_n = 1 - (1-q)^(n+1), and E[count]_n -> 1/q *)
Theorem C15_sampling_time_program :
  forall net ev p, wf_network net -> codegen net (QSample ev) = Some p ->
    exists c, resolve_evidence net ev = Some c /\
      let q := joint_expect net (fun a => ind (ev_holds c a)) in
      (forall n, expect (run p n) (fun s => qnat (s (length net))) = geom (1 - q) n) /\
      (forall n, (q * geom (1 - q) n = 1 - qpow (1 - q) (S n))%Qc).
Proof.
  intros net ev p Hwf Hc. destruct (sampling_time_program net ev p Hwf Hc) as [c [Hr Hn]].
  exists c. exact (conj Hr (conj Hn (sampling_closed_form _))).
Qed.
Print Assumptions C15_sampling_time_program.

(* the sampling time that polar prints after --after_loop should be this limit, 1/P(evidence)
   (Coquelicot; Reals axioms) *)
Theorem C15_sampling_time_program_limit :
  forall net ev p, wf_network net -> codegen net (QSample ev) = Some p ->
    exists c, resolve_evidence net ev = Some c /\
      let q := joint_expect net (fun a => ind (ev_holds c a)) in
      ((0 < q)%Qc -> (q <= 1)%Qc ->
       is_lim_seq (fun n => Q2R (expect (run p n) (fun s => qnat (s (length net))))) (/ Q2R q)%R).
Proof. exact sampling_time_limit_of_wf_network. Qed.
Print Assumptions C15_sampling_time_program_limit.

(* cli.common.transform_to_after_loop, in a model that compares symbols as sympy does (name
   and assumptions).  Repaired rule (limit with respect to the integer symbol n, /repo 6cf1f48): the
   sampling-time closed form of every q is mapped to 1/q.  The OLD rule (plain symbol n) left the
   closed form unchanged — kept as a statement about the old rule only. *)
Theorem C15_after_loop_takes_limit :
  forall q : Qc, transform_to_after_loop_model (count_closed_form q) = LConst (1 / q)%Qc.
Proof. exact after_loop_takes_limit. Qed.
Print Assumptions C15_after_loop_takes_limit.

Theorem C15_after_loop_symbol_old_rule_refuted :
  exists q : Qc, (0 < q)%Qc /\ (q <= 1)%Qc /\
    transform_to_after_loop_old_rule (count_closed_form q) = LExpr (count_closed_form q) /\
    geo_eval (count_closed_form q) 0 <> (1 / q)%Qc.
Proof. exact after_loop_symbol_old_rule_refuted. Qed.
Print Assumptions C15_after_loop_symbol_old_rule_refuted.

(* Non-vacuity (tests by vm_compute, not theorems): the statements above on
   bayesnet/repo/testcases/rain.bif. *)
Open Scope string_scope.
Definition tol : Qc := mkq 1 1000.
Definition rain_vars : list vardecl :=
  [ {| vd_name := "rain"; vd_types := [(2, ["0"; "1"])] |};
    {| vd_name := "sprinkler"; vd_types := [(2, ["0"; "1"])] |};
    {| vd_name := "grass"; vd_types := [(2, ["0"; "1"])] |} ].
Definition rain_bif : bif :=
  {| b_vars := rain_vars;
     b_probs :=
       [ {| pb_var := "rain"; pb_parents := []; pb_items := [ITable [mkq 1 5; mkq 4 5]] |};
         {| pb_var := "sprinkler"; pb_parents := ["rain"];
            pb_items := [IEntry ["0"] [mkq 2 5; mkq 3 5]; IEntry ["1"] [mkq 1 100; mkq 99 100]] |};
         {| pb_var := "grass"; pb_parents := ["sprinkler"; "rain"];
            pb_items := [IEntry ["0"; "0"] [mkq 1 100; mkq 99 100]; IEntry ["0"; "1"] [mkq 1 4; mkq 3 4];
                         IEntry ["1"; "0"] [mkq 9 10; mkq 1 10]; IEntry ["1"; "1"] [mkq 1 5; mkq 4 5]] |} ] |}.
(* the same file with tables (own value slowest) and an overwritten default *)
Definition rain_bif_tables : bif :=
  {| b_vars := rain_vars;
     b_probs :=
       [ {| pb_var := "grass"; pb_parents := ["sprinkler"; "rain"];
            pb_items := [ITable [mkq 1 100; mkq 1 4; mkq 9 10; mkq 1 5; mkq 99 100; mkq 3 4; mkq 1 10; mkq 4 5];
                         IDefault [mkq 1 2; mkq 1 2]] |};
         {| pb_var := "rain"; pb_parents := []; pb_items := [IDefault [mkq 1 5; mkq 4 5]] |};
         {| pb_var := "sprinkler"; pb_parents := ["rain"];
            pb_items := [IDefault [mkq 1 100; mkq 99 100]; IEntry ["0"] [mkq 2 5; mkq 3 5]] |} ] |}.
Definition rain_ev : gcond := [(2, 1); (1, 0)].      (* grass = 1, sprinkler = 0 *)
Definition rain_net : network := match assemble tol rain_bif with Some n => n | None => [] end.

Example C15_nonvacuous_accept : is_some (assemble tol rain_bif) = true.
Proof. vm_compute. reflexivity. Qed.
Example C15_nonvacuous_notations : network_eqb (assemble tol rain_bif) (assemble tol rain_bif_tables) = true.
Proof. vm_compute. reflexivity. Qed.
(* a missing row, a row outside the tolerance, a transposed table are refused / differ *)
Example C15_nonvacuous_reject_missing_row :
  assemble tol {| b_vars := rain_vars;
                  b_probs := [ {| pb_var := "rain"; pb_parents := []; pb_items := [ITable [mkq 1 5; mkq 4 5]] |};
                               {| pb_var := "sprinkler"; pb_parents := ["rain"];
                                  pb_items := [IEntry ["0"] [mkq 2 5; mkq 3 5]] |};
                               {| pb_var := "grass"; pb_parents := []; pb_items := [ITable [mkq 1 2; mkq 1 2]] |} ] |}
  = None.
Proof. vm_compute. reflexivity. Qed.
Example C15_nonvacuous_reject_sum :
  assemble tol {| b_vars := [ {| vd_name := "a"; vd_types := [(2, ["x"; "y"])] |} ];
                  b_probs := [ {| pb_var := "a"; pb_parents := []; pb_items := [ITable [mkq 1 5; mkq 401 500]] |} ] |}
  = None.
Proof. vm_compute. reflexivity. Qed.
Example C15_nonvacuous_topo :
  topo_sort (map nv_par rain_net) = Some [0; 1; 2] /\ topo_sort [[1]; [0]] = None /\ topo_sort [[]; [0; 0]] = None.
Proof. vm_compute. repeat split; reflexivity. Qed.
(* P(rain=1, sprinkler=0, grass=1) = 0.8 * 0.01 * 0.75 and the semantics of the generated body agree *)
Example C15_nonvacuous_joint :
  match gen_body rain_net with
  | Some body => Qc_eqb (mass (exec_body body (fun _ => 7)) (fun s => nats_eqb (read 3 s) [1; 0; 1])) (mkq 3 500)
                 && Qc_eqb (joint_prob rain_net [1; 0; 1]) (mkq 3 500)
  | None => false
  end = true.
Proof. vm_compute. reflexivity. Qed.
(* E(rain**2 | grass = 1, sprinkler = 0) = 5/71, by the semantics of the generated program at n = 2
   and by enumeration; expected sampling time 2500/213.  Only the enumeration sums are evaluated:
   rain_net meets the hypotheses of C15_exact_inference_program and C15_sampling_time_program, which
   give the expectations of the generated programs (evaluating run p 3 directly is slow in coqchk). *)
Lemma rain_net_wf : wf_network rain_net.
Proof.
  unfold rain_net. destruct (assemble tol rain_bif) as [net|] eqn:E.
  - exact (proj1 (C15_accepted_rows_specified_and_valid _ _ _ E)).
  - intros [|x] v H; discriminate H.
Qed.
Lemma rain_resolved :
  resolve_evidence rain_net [("grass", "1"); ("sprinkler", "0")] = Some rain_ev /\
  find_nvar rain_net "rain" = Some 0 /\ length rain_net = 3.
Proof. vm_compute. repeat split. Qed.
Example C15_nonvacuous_exact_inference :
  match codegen rain_net (QExact "rain" [("grass", "1"); ("sprinkler", "0")]) with
  | Some p => Qc_eqb (expect (run p 2) (fun s => qpow (qnat (s 4)) 2) / expect (run p 2) (fun s => qnat (s 3)))%Qc (mkq 5 71)
              && Qc_eqb (joint_expect rain_net (fun a => (ind (ev_holds rain_ev a) * qpow (qnat (nth 0 a O)) 2)%Qc)
                         / joint_expect rain_net (fun a => ind (ev_holds rain_ev a)))%Qc (mkq 5 71)
  | None => false
  end = true.
Proof.
  destruct rain_resolved as [Hev [Ht Hlen]].
  destruct (codegen rain_net _) as [p|] eqn:Hp; [|vm_compute in Hp; discriminate].
  destruct (C15_exact_inference_program _ _ _ _ rain_net_wf Hp) as [c [t [Hc [Ht' H]]]].
  rewrite Hev in Hc. injection Hc as <-. rewrite Ht in Ht'. injection Ht' as <-.
  destruct (H 1 1) as [E1 E2]. rewrite Hlen in E1, E2. rewrite E1, E2.
  assert (Hv : Qc_eqb (joint_expect rain_net (fun a => (ind (ev_holds rain_ev a) * qpow (qnat (nth 0 a O)) 2)%Qc)
                       / joint_expect rain_net (fun a => ind (ev_holds rain_ev a)))%Qc (mkq 5 71) = true)
    by (vm_compute; reflexivity).
  rewrite Hv. reflexivity.
Qed.
Example C15_nonvacuous_sampling_time :
  match codegen rain_net (QSample [("grass", "1"); ("sprinkler", "0")]) with
  | Some p => Qc_eqb (expect (run p 3) (fun s => qnat (s 3))) (geom (1 - mkq 213 2500) 3)
              && Qc_eqb (joint_expect rain_net (fun a => ind (ev_holds rain_ev a))) (mkq 213 2500)
  | None => false
  end = true.
Proof.
  destruct rain_resolved as [Hev [_ Hlen]].
  destruct (codegen rain_net _) as [p|] eqn:Hp; [|vm_compute in Hp; discriminate].
  destruct (C15_sampling_time_program _ _ _ rain_net_wf Hp) as [c [Hc [Hn _]]].
  rewrite Hev in Hc. injection Hc as <-. rewrite Hlen in Hn.
  assert (Hq : Qc_eqb (joint_expect rain_net (fun a => ind (ev_holds rain_ev a))) (mkq 213 2500) = true)
    by (vm_compute; reflexivity).
  rewrite Hn, (Qc_eqb_true _ _ Hq), !Qc_eqb_refl. reflexivity.
Qed.
Example C15_nonvacuous_names :
  sanitize "Node-7" = "node7" /\ valid_mapping ["a-b"; "ab"; "AB"] ["ab"; "ab3"; "ab31"] = true
  /\ valid_mapping ["a-b"; "ab"] ["ab"; "ab"] = false
  /\ valid_mapping ["While"; "E"] ["while4"; "e0"] = true /\ valid_mapping ["While"] ["while"] = false
  /\ valid_mapping_old_rule ["While"] ["while"] = true.
Proof. vm_compute. repeat split; reflexivity. Qed.
