(* C17 — strategy and representation options do not change any reported result.
   Property theorems (closed by [exact]) with Print Assumptions, and non-vacuity examples: the
   cond2arithm example instantiates the theorem it illustrates, the others are evaluated. *)
From Coq Require Import List String QArith Qcanon ZArith Bool.
From Polar Require Import Qcx CRing ExpPoly ClosedForm Dist Syntax Sem Types Poly Pipeline Wp PassGuard
  Options OptionsArith OptionsThm.
Import ListNotations.
Local Open Scope Qc_scope.

(* The option --transform_categoricals (settings.transform_categoricals): *)
(* x = v1 {p1} ... vk {pk}   and   c = Categorical(p1..pk); if c==0: x=v1 elif c==1: x=v2 ... end
   give EVERY function of the state that does not read c the same expectation, from EVERY
   state, for EVERY list of alternatives — each v_i is evaluated in the pre-state in both.
   Freshness of c: different from x and not occurring in any v_i. *)
Theorem C17_catexpand_preserves :
  forall (law : string -> list Qc -> dist Qc) x c alts s (f : state -> Qc),
    c <> x ->
    (forall p v, In (p, v) alts -> ~ In c (vars_of v)) ->
    (forall a b, (forall y, y <> c -> a y = b y) -> f a = f b) ->
    E (exec_stmt law (SAssign x (RChoice alts)) s) f = E (exec_block law (cat_expand x c alts) s) f.
Proof. exact catexpand_preserves. Qed.
Print Assumptions C17_catexpand_preserves.

(* The option --cond2arithm (settings.cond2arithm): *)
(* the model of ConditionsToArithm on a list of guarded assignments with validated types:
   from states that agree outside the generated names, every test function that does not read
   them has the same expectation (polynomial assignments with ANY number of alternatives;
   conditioned draws through a fresh u = D) *)
Theorem C17_cond2arithm_list_preserves :
  forall (law : string -> list Qc -> dist Qc) (T : tenv) (U : list var),
    (forall u, In u U -> tlookup T u = None) ->
    forall l us l',
    c2a_gas T us l = Some l' ->
    forallb (check_ga T) l = true ->
    (forall g, In g l -> no_touch U g) -> (forall g, In g l -> mass_one law T g) ->
    (forall u, In u us -> In u U) ->
    (List.length (filter (fun g => match ga_rhs g with RDraw _ => true | _ => false end) l) <= List.length us)%nat ->
    forall s s' (G : state -> Qc), typed T s -> agree_off U s s' -> insens T U G ->
    E (exec_gas law l s) G = E (exec_gas law l' s') G.
Proof. exact c2a_gas_sound. Qed.
Print Assumptions C17_cond2arithm_list_preserves.

(* whole flat programs, EVERY iteration count n *)
Theorem C17_cond2arithm_preserves :
  forall (law : string -> list Qc -> dist Qc) fp fp' T us,
    check_types fp T = true -> c2a_fp T us fp = Some fp' -> c2a_side law T us fp ->
    forall s0, init_ok fp T s0 ->
    forall n (G : state -> Qc), insens T us G ->
      E (frun law fp n s0) G = E (frun law fp' n s0) G.
Proof. exact cond2arithm_preserves. Qed.
Print Assumptions C17_cond2arithm_preserves.

Theorem C17_cond2arithm_preserves_moments :
  forall (law : string -> list Qc -> dist Qc) fp fp' T us,
    check_types fp T = true -> c2a_fp T us fp = Some fp' -> c2a_side law T us fp ->
    forall s0, init_ok fp T s0 ->
    forall m, (forall x, In x (mono_vars m) -> ~ In x us) ->
    forall n, E (frun law fp n s0) (eval_mono m) = E (frun law fp' n s0) (eval_mono m).
Proof. exact cond2arithm_preserves_moments. Qed.
Print Assumptions C17_cond2arithm_preserves_moments.

(* closed forms computed with and without cond2arithm, each validated against its own flat
   program / types / system, agree on every source monomial at EVERY n *)
Theorem C17_cond2arithm_same_closed_forms :
  forall (law : string -> list Qc -> dist Qc) cmom fp fp' T T' us ms ms' A A' v v' F F' sp sp',
    cmom_ok law cmom ->
    check_pipeline cmom fp T ms A v F sp = true ->
    check_pipeline cmom fp' T' ms' A' v' F' sp' = true ->
    c2a_fp T us fp = Some fp' -> c2a_side law T us fp ->
    forall s0, init_ok fp T s0 -> init_ok fp' T' s0 ->
    forall i j m, nth_error ms i = Some m -> nth_error ms' j = Some m ->
    (forall x, In x (mono_vars m) -> ~ In x us) ->
    forall n, nth_error (pw_eval (R := Qc_cring) F sp n) i = nth_error (pw_eval (R := Qc_cring) F' sp' n) j.
Proof. exact cond2arithm_same_closed_forms. Qed.
Print Assumptions C17_cond2arithm_same_closed_forms.

(* OLD RULE (before /repo 0c1450d): the faithful model of the isinstance chain lost a conditioned
   Sin/Cos/Exp assignment (found by this check) ... *)
Theorem C17_cond2arithm_drops_functional_old_rule_refuted :
  ~ (forall T u l l', c2ax_old_list T u l = Some l' -> forall x, In x (map xvar l) -> In x (map xvar l')).
Proof. exact cond2arithm_drops_functional_old_rule_refuted. Qed.
Print Assumptions C17_cond2arithm_drops_functional_old_rule_refuted.

(* ... and nothing else *)
Theorem C17_cond2arithm_keeps_poly_and_draws :
  forall T u a r, (match a with XFunc _ _ _ _ _ => False | _ => True end) ->
    c2ax_old T u a = Some r -> In (xvar a) (map xvar r).
Proof. exact cond2arithm_keeps_poly_and_draws. Qed.
Print Assumptions C17_cond2arithm_keeps_poly_and_draws.

(* RULE AS REPAIRED (if / elif / else: keep): every assigned variable of every program is still
   assigned after the pass *)
Theorem C17_cond2arithm_keeps_every_variable :
  forall T u l l', c2ax_list T u l = Some l' -> forall x, In x (map xvar l) -> In x (map xvar l').
Proof. exact cond2arithm_list_keeps_every_variable. Qed.
Print Assumptions C17_cond2arithm_keeps_every_variable.

(* The choice of recurrence solver: two solutions that both pass the validator agree at every n. *)
Theorem C17_solvers_agree :
  forall (R : cring) A v (F : list (epoly R)) sp F' sp',
    check_solution A v F sp = true -> check_solution A v F' sp' = true ->
    forall n : nat, pw_eval F sp n = pw_eval F' sp' n.
Proof. exact solvers_agree. Qed.
Print Assumptions C17_solvers_agree.

(* Declared instead of inferred types: a moment that both validated pipelines report has the same
   value at every n, whatever the two type environments are. *)
Theorem C17_explicit_types_same_moments :
  forall (law : string -> list Qc -> dist Qc) cmom fp T T' ms ms' A A' v v' F F' sp sp',
    cmom_ok law cmom ->
    check_pipeline cmom fp T ms A v F sp = true ->
    check_pipeline cmom fp T' ms' A' v' F' sp' = true ->
    forall s0, init_ok fp T s0 -> init_ok fp T' s0 ->
    forall i j m, nth_error ms i = Some m -> nth_error ms' j = Some m ->
    forall n, nth_error (pw_eval (R := Qc_cring) F sp n) i = nth_error (pw_eval (R := Qc_cring) F' sp' n) j.
Proof. exact explicit_types_same_moments. Qed.
Print Assumptions C17_explicit_types_same_moments.

(* The exactness flag of utils/expressions.py (get_all_roots, numerify_croots): it is set exactly
   when no root was replaced by a float. *)
Theorem C17_exact_flag_model :
  forall ivs,
  (snd (numeric_roots_model ivs) = true ->
     forall lo hi m rho, In ((lo, hi), m) ivs -> lo <= rho -> rho <= hi ->
       In (rho, m) (fst (numeric_roots_model ivs))) /\
  (snd (numeric_roots_model ivs) = false -> exists lo hi m, In ((lo, hi), m) ivs /\ lo <> hi).
Proof. exact exact_flag_model. Qed.
Print Assumptions C17_exact_flag_model.

Theorem C17_exact_flag_croots_model :
  forall e, has_float e = false ->
  (snd (numerify e) = true -> fst (numerify e) = e) /\
  (snd (numerify e) = negb (has_croot e)) /\
  (has_float (fst (numerify e)) = has_croot e).
Proof. exact exact_flag_croots_model. Qed.
Print Assumptions C17_exact_flag_croots_model.

(* the comparator behind the model/code ties is sound *)
Theorem C17_expr_sim_sound : forall a b, expr_sim a b = true -> forall s, eval a s = eval b s.
Proof. exact expr_sim_sound. Qed.
Print Assumptions C17_expr_sim_sound.

(* Non-vacuity (tests by evaluation): the hypotheses above on concrete programs. *)
Open Scope string_scope.
Definition q (n : Z) (d : positive) := EConst (mkq n d).
Definition ex_alts : list (expr * expr) :=
  [(q 1 4, q 1 1); (q 1 4, EAdd (EVar "x") (q 2 1)); (q 1 2, EMul (EVar "x") (EVar "y"))].
Definition ex_state : state := fun v => if var_eqb v "x" then mkq 3 1 else if var_eqb v "y" then mkq (-2) 1 else 0.
Definition ex_test (t : state) : Qc := t "x" * t "x" + t "y".

(* three-way choice and its expansion: same second moment *)
Example C17_catexpand_nonvacuous :
  Qc_eqb (E (exec_stmt no_law (SAssign "x" (RChoice ex_alts)) ex_state) ex_test)
         (E (exec_block no_law (cat_expand "x" "_c0" ex_alts) ex_state) ex_test) = true
  /\ Qc_eqb (E (exec_stmt no_law (SAssign "x" (RChoice ex_alts)) ex_state) ex_test) (mkq 45 2) = true.
Proof. vm_compute. split; reflexivity. Qed.

(* the freshness hypothesis is needed: with the category variable stored in x itself the
   alternatives are evaluated AFTER x was overwritten by the index *)
Example C17_catexpand_needs_fresh :
  Qc_eqb (E (exec_stmt no_law (SAssign "x" (RChoice ex_alts)) ex_state) ex_test)
         (E (exec_block no_law (cat_expand "x" "x" ex_alts) ex_state) ex_test) = false.
Proof. vm_compute. reflexivity. Qed.

(* a flat program with a three-valued finite variable, a conditioned polynomial assignment
   with two alternatives and a conditioned draw *)
Definition c_f1 := CAtom (EVar "f") Ceq (q 1 1).
Definition c_f2 := CAnd (CNot c_f1) (CAtom (EVar "f") Ceq (q 2 1)).
Definition ex_fp : flatprog :=
  {| fp_init := [ {| ga_var := "x"; ga_cond := CTrue; ga_default := "x"; ga_rhs := RDet (q 0 1) |};
                  {| ga_var := "f"; ga_cond := CTrue; ga_default := "f"; ga_rhs := RDet (q 1 1) |};
                  {| ga_var := "b"; ga_cond := CTrue; ga_default := "b"; ga_rhs := RDet (q 0 1) |} ];
     fp_body := [ {| ga_var := "f"; ga_cond := CTrue; ga_default := "f";
                     ga_rhs := RChoice [(q 1 4, q 0 1); (q 1 4, q 1 1); (q 1 2, q 2 1)] |};
                  {| ga_var := "_x1"; ga_cond := c_f1; ga_default := "x";
                     ga_rhs := RChoice [(q 1 2, EAdd (q 1 1) (EVar "x")); (q 1 2, EAdd (q (-1) 1) (EVar "x"))] |};
                  {| ga_var := "b"; ga_cond := c_f2; ga_default := "b"; ga_rhs := RDraw (DBern (q 1 3)) |};
                  {| ga_var := "x"; ga_cond := c_f2; ga_default := "_x1";
                     ga_rhs := RDet (EAdd (EVar "_x1") (EVar "b")) |} ] |}.
Definition ex_T : tenv := [("f", [mkq 0 1; mkq 1 1; mkq 2 1]); ("b", [mkq 0 1; mkq 1 1])].
Definition ex_fp' : flatprog := match c2a_fp ex_T ["_u0"] ex_fp with Some p => p | None => ex_fp end.

(* the hypotheses of C17_cond2arithm_preserves hold of this program, started from st0 *)
Lemma ex_types : check_types ex_fp ex_T = true.
Proof. reflexivity. Qed.
Lemma ex_c2a : c2a_fp ex_T ["_u0"] ex_fp = Some ex_fp'.
Proof. reflexivity. Qed.
Lemma ex_init : init_ok ex_fp ex_T st0.
Proof. intros x vs H. discriminate H. Qed.

Example C17_cond2arithm_side_nonvacuous : c2a_side no_law ex_T ["_u0"] ex_fp.
Proof.
  unfold c2a_side. split; [|split; [|split]].
  - intros u [<-|[]]. reflexivity.
  - intros g Hg. cbn in Hg. unfold no_touch.
    repeat (destruct Hg as [<-|Hg]); try destruct Hg; cbn;
      repeat split; try (intros [H|[]]; discriminate H); intros x Hx [H|[]]; subst x;
      repeat (destruct Hx as [Hx|Hx]; [discriminate Hx|]); try destruct Hx.
  - intros g Hg s Hs. cbn in Hg.
    repeat (destruct Hg as [<-|Hg]); try destruct Hg; unfold mass; cbn; apply Qc_is_canon; reflexivity.
  - vm_compute. repeat constructor.
Qed.

Example C17_cond2arithm_nonvacuous :
  check_types ex_fp ex_T = true /\
  (match c2a_fp ex_T ["_u0"] ex_fp with Some p => List.length (fp_body p) | None => O end) = 5%nat /\
  (* moments of x, x^2, x*b after 0..3 iterations coincide *)
  map (fun n => map (fun m => qpair (E (frun no_law ex_fp n st0) (eval_mono m))) [[("x", 1%nat)]; [("x", 2%nat)]; [("x", 1%nat); ("b", 1%nat)]]) [0; 1; 2; 3]%nat =
  map (fun n => map (fun m => qpair (E (frun no_law ex_fp' n st0) (eval_mono m))) [[("x", 1%nat)]; [("x", 2%nat)]; [("x", 1%nat); ("b", 1%nat)]]) [0; 1; 2; 3]%nat /\
  (* and are not trivial *)
  qpair (E (frun no_law ex_fp 3%nat st0) (eval_mono [("x", 2%nat)])) = (17%Z, 12%positive).
Proof.
  split; [exact ex_types|]. rewrite ex_c2a. split; [reflexivity|]. split; [|vm_compute; reflexivity].
  (* an instance of the theorem: the monomials do not mention _u0 *)
  apply map_ext. intros n. apply map_ext_in. intros m Hm. f_equal.
  apply (C17_cond2arithm_preserves_moments no_law ex_fp ex_fp' ex_T ["_u0"]
           ex_types ex_c2a C17_cond2arithm_side_nonvacuous st0 ex_init).
  intros x Hx [<-|[]].
  destruct Hm as [<-|[<-|[<-|[]]]]; cbn [mono_vars In] in Hx; intuition discriminate.
Qed.

(* the comparator accepts the model's own output and rejects a C / not-C swap *)
Example C17_c2a_matches_nonvacuous :
  c2a_matches ex_T ["_u0"] (fp_body ex_fp) (fp_body ex_fp') = true /\
  c2a_matches ex_T ["_u0"] (fp_body ex_fp)
    (map (fun g => match ga_rhs g with
                   | RChoice [(p, EAdd (EMul a e) (EMul na d))] =>
                       {| ga_var := ga_var g; ga_cond := CTrue; ga_default := ga_default g;
                          ga_rhs := RChoice [(p, EAdd (EMul na e) (EMul a d))] |}
                   | _ => g end) (fp_body ex_fp')) = false.
Proof. vm_compute. split; reflexivity. Qed.

(* exactness flag: one point interval and one proper interval *)
Example C17_exact_flag_nonvacuous :
  snd (numeric_roots_model [((mkq 1 2, mkq 1 2), 1%nat)]) = true /\
  snd (numeric_roots_model [((mkq 1 2, mkq 1 2), 1%nat); ((mkq 161 100, mkq 162 100), 1%nat)]) = false /\
  snd (numerify (RBin 0 (RNum (mkq 1 2)) (RCroot 0))) = false /\ snd (numerify (RBin 0 (RNum (mkq 1 2)) (RNum 1))) = true.
Proof. vm_compute. repeat split; reflexivity. Qed.
