(* C20 — results are independent of process history, goal order and hash seed.
   Only property theorems, each closed by [exact] and followed by Print Assumptions, and
   non-vacuity examples by vm_compute.  Models and proofs: theories/History*.v. *)
From Coq Require Import String Ascii QArith Qcanon Arith Permutation List.
From Polar Require Import Qcx CRing ExpPoly ClosedForm Dist Syntax Sem History.
Import ListNotations.
Local Open Scope nat_scope.

(* 1. goal order / worklist order / set iteration order *)

(* a scalar product does not see a common reordering of its arguments *)
Theorem C20_dot_permute :
  forall (R : cring) (sigma : list nat) (k : nat) (r x : list R),
    Permutation sigma (seq 0 k) -> length r = k -> length x = k ->
    dot (permute sigma r) (permute sigma x) = dot r x.
Proof. exact dot_permute. Qed.
Print Assumptions C20_dot_permute.

(* (P A P^-1)^n (P v) = P (A^n v), every commutative ring, every k, every n: enumerating
   the monomials of a recurrence system in another order permutes the solution vector *)
Theorem C20_system_perm_invariant :
  forall (R : cring) (sigma : list nat) (k : nat) (A : list (list R)) (v : list R),
    Permutation sigma (seq 0 k) ->
    length A = k /\ Forall (fun r => length r = k) A ->
    length v = k ->
    forall n : nat,
      iter_mat (pmat sigma A) n (permute sigma v) = permute sigma (iter_mat A n v).
Proof. exact system_perm_invariant. Qed.
Print Assumptions C20_system_perm_invariant.

Theorem C20_system_perm_component :
  forall (R : cring) (sigma : list nat) (k : nat) (A : list (list R)) (v : list R),
    Permutation sigma (seq 0 k) ->
    length A = k /\ Forall (fun r => length r = k) A ->
    length v = k ->
    forall (n j : nat), j < k ->
      nth j (iter_mat (pmat sigma A) n (permute sigma v)) r0
      = nth (nth j sigma O) (iter_mat A n v) r0.
Proof. exact system_perm_component. Qed.
Print Assumptions C20_system_perm_component.

(* two arbitrary enumeration orders of the same system give the same value to the same
   monomial at every n *)
Theorem C20_two_orders_agree :
  forall (R : cring) (sigma tau : list nat) (k : nat) (A : list (list R)) (v : list R),
    Permutation sigma (seq 0 k) -> Permutation tau (seq 0 k) ->
    length A = k /\ Forall (fun r => length r = k) A ->
    length v = k ->
    forall (n i j : nat), i < k -> j < k -> nth i sigma O = nth j tau O ->
      nth i (iter_mat (pmat sigma A) n (permute sigma v)) r0
      = nth j (iter_mat (pmat tau A) n (permute tau v)) r0.
Proof. exact two_orders_agree. Qed.
Print Assumptions C20_two_orders_agree.

(* with the verified validator of C04: closed forms accepted for the system in the two
   orders agree under the permutation at every n *)
Theorem C20_accepted_perm_agree :
  forall (R : cring) (sigma : list nat) (k : nat) (A : list (list R)) (v : list R)
         (F : list (epoly R)) (sp : list (list R)) (F' : list (epoly R)) (sp' : list (list R)),
    Permutation sigma (seq 0 k) ->
    length A = k /\ Forall (fun r => length r = k) A ->
    length v = k ->
    check_solution A v F sp = true ->
    check_solution (pmat sigma A) (permute sigma v) F' sp' = true ->
    forall n : nat, pw_eval F' sp' n = permute sigma (pw_eval F sp n).
Proof. exact accepted_perm_agree. Qed.
Print Assumptions C20_accepted_perm_agree.

Theorem C20_accepted_perm_agree_component :
  forall (R : cring) (sigma : list nat) (k : nat) (A : list (list R)) (v : list R)
         (F : list (epoly R)) (sp : list (list R)) (F' : list (epoly R)) (sp' : list (list R)),
    Permutation sigma (seq 0 k) ->
    length A = k /\ Forall (fun r => length r = k) A ->
    length v = k ->
    check_solution A v F sp = true ->
    check_solution (pmat sigma A) (permute sigma v) F' sp' = true ->
    forall (n j : nat), j < k ->
      nth j (pw_eval F' sp' n) r0 = nth (nth j sigma O) (pw_eval F sp n) r0.
Proof. exact accepted_perm_agree_component. Qed.
Print Assumptions C20_accepted_perm_agree_component.

(* decidable side condition used by examples and generated case files *)
Theorem C20_is_permb_sound :
  forall (sigma : list nat) (k : nat), is_permb sigma k = true -> Permutation sigma (seq 0 k).
Proof. exact is_permb_sound. Qed.
Print Assumptions C20_is_permb_sound.

(* Or-chain built from a set popped in arbitrary order (Atom.get_normalized) *)
Theorem C20_or_chain_perm_invariant :
  forall (x : var) (vs vs' : list Qc),
    Permutation vs vs' ->
    forall s : state,
      holds (fold_right (fun v c => COr (CAtom (EVar x) Ceq (EConst v)) c) CFalse vs) s
      = holds (fold_right (fun v c => COr (CAtom (EVar x) Ceq (EConst v)) c) CFalse vs') s.
Proof. exact or_chain_perm_invariant. Qed.
Print Assumptions C20_or_chain_perm_invariant.

(* 2. process history through caches *)

(* lru_cache / dict cache in front of a pure function f: from ANY table consistent with f,
   for ANY interleaving of calls and table replacements that only forget or reorder
   ([shrinks]: every answer of the new table was an answer of the old one), the results are
   exactly [map f] of the arguments, and the final table is consistent *)
Theorem C20_memo_transparent :
  forall (K V : Type) (keqb : K -> K -> bool),
    (forall x y : K, keqb x y = true -> x = y) ->
    forall (f : K -> V) (evs : list (event K V)) (tbl : list (K * V)),
      (forall x v, lookup keqb tbl x = Some v -> v = f x) ->
      valid keqb f tbl evs ->
      fst (run keqb f tbl evs) = map f (calls evs)
      /\ (forall x v, lookup keqb (snd (run keqb f tbl evs)) x = Some v -> v = f x).
Proof. exact memo_transparent. Qed.
Print Assumptions C20_memo_transparent.

Theorem C20_memo_calls_transparent :
  forall (K V : Type) (keqb : K -> K -> bool),
    (forall x y : K, keqb x y = true -> x = y) ->
    forall (f : K -> V) (xs : list K) (tbl : list (K * V)),
      consistent keqb f tbl ->
      fst (run_calls keqb f tbl xs) = map f xs
      /\ consistent keqb f (snd (run_calls keqb f tbl xs)).
Proof. exact memo_calls_transparent. Qed.
Print Assumptions C20_memo_calls_transparent.

(* results do not depend on what earlier analyses left in the cache *)
Theorem C20_memo_history_independent :
  forall (K V : Type) (keqb : K -> K -> bool),
    (forall x y : K, keqb x y = true -> x = y) ->
    forall (f : K -> V) (xs : list K) (tbl1 tbl2 : list (K * V)),
      consistent keqb f tbl1 -> consistent keqb f tbl2 ->
      fst (run_calls keqb f tbl1 xs) = fst (run_calls keqb f tbl2 xs).
Proof. exact memo_history_independent. Qed.
Print Assumptions C20_memo_history_independent.

(* membership reading of eviction: the new table is any sub-multiset of the old entries;
   invariant: every entry (also shadowed ones) is correct *)
Theorem C20_memo_transparent_incl :
  forall (K V : Type) (keqb : K -> K -> bool),
    (forall x y : K, keqb x y = true -> x = y) ->
    forall (f : K -> V) (evs : list (event K V)) (tbl : list (K * V)),
      (forall k v, In (k, v) tbl -> v = f k) ->
      valid_incl keqb f tbl evs ->
      fst (run keqb f tbl evs) = map f (calls evs)
      /\ (forall k v, In (k, v) (snd (run keqb f tbl evs)) -> v = f k).
Proof. exact memo_transparent_incl. Qed.
Print Assumptions C20_memo_transparent_incl.

(* LRU truncation to maxsize, clearing and filtering by key are admissible replacements *)
Theorem C20_shrinks_firstn :
  forall (K V : Type) (keqb : K -> K -> bool) (m : nat) (tbl : list (K * V)),
    shrinks keqb tbl (firstn m tbl).
Proof. exact shrinks_firstn. Qed.
Print Assumptions C20_shrinks_firstn.

Theorem C20_shrinks_filter_keys :
  forall (K V : Type) (keqb : K -> K -> bool),
    (forall x y : K, keqb x y = true -> x = y) ->
    forall (p : K -> bool) (tbl : list (K * V)),
      shrinks keqb tbl (filter (fun kv => p (fst kv)) tbl).
Proof. exact shrinks_filter_keys. Qed.
Print Assumptions C20_shrinks_filter_keys.

(* purity is the premise: if the function changes between two calls with the same key
   (lru_cache keyed on a mutable object, Distribution.get_moment + subs), the second call
   returns the stale value *)
Theorem C20_memo_stale_refuted :
  exists (f f' : nat -> nat) (x : nat),
    fst (memo_call Nat.eqb f' (snd (memo_call Nat.eqb f [] x)) x) <> f' x.
Proof. exact memo_stale_refuted. Qed.
Print Assumptions C20_memo_stale_refuted.

(* 3. the global name counter *)

(* one tag (any tag): different counter values give different names *)
Theorem C20_gen_name_injective :
  forall (tag : string) (k k' : nat), gen_name tag k = gen_name tag k' -> k = k'.
Proof. exact gen_name_injective. Qed.
Print Assumptions C20_gen_name_injective.

(* tags that do not end in a decimal digit (weaker than digit-free): tag and counter are
   both determined by the name — [parse_name] is a left inverse of [gen_name] *)
Theorem C20_parse_gen_name :
  forall (t : string) (k : nat), ends_nondigit t = true -> parse_name (gen_name t k) = Some (t, k).
Proof. exact parse_gen_name. Qed.
Print Assumptions C20_parse_gen_name.

Theorem C20_gen_name_injective_tags :
  forall (t t' : string) (k k' : nat),
    ends_nondigit t = true -> ends_nondigit t' = true ->
    gen_name t k = gen_name t' k' -> t = t' /\ k = k'.
Proof. exact gen_name_injective_tags. Qed.
Print Assumptions C20_gen_name_injective_tags.

Theorem C20_gen_name_injective_digit_free :
  forall (t t' : string) (k k' : nat),
    digit_free t = true -> digit_free t' = true ->
    gen_name t k = gen_name t' k' -> t = t' /\ k = k'.
Proof. exact gen_name_injective_digit_free. Qed.
Print Assumptions C20_gen_name_injective_digit_free.

(* the side condition is necessary: "_x1"+"2" = "_x"+"12" *)
Theorem C20_gen_name_digit_tag_refuted :
  exists (t t' : string) (k k' : nat), gen_name t k = gen_name t' k' /\ t <> t' /\ k <> k'.
Proof. exact gen_name_digit_tag_refuted. Qed.
Print Assumptions C20_gen_name_digit_tag_refuted.

(* every start value, every sequence of admissible tags: the generated names are pairwise
   distinct *)
Theorem C20_fresh_never_collides :
  forall (tags : list string) (k0 : nat),
    Forall (fun t => ends_nondigit t = true) tags -> NoDup (names_from tags k0).
Proof. exact fresh_never_collides. Qed.
Print Assumptions C20_fresh_never_collides.

Theorem C20_fresh_never_collides_one_tag :
  forall (t : string) (n k0 : nat), NoDup (names_from (repeat t n) k0).
Proof. exact fresh_never_collides_one_tag. Qed.
Print Assumptions C20_fresh_never_collides_one_tag.

(* a name generated from a counter value >= k never equals one generated from a value < k *)
Theorem C20_fresh_old_new_distinct :
  forall (t t' : string) (k k1 k2 : nat),
    t = t' \/ (ends_nondigit t = true /\ ends_nondigit t' = true) ->
    k1 < k -> k <= k2 -> gen_name t k1 <> gen_name t' k2.
Proof. exact fresh_old_new_distinct. Qed.
Print Assumptions C20_fresh_old_new_distinct.

(* a second analysis in the same process never reuses a name of the first *)
Theorem C20_fresh_runs_disjoint :
  forall (ts1 ts2 : list string) (k0 : nat) (nm : string),
    Forall (fun t => ends_nondigit t = true) (ts1 ++ ts2) ->
    In nm (names_from ts1 k0) -> In nm (names_from ts2 (counter_after ts1 k0)) -> False.
Proof. exact fresh_runs_disjoint. Qed.
Print Assumptions C20_fresh_runs_disjoint.

(* with a digit-ending tag (not used by /repo) one run can return the same name twice *)
Theorem C20_fresh_digit_tag_refuted :
  exists (tags : list string) (k0 : nat), ~ NoDup (names_from tags k0).
Proof. exact fresh_digit_tag_refuted. Qed.
Print Assumptions C20_fresh_digit_tag_refuted.

(* a start value larger by d = the names renamed by "add d to the counter part" *)
Theorem C20_counter_shift_alpha :
  forall (tags : list string) (k0 d : nat),
    Forall (fun t => ends_nondigit t = true) tags ->
    names_from tags (k0 + d) = map (cshift d) (names_from tags k0).
Proof. exact counter_shift_alpha_canon. Qed.
Print Assumptions C20_counter_shift_alpha.

Theorem C20_cshift_gen :
  forall (d : nat) (t : string) (k : nat),
    ends_nondigit t = true -> cshift d (gen_name t k) = gen_name t (k + d).
Proof. exact cshift_gen. Qed.
Print Assumptions C20_cshift_gen.

(* and that renaming is injective on ALL strings *)
Theorem C20_cshift_injective :
  forall (d : nat) (s1 s2 : string), cshift d s1 = cshift d s2 -> s1 = s2.
Proof. exact cshift_injective. Qed.
Print Assumptions C20_cshift_injective.

(* the same on (tag, counter) pairs, for all tags *)
Theorem C20_counter_shift_alpha_pairs :
  forall (tags : list string) (k0 d : nat),
    names_from tags (k0 + d)
    = map (fun p => gen_name (fst p) (snd p)) (map (fun p => (fst p, snd p + d)) (pnames_from tags k0)).
Proof. exact counter_shift_alpha_pairs. Qed.
Print Assumptions C20_counter_shift_alpha_pairs.

(* semantic alpha-invariance of flat programs under any injective variable renaming: every
   n, every pair of start states / observables that correspond through rho *)
Theorem C20_frun_alpha_invariant :
  forall (law : string -> list Qc -> dist Qc) (rho : var -> var),
    (forall x y : var, rho x = rho y -> x = y) ->
    forall (fp : flatprog) (n : nat) (s' s : state) (g' g : state -> Qc),
      (forall x, s' (rho x) = s x) ->
      (forall t' t : state, (forall x, t' (rho x) = t x) -> g' t' = g t) ->
      E (frun law (rename_fp rho fp) n s') g' = E (frun law fp n s) g.
Proof. exact frun_alpha_invariant. Qed.
Print Assumptions C20_frun_alpha_invariant.

Theorem C20_frun_alpha_pullback :
  forall (law : string -> list Qc -> dist Qc) (rho : var -> var),
    (forall x y : var, rho x = rho y -> x = y) ->
    forall (fp : flatprog) (n : nat) (s' : state) (g : state -> Qc),
      (forall s1 s2 : state, (forall x, s1 x = s2 x) -> g s1 = g s2) ->
      E (frun law (rename_fp rho fp) n s') (fun t => g (fun x => t (rho x)))
      = E (frun law fp n (fun x => s' (rho x))) g.
Proof. exact frun_alpha_pullback. Qed.
Print Assumptions C20_frun_alpha_pullback.

(* instance: the counter shift.  (That Polar's transformers started at counter k0 + d emit
   [rename_fp (cshift d)] of what they emit at k0 is NOT proved here: it is checked on the
   real implementation by the harness.) *)
Theorem C20_counter_shift_semantic :
  forall (law : string -> list Qc -> dist Qc) (d : nat) (fp : flatprog) (n : nat)
         (s' : state) (g : state -> Qc),
    (forall s1 s2 : state, (forall x, s1 x = s2 x) -> g s1 = g s2) ->
    E (frun law (rename_fp (cshift d) fp) n s') (fun t => g (fun x => t (cshift d x)))
    = E (frun law fp n (fun x => s' (cshift d x))) g.
Proof. exact counter_shift_semantic. Qed.
Print Assumptions C20_counter_shift_semantic.

(* 4. the two name generators share one name space *)
From Polar Require Import HistoryCollide.

(* OLD RULE (before /repo e4a742c): MultiAssignTransformer's version names "_"+var+str i ARE
   counter names; "version names never equal counter names" was false ... *)
Theorem C20_multiassign_collision_old_rule_refuted :
  ~ (forall var i tag k, In tag polar_tags -> ma_name var i <> gen_name tag k).
Proof. exact multiassign_collision_refuted. Qed.
Print Assumptions C20_multiassign_collision_old_rule_refuted.

(* ... precisely for tag-named variables, at one value of the counter ... *)
Theorem C20_multiassign_collision_iff :
  forall var i tag k, ends_nondigit var = true -> ends_nondigit tag = true ->
    (ma_name var i = gen_name tag k <-> var = tag /\ i = k).
Proof. exact multiassign_collision_iff. Qed.
Print Assumptions C20_multiassign_collision_iff.

(* ... so whether it happened depended on how many names earlier analyses consumed *)
Theorem C20_multiassign_collision_depends_on_history :
  forall var i j k0 k0', ends_nondigit var = true ->
    ma_name var i = gen_name var (k0 + j) -> ma_name var i = gen_name var (k0' + j) -> k0 = k0'.
Proof. exact multiassign_collision_depends_on_history. Qed.
Print Assumptions C20_multiassign_collision_depends_on_history.

(* RULE AS COMMITTED (156ba8a, e4a742c, 221667c): a version name is prefixed with "_" until it is neither an
   identifier of the program text nor an existing variable: it never equals one of those ... *)
Theorem C20_version_name_avoids_existing :
  forall avoid var i, ~ In (version_name avoid var i) avoid.
Proof. exact version_name_avoids. Qed.
Print Assumptions C20_version_name_avoids_existing.

(* ... get_unique_var skips reserved names and always advances the counter ... *)
Theorem C20_unique_var_avoids_reserved :
  forall reserved tag k,
    ~ In (fst (unique_var reserved (List.length reserved) tag k)) reserved /\
    k < snd (unique_var reserved (List.length reserved) tag k).
Proof. exact unique_var_avoids. Qed.
Print Assumptions C20_unique_var_avoids_reserved.

(* OLD RULE (e4a742c, before 221667c): version names were not registered: a name handed out LATER
   (ConditionsReducer's _r<k>, ...) could equal a version name, at one counter value (found by this check) *)
Theorem C20_version_then_counter_collision_old_rule_refuted :
  ~ (forall avoid reserved var i tag k,
       (forall x, In x reserved -> In x avoid) ->
       fst (unique_var reserved (List.length reserved) tag k) <> version_name avoid var i).
Proof. exact version_then_counter_collision_old_rule_refuted. Qed.
Print Assumptions C20_version_then_counter_collision_old_rule_refuted.

(* rule since 221667c: every version name is registered as reserved; then no later name equals it *)
Theorem C20_reserved_versions_never_collide :
  forall avoid reserved var i tag k,
    In (version_name avoid var i) reserved ->
    fst (unique_var reserved (List.length reserved) tag k) <> version_name avoid var i.
Proof. exact reserved_versions_never_collide. Qed.
Print Assumptions C20_reserved_versions_never_collide.

(* the transformer step as committed: the picked name is fresh for the program AND for every later get_unique_var *)
Theorem C20_later_names_avoid_versions :
  forall avoid reserved var i tag k,
  let '(nm, reserved') := register_version avoid reserved var i in
  fst (unique_var reserved' (List.length reserved') tag k) <> nm /\ ~ In nm avoid.
Proof. exact later_names_avoid_versions. Qed.
Print Assumptions C20_later_names_avoid_versions.

(* alternative repair (not taken): the spelling "_<var>_<i>" is never a counter name of one of Polar's tags *)
Theorem C20_multiassign_fixed_never_collides :
  forall var i tag k, In tag polar_tags -> ma_name_fixed var i <> gen_name tag k.
Proof. exact multiassign_fixed_never_collides_polar. Qed.
Print Assumptions C20_multiassign_fixed_never_collides.

(* non-vacuity (tests by vm_compute, not theorems) *)

Definition ex_A : list (list Qc_cring) :=
  [[mkq 1 2; mkq 1 1; mkq 0 1]; [mkq 0 1; mkq 2 1; mkq 1 3]; [mkq 0 1; mkq 0 1; mkq 1 1]].
Definition ex_v : list Qc_cring := [mkq 6 1; mkq (-1) 1; mkq 1 1].
Definition ex_sigma : list nat := [2; 0; 1].

Example C20_nonvacuous_perm_hyps :
  is_permb ex_sigma 3 = true
  /\ length ex_A = 3 /\ forallb (fun r => length r =? 3) ex_A = true /\ length ex_v = 3.
Proof. vm_compute. repeat split. Qed.

(* the permutation is not the identity and moves the data *)
Example C20_nonvacuous_perm_moves :
  vec_eqb (permute ex_sigma ex_v) ex_v = false
  /\ vec_eqb (permute ex_sigma ex_v) [mkq 1 1; mkq 6 1; mkq (-1) 1] = true.
Proof. vm_compute. split; reflexivity. Qed.

Example C20_nonvacuous_perm_iter :
  vec_eqb (iter_mat (pmat ex_sigma ex_A) 5 (permute ex_sigma ex_v))
          (permute ex_sigma (iter_mat ex_A 5 ex_v)) = true
  /\ vec_eqb (iter_mat (pmat ex_sigma ex_A) 5 (permute ex_sigma ex_v)) (iter_mat ex_A 5 ex_v) = false.
Proof. vm_compute. split; reflexivity. Qed.

(* a memo run with a hit, a miss, a truncation to one entry, and a pre-filled table *)
Example C20_nonvacuous_memo :
  run Nat.eqb (fun x => x * x) [(7, 49)] [Call 3; Call 7; Call 3; Replace [(3, 9)]; Call 7; Call 3]
  = ([9; 49; 9; 49; 9], [(7, 49); (3, 9)]).
Proof. vm_compute. reflexivity. Qed.

Example C20_nonvacuous_memo_hit :
  snd (memo_call Nat.eqb (fun x => x * x) [(3, 9)] 3) = [(3, 9)]
  /\ snd (memo_call Nat.eqb (fun x => x * x) [] 3) = [(3, 9)].
Proof. vm_compute. split; reflexivity. Qed.

Example C20_nonvacuous_names :
  names_from ["t"; "old"; "u"]%string 0 = ["_t0"; "_old1"; "_u2"]%string
  /\ gen_name "old" 12 = "_old12"%string
  /\ parse_name "_old12" = Some ("old"%string, 12)
  /\ names_from ["t"; "old"; "u"]%string 10 = map (cshift 10) ["_t0"; "_old1"; "_u2"]%string
  /\ cshift 10 "x"%string = "x"%string /\ cshift 3 "_t007"%string = "_t007"%string
  /\ forallb digit_free polar_tags = true.
Proof. vm_compute. repeat split. Qed.

Example C20_nonvacuous_collision :
  ma_name "t" 1 = gen_name "t" 1 /\ ma_name "t" 1 = "_t1"%string /\ ma_name_fixed "t" 1 = "_t_1"%string
  /\ nth 1 (names_from ["t"; "t"]%string 0) ""%string = ma_name "t" 1
  /\ In (ma_name "t" 1) (names_from ["t"; "t"]%string 2) = In "_t1"%string ["_t2"; "_t3"]%string.
Proof. vm_compute. repeat split. Qed.

(* the committed rule on the two witnesses: t (fixed: the temporary _t1 exists, so the version becomes __t1) and
   r (open: the version _r1 is picked first, the alias _r1 is handed out later) *)
Example C20_nonvacuous_version_rule :
  version_name ["t"; "x"; "y"; "_t0"; "_t1"]%string "t" 1 = "__t1"%string
  /\ version_name ["r"; "f"; "g"; "x"; "_old0"]%string "r" 1 = "_r1"%string
  /\ unique_var ["r"; "f"; "g"; "x"]%string 4 "r" 1 = ("_r1"%string, 2)
  /\ unique_var ["r"; "f"; "g"; "x"; "_r1"]%string 5 "r" 1 = ("_r2"%string, 3).
Proof. vm_compute. repeat split. Qed.

Example C20_nonvacuous_or_chain :
  holds (or_chain "x"%string [mkq 1 1; mkq 2 1; mkq 5 1]) (upd st0 "x"%string (mkq 5 1)) = true
  /\ holds (or_chain "x"%string [mkq 5 1; mkq 1 1; mkq 2 1]) (upd st0 "x"%string (mkq 5 1)) = true
  /\ holds (or_chain "x"%string [mkq 5 1; mkq 1 1; mkq 2 1]) (upd st0 "x"%string (mkq 3 1)) = false.
Proof. vm_compute. repeat split. Qed.
