(* C12 — simulation follows the same semantics and laws as the exact analysis.
   Property theorems, each closed by [exact] and followed by Print Assumptions; then an example
   program, shown well-formed, with non-vacuity examples by vm_compute.

   Model (theories/Simulator.v, SimulatorParse.v): [sim_run] is the Gallina transcription of
   Simulator.simulate/execute + Assignment.evaluate + the random sources as a DETERMINISTIC
   executor driven by a script of random choices; [enum_run] enumerates all scripts with their
   probabilities; [parse_prog] is the parser's desugaring (simultaneous assignment ->
   temporaries _t<k>, if/elif/else -> IfStatem); [Sem.run] is the reference semantics.
   The same [sim_run] is executed against the real simulator, script by script, on every
   `./check C12` (harness/checks/c12.py). *)
From Coq Require Import List String QArith Qcanon ZArith.
From Polar Require Import Qcx Dist Syntax Sem Simulator SimulatorParse SimulatorSamplerBase SimulatorSamplers SimulatorK.
From PolarGen Require Import SimSamplers.
Import ListNotations.
Local Open Scope Qc_scope.

(* The simulator transcription is the reference semantics.
   Summed over all scripts of random choices, with their probabilities, the state the
   simulator transcription reaches after n iterations has exactly the law Sem.run:
   for ALL source programs (not using the reserved names _t…, probabilistic choices of
   total weight 1), ALL n, ALL initial states, ALL counters of the temporary supply,
   ALL laws of the continuous families, and every observable that ignores temporaries. *)
Theorem C12_simulator_transcription_is_S :
  forall (law : string -> list Qc -> dist Qc) (p : prog) (k n : nat) (s0 : state) (f : state -> Qc),
    wf_prog law p -> respects f ->
    E (law_of (enum_run (sim_sample law) (parse_prog p k) n s0)) f = E (run law p n s0) f.
Proof. exact simulator_transcription_is_S. Qed.
Print Assumptions C12_simulator_transcription_is_S.

(* "all resolutions of the random choices": the enumeration is exactly the set of scripts on
   which the deterministic executor runs to completion — every enumerated script drives
   [sim_run] to that probability and end state through n+1 recorded states ... *)
Theorem C12_enumeration_sound :
  forall (sampler : rhs -> state -> dist Qc) (p : pprog) (n : nat) (s0 : state) (sc : script) (w : Qc) (s' : state),
    In (sc, (w, s')) (enum_run sampler p n s0) ->
    forall rest, exists tr, sim_run sampler p n s0 (sc ++ rest)%list = Some (w, tr, rest) /\
                            last tr s0 = s' /\ List.length tr = S n.
Proof. exact enum_run_sound. Qed.
Print Assumptions C12_enumeration_sound.

(* ... and no script is missing. *)
Theorem C12_enumeration_complete :
  forall (sampler : rhs -> state -> dist Qc) (p : pprog) (n : nat) (s0 : state) (sc : script) (w : Qc)
         (tr : list state) (rest : script),
    sim_run sampler p n s0 sc = Some (w, tr, rest) ->
    exists pre, sc = (pre ++ rest)%list /\ In (pre, (w, last tr s0)) (enum_run sampler p n s0).
Proof. exact enum_run_complete. Qed.
Print Assumptions C12_enumeration_complete.

(* the enumerated law of every statement / block of the parsed program is, entry by entry,
   its monadic reading (no hypothesis at all) *)
Theorem C12_enumeration_is_monadic :
  forall (sampler : rhs -> state -> dist Qc),
    (forall st s, law_of (enum_stmt sampler st s) = pexec_stmt sampler st s) /\
    (forall b s, law_of (enum_block sampler b s) = pexec_block sampler b s) /\
    (forall bs s, option_map law_of (enum_branches sampler bs s) = pexec_branches sampler bs s).
Proof. exact law_enum. Qed.
Print Assumptions C12_enumeration_is_monadic.

(* for programs given directly in the parsed form (assignments with arbitrary condition and
   default variable, as Assignment.evaluate supports): summed over all scripts the executor
   has the law of the monadic reading [prun] — no hypothesis *)
Theorem C12_parsed_program_law :
  forall (sampler : rhs -> state -> dist Qc) (p : pprog) (n : nat) (s0 : state) (f : state -> Qc),
    E (law_of (enum_run sampler p n s0)) f = E (prun sampler p n s0) f.
Proof. exact enum_run_law. Qed.
Print Assumptions C12_parsed_program_law.

(* first-match: an IfStatem executes exactly the first branch whose condition holds, the
   else branch when none does (and nothing when there is no else branch: PNil) *)
Theorem C12_if_first_match :
  forall (sampler : rhs -> state -> dist Qc) (bs : pbranches) (els : pblock) (s : state) (sc : script),
    sim_stmt sampler (PIf bs els) s sc =
    sim_block sampler (match first_match bs s with Some b => b | None => els end) s sc.
Proof. exact sim_if_first_match. Qed.
Print Assumptions C12_if_first_match.

(* frozen state: once the guard is false on the last state, every later state of the
   simulated run is a copy of it, with probability 1 and without consuming randomness;
   and the reference semantics' iteration is the identity there *)
Theorem C12_state_frozen_once_guard_false :
  forall (sampler : rhs -> state -> dist Qc) (p : pprog) (n : nat) (s : state) (sc : script),
    holds (pp_guard p) s = false -> sim_loop sampler p n s sc = Some (1, repeat s n, sc).
Proof. exact sim_loop_frozen. Qed.
Print Assumptions C12_state_frozen_once_guard_false.

Theorem C12_iter_frozen :
  forall (law : string -> list Qc -> dist Qc) (p : prog) (s : state),
    holds (p_guard p) s = false -> iter law p s = ret s.
Proof. exact iter_frozen. Qed.
Print Assumptions C12_iter_frozen.

(* the first k iterations of a run of k+m iterations are the run of k iterations on the
   same script: state k of ANY longer simulation is the end state of the k-iteration one *)
Theorem C12_prefix_determinism :
  forall (sampler : rhs -> state -> dist Qc) (p : pprog) (k m : nat) (s : state) (sc : script) (w : Qc)
         (tr : list state) (rest : script),
    sim_loop sampler p (k + m) s sc = Some (w, tr, rest) ->
    exists w1 tr1 mid w2 tr2,
      sim_loop sampler p k s sc = Some (w1, tr1, mid) /\
      sim_loop sampler p m (last tr1 s) mid = Some (w2, tr2, rest) /\ w = w1 * w2 /\ tr = (tr1 ++ tr2)%list.
Proof. exact sim_loop_split. Qed.
Print Assumptions C12_prefix_determinism.

(* the hypothesis "total weight 1" holds by construction for the parser's implicit last
   probability  x = e1 {p1} ... em {pm} e   (1-p1-...-pm is appended) *)
Theorem C12_implicit_last_probability_has_unit_mass :
  forall (law : string -> list Qc -> dist Qc) (ps es : list expr) (e : expr) (s : state),
    List.length es = List.length ps ->
    mass (sample law (RChoice ((combine ps es ++ [(implicit_last ps, e)])%list)) s) = 1.
Proof. exact implicit_last_unit_mass. Qed.
Print Assumptions C12_implicit_last_probability_has_unit_mass.

(* random.choices(values, weights): probabilities are the normalised weights; they are the
   weights themselves when these sum to 1 *)
Theorem C12_choice_sampler_law :
  forall d : dist Qc, mass d <> 0 ->
    mass (normalise_w d) = 1 /\ (forall f, E (normalise_w d) f = E d f / mass d) /\
    (mass d = 1 -> normalise_w d = d).
Proof. exact choice_sampler_law. Qed.
Print Assumptions C12_choice_sampler_law.

(* The sampler descriptors generated from program/distribution/*.py:
   every value a sample method can return lies in get_support(), for ALL parameters *)
Theorem C12_sampler_support_bernoulli : forall sq env envl z,
  desc_std_supp sq env bernoulli_sample z -> in_supp sq env envl bernoulli_support (realise sq env bernoulli_sample z).
Proof. exact bernoulli_sampler_support. Qed.
Print Assumptions C12_sampler_support_bernoulli.

Theorem C12_sampler_support_uniform : forall sq env envl z, env "a"%string <= env "b"%string ->
  desc_std_supp sq env uniform_sample z -> in_supp sq env envl uniform_support (realise sq env uniform_sample z).
Proof. exact uniform_sampler_support. Qed.
Print Assumptions C12_sampler_support_uniform.

Theorem C12_sampler_support_exponential : forall sq env envl z, 0 < env "lamb"%string ->
  desc_std_supp sq env exponential_sample z -> in_supp sq env envl exponential_support (realise sq env exponential_sample z).
Proof. exact exponential_sampler_support. Qed.
Print Assumptions C12_sampler_support_exponential.

Theorem C12_sampler_support_gamma : forall sq env envl z, 0 < env "theta"%string ->
  desc_std_supp sq env gamma_sample z -> in_supp sq env envl gamma_support (realise sq env gamma_sample z).
Proof. exact gamma_sampler_support. Qed.
Print Assumptions C12_sampler_support_gamma.

Theorem C12_sampler_support_beta : forall sq env envl z, 0 <= env "scale"%string ->
  desc_std_supp sq env beta_sample z -> in_supp sq env envl beta_support (realise sq env beta_sample z).
Proof. exact beta_sampler_support. Qed.
Print Assumptions C12_sampler_support_beta.

Theorem C12_sampler_support_normal : forall sq env envl z,
  desc_std_supp sq env normal_sample z -> in_supp sq env envl normal_support (realise sq env normal_sample z).
Proof. exact normal_sampler_support. Qed.
Print Assumptions C12_sampler_support_normal.

Theorem C12_sampler_support_laplace : forall sq env envl z,
  desc_std_supp sq env laplace_sample z -> in_supp sq env envl laplace_support (realise sq env laplace_sample z).
Proof. exact laplace_sampler_support. Qed.
Print Assumptions C12_sampler_support_laplace.

Theorem C12_sampler_support_categorical : forall sq env envl w v,
  In (w, v) (desc_law envl categorical_sample) -> in_supp sq env envl categorical_support v.
Proof. exact categorical_sampler_support. Qed.
Print Assumptions C12_sampler_support_categorical.

Theorem C12_sampler_law_categorical : forall envl,
  mass (cat_law (envl "probabilities"%string) 0) = 1 ->
  desc_law envl categorical_sample = cat_law (envl "probabilities"%string) 0.
Proof. exact categorical_sampler_law. Qed.
Print Assumptions C12_sampler_law_categorical.

Theorem C12_sampler_support_discreteuniform : forall sq env envl w v,
  In (w, v) (desc_law envl discreteuniform_sample) -> in_supp sq env envl discreteuniform_support v.
Proof. exact discreteuniform_sampler_support. Qed.
Print Assumptions C12_sampler_support_discreteuniform.

(* sample parameters are interpreted identically: mean and variance of the sampled law are
   those of the family in Polar's parameterisation, for ALL parameters *)
Theorem C12_sampler_params_bernoulli : forall sq env,
  sampler_mean_var sq env bernoulli_sample = Some (polar_mean_var "bernoulli" env).
Proof. exact bernoulli_sampler_params. Qed.
Print Assumptions C12_sampler_params_bernoulli.

Theorem C12_sampler_params_uniform : forall sq env,
  sampler_mean_var sq env uniform_sample = Some (polar_mean_var "uniform" env).
Proof. exact uniform_sampler_params. Qed.
Print Assumptions C12_sampler_params_uniform.

Theorem C12_sampler_params_exponential : forall sq env, env "lamb"%string <> 0 ->
  sampler_mean_var sq env exponential_sample = Some (polar_mean_var "exponential" env).
Proof. exact (fun sq env _ => exponential_sampler_params sq env). Qed.
Print Assumptions C12_sampler_params_exponential.

Theorem C12_sampler_params_gamma : forall sq env,
  sampler_mean_var sq env gamma_sample = Some (polar_mean_var "gamma" env).
Proof. exact gamma_sampler_params. Qed.
Print Assumptions C12_sampler_params_gamma.

Theorem C12_sampler_params_beta : forall sq env,
  env "a"%string + env "b"%string <> 0 -> env "a"%string + env "b"%string + 1 <> 0 ->
  sampler_mean_var sq env beta_sample = Some (polar_mean_var "beta" env).
Proof. exact (fun sq env _ _ => beta_sampler_params sq env). Qed.
Print Assumptions C12_sampler_params_beta.

Theorem C12_sampler_params_normal : forall sq env,
  sq (env "sigma2"%string) * sq (env "sigma2"%string) = env "sigma2"%string ->
  sampler_mean_var sq env normal_sample = Some (polar_mean_var "normal" env).
Proof. exact normal_sampler_params. Qed.
Print Assumptions C12_sampler_params_normal.

Theorem C12_sampler_params_laplace : forall sq env,
  sampler_mean_var sq env laplace_sample = Some (polar_mean_var "laplace" env).
Proof. exact laplace_sampler_params. Qed.
Print Assumptions C12_sampler_params_laplace.

(* TruncNormal.sample (repaired in /repo 5c6c4c3: standardised bounds): samples lie in get_support() = [a, b] *)
Theorem C12_sampler_support_truncnormal : forall sq env envl z, 0 < sq (env "sigma2"%string) ->
  desc_std_supp sq env truncnormal_sample z -> in_supp sq env envl truncnormal_support (realise sq env truncnormal_sample z).
Proof. exact truncnormal_sampler_support. Qed.
Print Assumptions C12_sampler_support_truncnormal.

(* the rule before the repair (hand-written descriptor truncnorm.rvs(a, b, loc=mu, scale=sigma), scipy expects the
   standardised bounds): samples leave [a, b] — kept so that a return of the defect has a named theorem *)
Theorem C12_truncnormal_sampler_old_rule_refuted :
  exists (sq : Qc -> Qc) (env : string -> Qc) (envl : string -> list Qc) (z : Qc),
    sq (env "sigma2"%string) * sq (env "sigma2"%string) = env "sigma2"%string /\
    env "a"%string < env "b"%string /\
    desc_std_supp sq env truncnormal_sample_old z /\
    ~ in_supp sq env envl truncnormal_support (realise sq env truncnormal_sample_old z).
Proof. exact truncnormal_sampler_old_rule_refuted. Qed.
Print Assumptions C12_truncnormal_sampler_old_rule_refuted.

(* the arithmetic behind the repair: standardised bounds keep the sample in [a, b] *)
Theorem C12_truncnormal_standardised_ok :
  forall mu sigma a b z : Qc, 0 < sigma ->
    (a - mu) / sigma <= z -> z <= (b - mu) / sigma -> a <= mu + sigma * z /\ mu + sigma * z <= b.
Proof. exact truncnormal_standardised_ok. Qed.
Print Assumptions C12_truncnormal_standardised_ok.

Open Scope string_scope.
(* Non-vacuity, on the program
   x = 0; c = 1; while c == 1: x, c = x + c, c {1/2} 0   — a simultaneous assignment with a choice *)
Definition ex_prog : prog :=
  {| p_init := BCons (SAssign "x" (RDet (EConst (mkq 0 1)))) (BCons (SAssign "c" (RDet (EConst (mkq 1 1)))) BNil);
     p_guard := CAtom (EVar "c") Ceq (EConst (mkq 1 1));
     p_body := BCons (SSimult [("x", RDet (EAdd (EVar "x") (EVar "c")));
                               ("c", RChoice [(EConst (mkq 1 2), EVar "c"); (ESub (EConst (mkq 1 1)) (EConst (mkq 1 2)), EConst (mkq 0 1))])]) BNil |}.

(* the hypotheses of the main theorem are satisfiable: ex_prog is well-formed *)
Example C12_nonvacuous_wf : wf_prog no_law ex_prog.
Proof.
  assert (Hdet : forall e, expr_notmp e -> wf_rhs no_law (RDet e)).
  { intros e He. split; [repeat constructor; exact He | intros s; apply det_unit_mass]. }
  split; [|split].
  - split; [split; [reflexivity | apply Hdet; exact I] |].
    split; [split; [reflexivity | apply Hdet; exact I] | exact I].
  - split; [reflexivity | exact I].
  - split; [|exact I]. constructor; [|constructor; [|constructor]].
    + split; [reflexivity | apply Hdet; split; reflexivity].
    + split; [reflexivity | split; [repeat constructor|]].
      (* the choice is what the parser makes of  c {1/2} 0 : last probability 1 - 1/2 *)
      intros s. exact (implicit_last_unit_mass no_law [EConst (mkq 1 2)] [EVar "c"] (EConst (mkq 0 1)) s eq_refl).
Qed.

(* the enumeration at n = 2 has 3 scripts: total probability 1 and E[x] = 3/2 on both sides *)
Example C12_nonvacuous_run :
  (k_enum ex_prog 2 = [3%Z; 1%Z; 1%Z]) /\
  E (law_of (enum_run (sim_sample no_law) (parse_prog ex_prog 0) 2 st0)) (fun s => s "x") = mkq 3 2 /\
  E (run no_law ex_prog 2 st0) (fun s => s "x") = mkq 3 2.
Proof. vm_compute. repeat split; reflexivity. Qed.

(* the executor on one script: init consumes 2 entries (deterministic random.choices calls),
   each iteration 4 (two temporaries, two copies); second iteration frozen after c = 0 *)
Example C12_nonvacuous_script :
  k_script ex_prog 2 ["x"; "c"] [0; 0; 0; 1; 0; 0]%nat =
  [1; 0; 1; 2;  0; 1; 1; 1;  1; 1; 0; 1;  1; 1; 0; 1]%Z.
Proof. vm_compute. reflexivity. Qed.

(* the reading of ">=" shared by conditions (evaluate_cop) and the analysis: equality included.
   (`--simulate` decided tail-bound goals P(X >= c) as False at X = c before /repo f308946; c12.py re-checks it) *)
Theorem C12_ge_includes_equality : forall x : Qc, cop_holds Cge x x = true /\ cop_holds Cle x x = true.
Proof. exact cop_refl. Qed.
Print Assumptions C12_ge_includes_equality.
