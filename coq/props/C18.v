(* C18 — loops within the documented restrictions are accepted and analysable; whatever Polar
   refuses, it refuses with an error, never with a wrong or partial result.

   What is proved here (all inputs of the models), and what is not:
   * the documented class as a boolean [in_class] on SOURCE programs (InClass.v, with the README
     sentences it formalises), its reading of restriction 3, and the soundness of its value
     analysis against Sem.run at every loop head (restriction 1 for the guard, semantically);
   * [C18_graph_model]: Graph.get_defective_nodes marks exactly the nodes that are reachable from a
     cycle containing a non-linear edge — all finite labelled graphs, DFS with fuel = |V|;
   * the monomial worklist of RecBuilder.get_recurrences: a returned system is closed, its rows are
     exact one-step identities, the goal has a row; the answer is an error or such a system
     ([refusal_is_error]); termination with the explicit fuel bound |U| inside any finite universe
     U closed under get_recurrence ([C18_worklist_terminates_linear_partial]);
   * models of three code sites behind former refusals INSIDE the documented class (defects 17, 19,
     18 of DESIGN section 6, repaired in /repo a5588d1, 99cc64b, 84580b5): positive theorems for the
     repaired rules, *_old_rule_refuted regression witnesses for the rules before.
   NOT proved: [in_class p = true -> normalize_program accepts p] (no Coq model of the nine passes;
   the statement is FALSE on the current tree: a finite variable reassigned from itself under a
   loop guard or inside a branch is refused, the finding C18 #22 that DESIGN section 11.7 lists as
   open and ./check C18 reports as known; defects 12, 16, 20 were repaired by /repo 0de310e), and that the universe of type-reduced monomials is
   closed under get_recurrence for every program that is linear in its non-finite variables
   (the termination theorem of "This Is the Moment for Probabilistic Loops", OOPSLA'22, Thm 4.x);
   per instance the hypothesis is decided by the executable [universe_closedb]. *)
From Coq Require Import List String QArith Qcanon ZArith Bool Arith.
From Polar Require Import Qcx CRing ExpPoly ClosedForm Dist Syntax Sem Types Poly Pipeline Wp
  Graph InClass InClassSound InClassWorklist InClassAtoms.
Import ListNotations.
Open Scope string_scope.

(* The documented class: what [in_class] requires, and that its clauses mean what the README says. *)
Theorem C18_in_class_characterisation :
  forall (p : prog) (D : tenv),
    in_class p D = true <->
    initialised p D = true /\ params_const p D = true /\
    exists T, loop_env p D = Some T /\ conditions_finite p D T = true /\ defective_vars p D T = [].
Proof. exact in_class_unfold. Qed.
Print Assumptions C18_in_class_characterisation.

(* README restriction 3 in its own words: in an in-class program no non-linear dependency
   v -> u is closed to a cycle by a dependency path u ->* v *)
Theorem C18_in_class_no_nonlinear_cycle :
  forall (p : prog) (D : tenv),
    in_class p D = true ->
    exists T, loop_env p D = Some T /\
      let nodes := prog_vars p D in
      let adj := adj_of_edges nodes (dep_edges p D T) in
      forall v u : nat, (v < List.length nodes)%nat -> (u < List.length nodes)%nat -> adj v u = 2%nat ->
        ~ reach (List.length nodes) adj u v.
Proof. exact in_class_no_nonlinear_cycle. Qed.
Print Assumptions C18_in_class_no_nonlinear_cycle.

(* the value analysis behind in_class is SOUND for the reference semantics (no declared types):
   whatever it types is finitely valued at every loop head, after any number of iterations,
   whether the guard still holds or the state is frozen *)
Theorem C18_value_analysis_sound :
  forall (law : string -> list Qc -> dist Qc) (p : prog) (T : tenv),
    loop_env p [] = Some T ->
    forall n s0 s, supp (run law p n s0) s -> typed T s.
Proof. exact loop_env_sound. Qed.
Print Assumptions C18_value_analysis_sound.

(* README restriction 1 for the loop guard, semantically: in an in-class program every atom a cop b of
   the guard only ever compares finitely many values (a - b ranges over one explicit finite list in
   every reachable state of every iteration) *)
Theorem C18_in_class_guard_finitely_valued :
  forall (law : string -> list Qc -> dist Qc) (p : prog),
    in_class p [] = true ->
    forall a b, In (a, b) (cond_atoms (p_guard p)) ->
    exists vs : list Qc, forall n s0 s, supp (run law p n s0) s -> In (eval (ESub a b) s) vs.
Proof. exact in_class_guard_finitely_valued. Qed.
Print Assumptions C18_in_class_guard_finitely_valued.

(* Polar's own test of restriction 3: the model of Graph.get_defective_nodes. *)
(* the DFS from a fresh mark array, with fuel = number of nodes, computes reachability *)
Theorem C18_dfs_reachability :
  forall (V : nat) (adj : nat -> nat -> nat) (v i : nat),
    (v < V)%nat -> (mark_from V adj v i = true <-> reach V adj v i).
Proof. exact mark_from_spec. Qed.
Print Assumptions C18_dfs_reachability.

(* soundness AND completeness of get_defective_nodes against its docstring, all finite graphs *)
Theorem C18_graph_model :
  forall (V : nat) (adj : nat -> nat -> nat) (i : nat),
    get_defective V adj i = true <->
    exists w, (exists v u, (v < V)%nat /\ (u < V)%nat /\ adj v u = 2%nat /\ reach V adj u w /\ reach V adj w v)
              /\ reach V adj w i.
Proof. exact get_defective_correct. Qed.
Print Assumptions C18_graph_model.

Theorem C18_no_defective_iff_no_nonlinear_cycle :
  forall (V : nat) (adj : nat -> nat -> nat),
    defective_list V adj = [] <->
    (forall v u, (v < V)%nat -> (u < V)%nat -> adj v u = 2%nat -> ~ reach V adj u v).
Proof. exact no_defective_iff. Qed.
Print Assumptions C18_no_defective_iff_no_nonlinear_cycle.

(* Analysable, or refused with an error: the monomial worklist of RecBuilder.get_recurrences. *)
(* system_closed: for all fuel, programs, types, goals — every monomial on a right-hand side has
   its own equation *)
Theorem C18_system_closed :
  forall (step : mono -> option poly) (fuel : nat) (M : mono) (sys : list (mono * poly)),
    recurrences step fuel M = Some sys ->
    forall m q, In (m, q) sys -> forall m', In m' (rhs_monos q) -> In m' (map fst sys).
Proof. exact recurrences_closed. Qed.
Print Assumptions C18_system_closed.

(* refusal_is_error: the model returns None or a COMPLETE system (closed, every row the answer of
   get_recurrence, containing the goal) — there is no path that returns a partial system *)
Theorem C18_refusal_is_error :
  forall (step : mono -> option poly) (fuel : nat) (M : mono),
    recurrences step fuel M = None \/
    exists sys, recurrences step fuel M = Some sys /\ closed_sys sys /\ rows_ok step sys /\ In (mnorm M) (map fst sys).
Proof. exact refusal_is_error. Qed.
Print Assumptions C18_refusal_is_error.

Theorem C18_refusal_propagates :
  forall (step : mono -> option poly) (fuel : nat) (m : mono) (todo : list mono) (sys : list (mono * poly)),
    step m = None -> worklist step fuel (m :: todo) sys = None.
Proof. exact worklist_step_fails. Qed.
Print Assumptions C18_refusal_propagates.

(* with Polar's get_recurrence (Wp.wp_gas) every returned equation is an exact one-step
   expectation identity on typed states: a returned system is never "wrong" either *)
Theorem C18_returned_rows_exact :
  forall law cmom fuel fp T M sys,
    cmom_ok law cmom -> forallb (check_ga T) (fp_body fp) = true ->
    recurrences_fp cmom fuel fp T M = Some sys ->
    forall m q, In (m, q) sys -> forall s, typed T s ->
      E (fstep law fp s) (eval_mono m) = eval_poly q s.
Proof. exact recurrences_fp_exact. Qed.
Print Assumptions C18_returned_rows_exact.

(* worklist_terminates_linear — PARTIAL.  Proved: inside ANY finite universe U of monomials that
   contains the goal and is closed under get_recurrence, the worklist terminates with fuel |U|
   (explicit bound; for finitely typed variables U = the type-reduced monomials, |U| = prod |T x|).
   Missing: that this universe is closed for every flat program whose assignments are linear in
   the non-finite variables (OOPSLA'22); the hypothesis is decided per instance by
   [universe_closedb] (next theorem) and exercised by ./check C18 on Polar's own flat programs. *)
Theorem C18_worklist_terminates_linear_partial :
  forall (step : mono -> option poly) (U : list mono) (fuel : nat) (M : mono),
    (forall m, In m U -> exists q, step m = Some q /\ forall m', In m' (rhs_monos q) -> In m' U) ->
    In (mnorm M) U -> (List.length U <= fuel)%nat ->
    exists sys, recurrences step fuel M = Some sys /\ closed_sys sys /\ rows_ok step sys /\ In (mnorm M) (map fst sys).
Proof. exact recurrences_terminate. Qed.
Print Assumptions C18_worklist_terminates_linear_partial.

Theorem C18_universe_test_sound :
  forall (step : mono -> option poly) (U : list mono), universe_closedb step U = true -> universe_closed step U.
Proof. exact universe_closedb_sound. Qed.
Print Assumptions C18_universe_test_sound.

(* the simplest class — all variables finitely typed: the type-reduced monomials are an explicit
   universe with prod |T x| elements, and that number is enough fuel for EVERY goal in it.
   PARTIAL: closedness of this universe is the executable hypothesis (decided in the kernel for
   Polar's own flat programs by ./check C18), not yet a theorem for all all-finite programs. *)
Theorem C18_finite_class_terminates_partial :
  forall cmom fp T M,
    universe_closedb (polar_step cmom fp T) (reduced_universe T) = true ->
    In (mnorm M) (reduced_universe T) ->
    exists sys, recurrences_fp cmom (prod_sizes T) fp T M = Some sys /\
                closed_sys sys /\ rows_ok (polar_step cmom fp T) sys /\ In (mnorm M) (map fst sys).
Proof. exact finite_class_terminates. Qed.
Print Assumptions C18_finite_class_terminates_partial.

Theorem C18_reduced_universe_size :
  forall T, List.length (reduced_universe T) = prod_sizes T.
Proof. exact reduced_universe_length. Qed.
Print Assumptions C18_reduced_universe_size.

(* a system returned once bounds the fuel for every monomial in it *)
Theorem C18_returned_system_bounds_fuel :
  forall (step : mono -> option poly) (fuel0 : nat) (M0 : mono) (sys : list (mono * poly)),
    recurrences step fuel0 M0 = Some sys -> universe_closed step (map fst sys).
Proof. exact returned_system_is_universe. Qed.
Print Assumptions C18_returned_system_bounds_fuel.

(* Acceptance inside the class: the three small models follow the REPAIRED code (/repo a5588d1, 99cc64b, 84580b5);
   the positive statements hold without extra hypotheses, the *_old_rule_refuted theorems are the
   regression witnesses of defects 17, 19, 18 on the rules before the repairs *)
Theorem C18_normalized_conditions_arithmetizable :
  forall T a c, get_normalized T a = NOk c -> arithm_defined T c = true.
Proof. exact normalized_arithmetizable. Qed.
Print Assumptions C18_normalized_conditions_arithmetizable.

(* defect 17, old rule (is_normalized demanded an integer): x = 1/2 {1/2} 3/2; if x < 1 *)
Theorem C18_acceptance_nonint_old_rule_refuted :
  exists T a c, get_normalized T a = NOk c /\ arithm_defined_old T c = false /\ arithm_defined T c = true.
Proof. exact normalized_arithmetizable_old_rule_refuted. Qed.
Print Assumptions C18_acceptance_nonint_old_rule_refuted.

Theorem C18_constant_folding_keeps_reduced :
  forall k v conds, forallb is_reduced conds = true -> forallb is_reduced (fold_constant k v conds) = true.
Proof. exact fold_constant_keeps_reduced. Qed.
Print Assumptions C18_constant_folding_keeps_reduced.

(* defect 19, old rule (fold every fixed constant into the reduced atoms): a = 1; if a == 0 *)
Theorem C18_acceptance_constant_atom_old_rule_refuted :
  exists k v conds T, forallb is_reduced conds = true /\
    existsb (fun a => match get_normalized T a with NErr => true | _ => false end) (fold_constant_old k v conds) = true /\
    forallb is_reduced (fold_constant k v conds) = true.
Proof. exact constants_after_reducer_old_rule_refuted. Qed.
Print Assumptions C18_acceptance_constant_atom_old_rule_refuted.

Theorem C18_goals_indexed :
  forall consts body_vars goal_vars, goal_index consts body_vars goal_vars <> None.
Proof. exact goal_indexed. Qed.
Print Assumptions C18_goals_indexed.

(* defect 18, old rule (dict lookup of every goal variable): k = 2; ... E(k*x) *)
Theorem C18_acceptance_goal_constant_old_rule_refuted :
  exists consts body_vars xs, last_assign_index_old body_vars xs = None /\ goal_index consts body_vars xs = Some 1%nat.
Proof. exact goal_over_folded_constant_old_rule_refuted. Qed.
Print Assumptions C18_acceptance_goal_constant_old_rule_refuted.

(* Non-vacuity (tests by evaluation): the class, the graph model and the worklist on concrete inputs. *)
(* the README's situation: x depends non-linearly on g, g not on x; finite c in a condition *)
Definition ex_in : prog :=
  {| p_init := BCons (SAssign "c" (RDet (EConst (mkq 0 1)))) (BCons (SAssign "g" (RDet (EConst (mkq 0 1))))
               (BCons (SAssign "x" (RDet (EConst (mkq 0 1)))) BNil));
     p_guard := CTrue;
     p_body := BCons (SAssign "c" (RDraw (DBern (EConst (mkq 1 2)))))
               (BCons (SIf (BrCons (CAtom (EVar "c") Ceq (EConst (mkq 1 1)))
                                   (BCons (SAssign "g" (RDet (EAdd (EVar "g") (EConst (mkq 1 1))))) BNil) BrNil) BNil)
               (BCons (SAssign "x" (RDet (EAdd (EVar "x") (EPow (EVar "g") 2)))) BNil)) |}.
Example C18_in_class_nonvacuous : in_class ex_in [] = true.
Proof. vm_compute. reflexivity. Qed.
(* x = x*y; y = x : a non-linear cycle *)
Definition ex_out : prog :=
  {| p_init := BCons (SAssign "x" (RDet (EConst (mkq 2 1)))) (BCons (SAssign "y" (RDet (EConst (mkq 1 1)))) BNil);
     p_guard := CTrue;
     p_body := BCons (SAssign "x" (RDet (EMul (EVar "x") (EVar "y")))) (BCons (SAssign "y" (RDet (EVar "x"))) BNil) |}.
Example C18_in_class_rejects_nonlinear_cycle :
  in_class_parts ex_out [] = [true; true; true; true; false].
Proof. vm_compute. reflexivity. Qed.
(* x = x + 1; if x > 3: an unbounded variable in a condition *)
Definition ex_unbounded : prog :=
  {| p_init := BCons (SAssign "x" (RDet (EConst (mkq 0 1)))) (BCons (SAssign "y" (RDet (EConst (mkq 0 1)))) BNil);
     p_guard := CTrue;
     p_body := BCons (SAssign "x" (RDet (EAdd (EVar "x") (EConst (mkq 1 1)))))
               (BCons (SIf (BrCons (CAtom (EVar "x") Cgt (EConst (mkq 3 1)))
                                   (BCons (SAssign "y" (RDet (EAdd (EVar "y") (EConst (mkq 1 1))))) BNil) BrNil) BNil) BNil) |}.
Example C18_in_class_rejects_unbounded_condition :
  in_class_parts ex_unbounded [] = [true; true; true; false; true].
Proof. vm_compute. reflexivity. Qed.
(* graphs: a non-linear edge on a 2-cycle taints both nodes and what they reach; on a path, nothing *)
Example C18_graph_nonvacuous :
  defective_of [[0; 2; 0]; [1; 0; 1]; [0; 0; 0]]%nat = [0; 1; 2]%nat /\
  defective_of [[0; 2; 0]; [0; 0; 1]; [0; 0; 0]]%nat = [] /\
  defective_of [[0; 1; 0]; [1; 0; 0]; [0; 0; 0]]%nat = [].
Proof. vm_compute. repeat split; reflexivity. Qed.
(* worklist: coin-flip accumulator  x = Bernoulli(1/2); y = y + x | x == 1 : goal y*y terminates
   with fuel 4 and the returned system is a closed universe *)
Definition cm0 : string -> list Qc -> nat -> Qc := fun _ _ _ => 0%Qc.
Definition ex_fp : flatprog :=
  {| fp_init := [ {| ga_var := "x"; ga_cond := CTrue; ga_default := "x"; ga_rhs := RDet (EConst (mkq 0 1)) |};
                  {| ga_var := "y"; ga_cond := CTrue; ga_default := "y"; ga_rhs := RDet (EConst (mkq 0 1)) |} ];
     fp_body := [ {| ga_var := "x"; ga_cond := CTrue; ga_default := "x"; ga_rhs := RDraw (DBern (EConst (mkq 1 2))) |};
                  {| ga_var := "y"; ga_cond := CAtom (EVar "x") Ceq (EConst (mkq 1 1)); ga_default := "y";
                     ga_rhs := RDet (EAdd (EVar "y") (EVar "x")) |} ] |}.
Definition ex_T : tenv := [("x", [mkq 0 1; mkq 1 1])].
Example C18_worklist_nonvacuous :
  match recurrences_fp cm0 4 ex_fp ex_T [("y", 2%nat)] with
  | Some sys => universe_closedb (polar_step cm0 ex_fp ex_T) (map fst sys) && Nat.eqb (List.length sys) 2
  | None => false
  end = true /\
  recurrences_fp cm0 1 ex_fp ex_T [("y", 2%nat)] = None.
Proof. vm_compute. split; reflexivity. Qed.
(* all variables finite:  x = Bernoulli(1/2); z = 1 - z | x == 1 : z  — the universe {1, x, z, x*z}
   is closed, so 4 = |T x| * |T z| steps suffice for every goal over x, z of any degree below the
   type sizes *)
Definition ex_fin : flatprog :=
  {| fp_init := [ {| ga_var := "x"; ga_cond := CTrue; ga_default := "x"; ga_rhs := RDet (EConst (mkq 0 1)) |};
                  {| ga_var := "z"; ga_cond := CTrue; ga_default := "z"; ga_rhs := RDet (EConst (mkq 0 1)) |} ];
     fp_body := [ {| ga_var := "x"; ga_cond := CTrue; ga_default := "x"; ga_rhs := RDraw (DBern (EConst (mkq 1 2))) |};
                  {| ga_var := "z"; ga_cond := CAtom (EVar "x") Ceq (EConst (mkq 1 1)); ga_default := "z";
                     ga_rhs := RDet (ESub (EConst (mkq 1 1)) (EVar "z")) |} ] |}.
Definition ex_fin_T : tenv := [("x", [mkq 0 1; mkq 1 1]); ("z", [mkq 0 1; mkq 1 1])].
Example C18_finite_class_nonvacuous :
  universe_closedb (polar_step cm0 ex_fin ex_fin_T) (reduced_universe ex_fin_T) = true /\
  prod_sizes ex_fin_T = 4%nat /\
  mono_mem (mnorm [("z", 1%nat); ("x", 1%nat)]) (reduced_universe ex_fin_T) = true.
Proof. vm_compute. repeat split; reflexivity. Qed.
