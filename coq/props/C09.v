(* C09 — moments after termination equal the expectation at loop exit. *)
From Coq Require Import List String QArith Qcanon ZArith Bool Reals.
From Coquelicot Require Import Coquelicot.
From Polar Require Import Qcx CRing ExpPoly ClosedForm Dist Syntax Sem Types Poly Pipeline Wp Search AfterLoop AfterLoopLimit.
Import ListNotations.
Open Scope string_scope.

(* The reference semantics: a stopped loop stays stopped, in its exit state. *)

(* guard false => the iteration does nothing (all programs, all states) *)
Theorem C09_frozen_after_exit :
  forall law p s, holds (p_guard p) s = false -> iter law p s = ret s.
Proof. exact frozen_after_exit. Qed.
Print Assumptions C09_frozen_after_exit.

(* ... for any number of further iterations, every expectation from a stopped state is the
   value at that state *)
Theorem C09_iters_stopped :
  forall law p m s (f : state -> Qc), stopped p s = true -> E (iters law p m s) f = f s.
Proof. exact iters_stopped. Qed.
Print Assumptions C09_iters_stopped.

(* one-step decomposition of the law after n+1 iterations *)
Theorem C09_run_step_split :
  forall law p n s0 (g : state -> Qc),
    E (run law p (S n) s0) g =
    E (run law p n s0) (fun s => if stopped p s then g s else E (exec_block law (p_body p) s) g).
Proof. exact run_step_split. Qed.
Print Assumptions C09_run_step_split.

(* the paths that have stopped by time n contribute to the law at ANY later time n+m exactly
   their exit state: "stopped by n" is decided by the guard in the state after n iterations,
   the guard cannot become true again and the state no longer changes *)
Theorem C09_exit_state_preserved :
  forall law p n m s0 (f : state -> Qc),
    E (run law p (n + m) s0) f =
    E (run law p n s0) (fun s => if stopped p s then f s else E (iters law p m s) f).
Proof. exact exit_state_preserved. Qed.
Print Assumptions C09_exit_state_preserved.

Theorem C09_stopped_stays_stopped :
  forall law p n m s0 (h : state -> Qc),
    E (run law p (n + m) s0) (fun s => ind (stopped p s) * h s)%Qc =
    (E (run law p n s0) (fun s => ind (stopped p s) * h s)
     + E (run law p n s0) (fun s => if stopped p s then 0
                                    else E (iters law p m s) (fun s' => ind (stopped p s') * h s')))%Qc.
Proof. exact stopped_stays_stopped. Qed.
Print Assumptions C09_stopped_stays_stopped.

(* for probability programs the probability of having stopped is monotone in n *)
Theorem C09_stopped_mass_monotone :
  forall law p s0, prob_prog law p s0 ->
  forall n m, (prob (run law p n s0) (stopped p) <= prob (run law p (n + m) s0) (stopped p))%Qc.
Proof. exact stopped_mass_monotone. Qed.
Print Assumptions C09_stopped_mass_monotone.

(* the (n+1)-th guard test fails iff the guard is false after n iterations, and then the state
   after n+1 iterations is the exit state: conditioning the state after n+1 iterations on
   "the (n+1)-th test failed" is conditioning the state after n iterations on "guard false" *)
Theorem C09_cond_exit_test_shift :
  forall law p n s0 (f : state -> Qc),
    cond_exp (run2 law p n s0) (fun ss => stopped p (fst ss)) (fun ss => f (snd ss)) =
    cond_exp (run law p n s0) (stopped p) f.
Proof. exact cond_exit_test_shift. Qed.
Print Assumptions C09_cond_exit_test_shift.

(* The ratio IS the conditional expectation:
   cond_exp d ev f = E[f 1_ev] / P(ev) is the expectation of f under the conditional law
   (restriction of d to ev, renormalised), which has mass 1 and lives on ev *)
Theorem C09_cond_exp_is_conditional :
  forall (A : Type) (d : dist A) (ev : A -> bool), prob d ev <> 0%Qc ->
    (forall f, E (condition ev d) f = cond_exp d ev f) /\
    mass (condition ev d) = 1%Qc /\
    (forall a, supp (condition ev d) a -> ev a = true /\ supp d a).
Proof. exact @cond_exp_is_conditional. Qed.
Print Assumptions C09_cond_exp_is_conditional.

(* What get_moment_given_termination computes (all flat programs, all polynomials, all n). *)
(* get_moment_poly: linearity over the monomials of the expanded polynomial *)
Theorem C09_moment_poly_linear :
  forall d p, moment_poly d p = E d (eval_poly p).
Proof. exact moment_poly_linear. Qed.
Print Assumptions C09_moment_poly_linear.

(* the indicator polynomial Not(G').to_arithm turns moments into moments on the event *)
Theorem C09_cond_moment_exact :
  forall law fp T G' q M,
    check_types fp T = true -> forall s0, init_ok fp T s0 -> arith T (CNot G') = Some q ->
    forall n, let d := frun law fp n s0 in
      (moment_poly d (pmul M q) / moment_poly d q)%Qc =
      cond_exp d (fun s => negb (holds G' s)) (eval_poly M).
Proof. exact cond_moment_exact. Qed.
Print Assumptions C09_cond_moment_exact.

(* V: acceptance of Polar's numerator / denominator closed forms (with the systems they were
   obtained from) means they are E[M 1_{not G'}]_n and P(not G')_n at EVERY n *)
Theorem C09_check_exit_sound :
  forall law cmom fp T G' M Ss c0N tsN fN spN c0D tsD fD spD,
    cmom_ok law cmom ->
    check_exit cmom fp T G' M Ss c0N tsN fN spN c0D tsD fD spD = true ->
    forall s0, init_ok fp T s0 -> forall n,
      let d := frun law fp n s0 in
      pw1 fN spN n = E d (fun s => ind (negb (holds G' s)) * eval_poly M s)%Qc /\
      pw1 fD spD n = prob d (fun s => negb (holds G' s)) /\
      (pw1 fN spN n / pw1 fD spD n)%Qc = cond_exp d (fun s => negb (holds G' s)) (eval_poly M).
Proof. exact check_exit_sound. Qed.
Print Assumptions C09_check_exit_sound.

(* the same validator evaluated in two pieces (program-wide part once, goal part per goal) *)
Theorem C09_check_exit_split_sound :
  forall law cmom fp T G' M Ss c0N tsN fN spN c0D tsD fD spD,
    cmom_ok law cmom ->
    check_base cmom fp T Ss = true -> check_part T G' M Ss c0N tsN fN spN c0D tsD fD spD = true ->
    forall s0, init_ok fp T s0 -> forall n,
      let d := frun law fp n s0 in
      pw1 fN spN n = E d (fun s => ind (negb (holds G' s)) * eval_poly M s)%Qc /\
      pw1 fD spD n = prob d (fun s => negb (holds G' s)) /\
      (pw1 fN spN n / pw1 fD spD n)%Qc = cond_exp d (fun s => negb (holds G' s)) (eval_poly M).
Proof. exact check_exit_split_sound. Qed.
Print Assumptions C09_check_exit_split_sound.

(* The guard Polar stores, which fixes the event conditioned on.
   Current rule (/repo 294789f): the stored guard is the source guard, so the event conditioned
   on is the termination event *)
Theorem C09_stored_guard_is_termination_event :
  forall p s, negb (holds (stored_guard p) s) = stopped p s.
Proof. exact stored_guard_is_termination_event. Qed.
Print Assumptions C09_stored_guard_is_termination_event.

(* OLD rule (guard merged with collapsed first-level if-conditions): right without a collapse ... *)
Theorem C09_stored_guard_old_collapse_free :
  forall fuel p s, collapse_free fuel p -> holds (stored_guard_old fuel p) s = holds (p_guard p) s.
Proof. exact stored_guard_old_collapse_free. Qed.
Print Assumptions C09_stored_guard_old_collapse_free.

(* ... in general only implied by the source guard: the event conditioned on contained the termination event *)
Theorem C09_stored_guard_old_weaker :
  forall fuel p s, stopped p s = true -> negb (holds (stored_guard_old fuel p) s) = true.
Proof. exact stored_guard_old_weaker. Qed.
Print Assumptions C09_stored_guard_old_weaker.

(* the OLD rule REFUTED (defect fixed in /repo 294789f; the check reports the witness again if it returns): for
     x = 0; c = Bernoulli(1/2); while x == 0: if c == 1: x = Bernoulli(1/2) end end
   the old stored guard is  x == 0 /\ c == 1; the exit expectation of x given termination is 1 at
   every n >= 1 of the sample, conditioning on the negated old stored guard gives
   0, 1/3, 3/7, 7/15, 15/31, 31/63 (-> 1/2, the value Polar printed) *)
Theorem C09_collapse_guard_old_rule_refuted :
  exists (p : prog) (f : state -> Qc) (n : nat),
    stored_guard_old 2 p <> p_guard p /\
    prob (run no_law p n st0) (stopped p) <> 0%Qc /\
    cond_exp (run no_law p n st0) (stopped p) f <>
    cond_exp (run no_law p n st0) (fun s => negb (holds (stored_guard_old 2 p) s)) f.
Proof. exact collapse_guard_old_rule_refuted. Qed.
Print Assumptions C09_collapse_guard_old_rule_refuted.

Example C09_collapse_witness_values :
  map (fun n => qpair (cond_x_given (stopped collapse_witness) n)) [1; 2; 3; 4; 5; 6]%nat
    = map (fun zp : Z * positive => zp) [(1%Z, 1%positive); (1%Z, 1%positive); (1%Z, 1%positive); (1%Z, 1%positive); (1%Z, 1%positive); (1%Z, 1%positive)] /\
  map (fun n => qpair (cond_x_given (fun s => negb (holds (stored_guard_old 2 collapse_witness) s)) n)) [0; 1; 2; 3; 4; 5]%nat
    = [(0%Z, 1%positive); (1%Z, 3%positive); (3%Z, 7%positive); (7%Z, 15%positive); (15%Z, 31%positive); (31%Z, 63%positive)].
Proof. vm_compute. split; reflexivity. Qed.

(* The limit n -> infinity of the ratio of the two closed forms (over R, Coquelicot's is_lim_seq). *)
Local Open Scope R_scope.
Theorem C09_geom_limit :
  forall (num den : nat -> R) a c ln ld,
    (forall n, num n = a + gsum ln n) -> (forall n, den n = c + gsum ld n) ->
    List.Forall (fun br => Rabs (snd br) < 1) ln -> List.Forall (fun br => Rabs (snd br) < 1) ld ->
    c <> 0 -> is_lim_seq (fun n => num n / den n) (a / c).
Proof. exact geom_limit. Qed.
Print Assumptions C09_geom_limit.

Theorem C09_poly_geom_decay :
  forall r k, Rabs r < 1 -> is_lim_seq (fun n => INR n ^ k * r ^ n) 0.
Proof. exact poly_geom_decay. Qed.
Print Assumptions C09_poly_geom_decay.

(* V for the limit: numerator and denominator closed forms that are a constant plus terms
   r^n P(n) with |r| < 1, constant of the denominator non-zero: the sequence of ratios (with
   whatever special values) converges to the ratio of the constants *)
Theorem C09_limit_value_sound :
  forall fN spN fD spD L, limit_value fN fD = Some L ->
    is_lim_seq (fun n => QcR (pw1 fN spN n / pw1 fD spD n)%Qc) (QcR L).
Proof. exact limit_value_sound. Qed.
Print Assumptions C09_limit_value_sound.

Theorem C09_geom_diverges :
  forall (num den rest : nat -> R) b r (l c : R),
    (forall n, num n = b * r ^ n + rest n) -> 0 < b -> 1 < r -> is_lim_seq rest l ->
    is_lim_seq den c -> 0 < c -> is_lim_seq (fun n => num n / den n) p_infty.
Proof. exact geom_diverges. Qed.
Print Assumptions C09_geom_diverges.

Theorem C09_linear_diverges :
  forall (num den rest : nat -> R) b (l c : R),
    (forall n, num n = b * INR n + rest n) -> 0 < b -> is_lim_seq rest l ->
    is_lim_seq den c -> 0 < c -> is_lim_seq (fun n => num n / den n) p_infty.
Proof. exact linear_diverges. Qed.
Print Assumptions C09_linear_diverges.

(* non-vacuity of the limit validator: num = 2 - (n+2) 2^-n... as data:
   numerator 2 - 2*(1/2)^n - 2 n (1/2)^n, denominator 1 - 2 (1/2)^n  ->  2 *)
Example C09_limit_value_nonvacuous :
  limit_value [(mkq 1 1, [mkq 2 1]); (mkq 1 2, [mkq (-2) 1; mkq (-2) 1])]
              [(mkq 1 1, [mkq 1 1]); (mkq 1 2, [mkq (-2) 1])] = Some (mkq 2 1).
Proof. vm_compute. reflexivity. Qed.
