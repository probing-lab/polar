(* C10 — reported sensitivities are the parameter derivatives of the exact moments.
   Property theorems, each closed by [exact] and followed by Print Assumptions; then an example
   system with non-vacuity and refutation examples by vm_compute. *)
From Coq Require Import List Bool QArith Qcanon.
From Polar Require Import Qcx CRing ExpPoly ClosedForm Sens SensModel.
Import ListNotations.

(* the dual numbers R[eps]/(eps^2) over any commutative ring are a commutative ring with a
   sound equality test (a [cring]); eps^2 = 0 *)
Theorem C10_dual_numbers_ring :
  forall R : cring, ring_theory (R := dual_cring R) r0 r1 radd rmul rsub ropp eq
                    /\ rmul (c := dual_cring R) (r0, r1) (r0, r1) = r0.
Proof. intros R. split; [exact (dual_rth R) | exact (dual_eps_sq R)]. Qed.
Print Assumptions C10_dual_numbers_ring.

(* [pderiv] is the formal derivative: coefficient k of P' is (k+1) * coefficient k+1 of P *)
Theorem C10_pderiv_is_formal_derivative :
  forall (R : cring) (P : list R) (k : nat),
    nth k (pderiv P) r0 = rmul (radd (rnat k) r1) (nth (S k) P r0).
Proof. exact pderiv_coeff. Qed.
Print Assumptions C10_pderiv_is_formal_derivative.

(* ... and the derivative in the analytic sense: first-order Taylor expansion with a
   polynomial remainder, P(x+h) = P(x) + h P'(x) + h^2 T(x,h) *)
Theorem C10_pderiv_taylor :
  forall (R : cring) (P : list R) (x h : R),
    peval P (radd x h)
    = radd (radd (peval P x) (rmul h (peval (pderiv P) x))) (rmul (rmul h h) (ptay P x h)).
Proof. exact pderiv_taylor. Qed.
Print Assumptions C10_pderiv_taylor.

(* product rule in one line: a polynomial evaluated at x + eps is (P(x), P'(x)) *)
Theorem C10_eval_at_dual_number :
  forall (R : cring) (P : list R) (x : R),
    peval (R := dual_cring R) (map dinj P) (x, r1) = (peval P x, peval (pderiv P) x).
Proof. exact peval_dual. Qed.
Print Assumptions C10_eval_at_dual_number.

(* iterating a matrix of dual numbers A + eps A' from v + eps v' is, componentwise, iterating
   the block matrix [[A,0],[A',A]] from (v, v') — for every n *)
Theorem C10_dual_iteration_is_block_iteration :
  forall (R : cring) (A : list (list (dual_cring R))) (v : list (dual_cring R)) (k : nat),
    wfM k A -> length v = k -> forall n : nat,
    iter_mat (block (fstM R A) (sndM R A)) n (map fst v ++ map snd v)
    = map fst (iter_mat A n v) ++ map snd (iter_mat A n v).
Proof. exact iter_block. Qed.
Print Assumptions C10_dual_iteration_is_block_iteration.

(* [deriv_system]: for ALL k x k systems with entries polynomial in the parameter (over any
   commutative coefficient ring: the other parameters may stay symbolic), ALL parameter
   values x and ALL n, the extended system of the sensitivity recurrences,
   [[A,0],[A',A]] from (v, v'), yields A(x)^n v(x) and the formal derivative of the
   polynomial vector A^n v evaluated at x; [piter] is that polynomial vector *)
Theorem C10_deriv_system :
  forall (R : cring) (PA : list (list (list R))) (Pv : list (list R)) (k : nat),
    wfM k PA -> length Pv = k -> forall (x : R) (n : nat),
    iter_mat (block (evalM PA x) (evalM (derivM PA) x)) n (evalV Pv x ++ evalV (derivV Pv) x)
    = evalV (piter PA n Pv) x ++ evalV (derivV (piter PA n Pv)) x.
Proof. exact deriv_system. Qed.
Print Assumptions C10_deriv_system.

Theorem C10_piter_is_matrix_power :
  forall (R : cring) PA Pv (x : R) (n : nat),
    evalV (piter PA n Pv) x = iter_mat (evalM PA x) n (evalV Pv x).
Proof. exact piter_eval. Qed.
Print Assumptions C10_piter_is_matrix_power.

(* [dep_closure_sound] (system level): if every monomial classified p-independent has a
   p-free initial value and a recurrence with p-free coefficients over independent monomials
   only — what get_dependent_variables has to guarantee, checked on every instance by
   [dep_closed] — then its moment has zero p-derivative at every n.
   PARTIAL with respect to DESIGN.md: the step from the variable-level closure of
   SensivitiyAnalyzer.get_dependent_variables to [dep_closed] of the generated system is
   validated per instance (kernel-evaluated [dep_closed]), not proved for all programs. *)
Theorem C10_dep_closure_sound_partial :
  forall (R : cring) (x : R) dep PA Pv, dep_closed dep PA Pv = true ->
    forall n, Forall2 (fun d a => d = false -> a = r0) dep (evalV (derivV (piter PA n Pv)) x).
Proof. exact dep_closure_sound. Qed.
Print Assumptions C10_dep_closure_sound_partial.

(* [diffrec_model_correct]: the model of DiffRecBuilder.get_recurrence (summand-wise rules)
   and get_initial_value produces, for ALL systems with a closed classification, ALL
   parameter values and ALL n, a system iterating to (A^n v, d/dp A^n v). *)
Theorem C10_diffrec_model_correct :
  forall (R : cring) (x : R) dep PA Pv k,
    wfM k PA -> length Pv = k -> dep_closed dep PA Pv = true ->
    forall n, iter_mat (evalM (model_ext dep PA) x) n (evalV (model_init Pv) x)
              = evalV (piter PA n Pv) x ++ evalV (derivV (piter PA n Pv)) x.
Proof. exact diffrec_model_correct. Qed.
Print Assumptions C10_diffrec_model_correct.

(* closed sub-systems modulo identically-zero unknowns denote the restricted sequence *)
Theorem C10_check_sub_sound :
  forall (R : cring) B b S s iota Z, check_sub (R := R) B b S s iota Z = true ->
    forall n, iter_mat S n s = gather iota (iter_mat B n b) /\ zero_on Z (iter_mat B n b).
Proof. exact check_sub_sound. Qed.
Print Assumptions C10_check_sub_sound.

(* V: the validators run on Polar's output (its extended system S, s with index map iota
   into (M_j, delta M_j), its closed forms F with special cases sp) *)
Theorem C10_check_sens_model_sound :
  forall (R : cring) dep PA Pv (x : R) S s iota F sp,
    check_sens_model dep PA Pv x S s iota F sp = true ->
    forall n, pw_eval F sp n
              = gather iota (evalV (piter PA n Pv) x ++ evalV (derivV (piter PA n Pv)) x).
Proof. exact check_sens_model_sound. Qed.
Print Assumptions C10_check_sens_model_sound.

Theorem C10_check_sens_direct_sound :
  forall (R : cring) k PA Pv (x : R) S s iota Z F sp,
    check_sens_direct k PA Pv x S s iota Z F sp = true ->
    forall n, pw_eval F sp n
              = gather iota (evalV (piter PA n Pv) x ++ evalV (derivV (piter PA n Pv)) x).
Proof. exact check_sens_direct_sound. Qed.
Print Assumptions C10_check_sens_direct_sound.

Theorem C10_check_diffcf_sound :
  forall (R : cring) k PA Pv (x : R) F sp, check_diffcf k PA Pv x F sp = true ->
    forall n, pw_eval F sp n = evalV (piter PA n Pv) x ++ evalV (derivV (piter PA n Pv)) x.
Proof. exact check_diffcf_sound. Qed.
Print Assumptions C10_check_diffcf_sound.

(* [methods_agree]: sensitivity recurrences and differentiated closed forms, both validated,
   agree at every n *)
Theorem C10_methods_agree :
  forall (R : cring) k dep PA Pv (x : R) S s iota F sp F' sp',
    check_sens_model dep PA Pv x S s iota F sp = true ->
    check_diffcf k PA Pv x F' sp' = true ->
    forall n, pw_eval F sp n = gather iota (pw_eval F' sp' n).
Proof. exact methods_agree. Qed.
Print Assumptions C10_methods_agree.

(* two closed forms validated against the same extended system agree at every n *)
Theorem C10_same_system_agree :
  forall (R : cring) S s (F : list (epoly R)) sp F' sp',
    check_solution S s F sp = true -> check_solution S s F' sp' = true ->
    forall n : nat, pw_eval F sp n = pw_eval F' sp' n.
Proof. exact accepted_agree. Qed.
Print Assumptions C10_same_system_agree.

(* non-vacuity:  x = p ; while true: x = p*x + 1   (monomials x, 1), at p = 1/2.
   Polar's sensitivity system has the unknowns (delta x, x, 1):
     delta x' = x + p delta x,  x' = p x + 1,  1' = 1;   delta x(0) = 1.
   d/dp E[x]_n at p = 1/2 is 4 - (3n+3)/2^n. *)
Definition exPA : list (list (list Qc)) := [[[mkq 0 1; mkq 1 1]; [mkq 1 1]]; [[]; [mkq 1 1]]].
Definition exPv : list (list Qc) := [[mkq 0 1; mkq 1 1]; [mkq 1 1]].
Definition exS : list (list Qc) :=
  [[mkq 1 2; mkq 1 1; mkq 0 1]; [mkq 0 1; mkq 1 2; mkq 1 1]; [mkq 0 1; mkq 0 1; mkq 1 1]].
Definition exs : list Qc := [mkq 1 1; mkq 1 2; mkq 1 1].
Definition exF : list (epoly Qc_cring) :=
  [[(mkq 1 1, [mkq 4 1]); (mkq 1 2, [mkq (-3) 1; mkq (-3) 1])];
   [(mkq 1 1, [mkq 2 1]); (mkq 1 2, [mkq (-3) 2])];
   [(mkq 1 1, [mkq 1 1])]].
Example C10_nonvacuous_model :
  check_sens_model (R := Qc_cring) [true; false] exPA exPv (mkq 1 2) exS exs [2; 0; 1]%nat exF [] = true.
Proof. vm_compute. reflexivity. Qed.
Example C10_nonvacuous_direct :
  check_sens_direct (R := Qc_cring) 2 exPA exPv (mkq 1 2) exS exs [2; 0; 1]%nat
                    [false; false; false; true] exF [] = true.
Proof. vm_compute. reflexivity. Qed.
(* the validators reject a dropped product-rule term (delta x' = p delta x) ... *)
Example C10_rejects_missing_term :
  check_sens_direct (R := Qc_cring) 2 exPA exPv (mkq 1 2)
    [[mkq 1 2; mkq 0 1; mkq 0 1]; [mkq 0 1; mkq 1 2; mkq 1 1]; [mkq 0 1; mkq 0 1; mkq 1 1]] exs [2; 0; 1]%nat
    [false; false; false; true] [[(mkq 1 2, [mkq 1 1])]; [(mkq 1 1, [mkq 2 1]); (mkq 1 2, [mkq (-3) 2])]; [(mkq 1 1, [mkq 1 1])]] [] = false.
Proof. vm_compute. reflexivity. Qed.
(* ... and a classification that calls x independent *)
Example C10_rejects_wrong_classification :
  dep_closed (R := Qc_cring) [false; false] exPA exPv = false.
Proof. vm_compute. reflexivity. Qed.
