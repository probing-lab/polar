(* C13 — Sin/Cos/Exp moments of random variables are the true expectations.
   Property theorems, each closed by [exact] and followed by Print Assumptions; then non-vacuity
   examples (an instance of the main theorem, and runs of the generated code by vm_compute).

   get_func_moment, get_trig_moment_num/_den, get_exp_moment, convert_func_moment,
   get_const_moment, bernoulli_cf/_mgf, discreteuniform_cf/_mgf_num/_den are GENERATED
   (gen/FuncGen.v) from /repo/program/assignment/functional_assignment.py and
   /repo/program/distribution/{bernoulli,discrete_uniform}.py on every run; *_mgf_exists_at are
   generated (gen/DistGen.v) from /repo/program/distribution/*.py.

   R ranges over ALL commutative rings (CRing.cring) — in particular the complex numbers.
   e : Z -> R is a homomorphism from (Z,+) to the units of R and stands for m |-> exp(i m)
   (trigonometric case, z = e 1, 1/z = e (-1)) or m |-> exp(m) (exponential case).
   A finite integer-supported law L is a list of (probability, value); as a formal exponential
   sum it is its own characteristic function  t |-> sum_j p_j E^(i t v_j); tf_of e L m is its
   value at the integer point m, dtf_of e u L a m the value of its a-th formal t-derivative
   (d/dt c E^(u t v) = c u v E^(u t v)), Ez L g = sum_j p_j g(v_j) the defining expectation.
   get_trig_moment returns re(num / den); all statements are multiplied out (num = den * ...),
   which is the same statement wherever 2 and i are invertible. *)
From Coq Require Import List ZArith Lia Arith Bool String QArith Qcanon.
From Polar Require Import Qcx CRing Stats Func DistBase DistProofs.
From PolarGen Require Import FuncGen DistGen.
From Polar Require Import FuncThm FuncModel.
Import ListNotations.
Local Open Scope string_scope.

(* pure ring identity, all b, c, all z, zb (no relation between z and zb needed):
   (z - zb)^b (z + zb)^c = sum_{k1<=c} sum_{k2<=b} C(c,k1) C(b,k2) (-1)^(b-k2) z^(k1+k2) zb^((b+c)-(k1+k2)) *)
Theorem C13_prod_to_sum_ring :
  forall (R : cring) (z zb : R) (b c : nat),
    rmul (rpow (rsub z zb) b) (rpow (radd z zb) c)
    = rsum (seq 0 (S c)) (fun k1 => rsum (seq 0 (S b)) (fun k2 =>
        rmul (rmul (rmul (br c k1) (br b k2)) (rpow (ropp r1) (b - k2)))
             (rmul (rpow z (k1 + k2)) (rpow zb ((b + c) - (k1 + k2)))))).
Proof. exact prod_to_sum_ring. Qed.
Print Assumptions C13_prod_to_sum_ring.

(* the same ON THE TRANSLATED get_trig_moment, all b, c, v: for the Dirac law at v, whose
   characteristic function is the formal monomial m |-> z^(m v) = e (m v), the translated double sum
   (frequency 2(k1+k2) - cos_power - sin_power, sign (-1)^(sin_power - k2), the two binomials) is
   (z^v - z^-v)^b (z^v + z^-v)^c and the translated divisor is i^b 2^(c+b): the quotient is
   sin^b(v) cos^c(v) written with z = exp(i). *)
Theorem C13_prod_to_sum :
  forall (R : cring) (Iu : R) (tn : bool) (e : Z -> R),
    e 0%Z = r1 -> (forall m n, e (m + n)%Z = rmul (e m) (e n)) ->
    forall (b c : nat) (v : Z),
      let L := dirac R v in
      get_trig_moment_num R Iu tn (mom_of R L) (tf_of e L) (dtf_of e Iu L) [("Sin", b); ("Cos", c)]
      = rmul (rpow (rsub (e v) (e (- v)%Z)) b) (rpow (radd (e v) (e (- v)%Z)) c)
      /\ get_trig_moment_den R Iu tn (mom_of R L) (tf_of e L) (dtf_of e Iu L) [("Sin", b); ("Cos", c)]
         = rmul (rpow Iu b) (rpow (zr 2) (c + b)).
Proof. exact prod_to_sum_gen. Qed.
Print Assumptions C13_prod_to_sum.

(* ALL identity/sin/cos powers (whatever the request dict holds), ALL finite integer-supported
   laws of total mass 1 (Bernoulli, DiscreteUniform, Categorical-like: any list of (weight, integer)),
   in every commutative ring with sn, cs satisfying Euler's formulas 2 i sin v = e v - e (-v),
   2 cos v = e v + e (-v):
     translated numerator (dist.get_moment, dist.cf and its formal t-derivatives being those of L)
       = translated divisor * sum_j p_j v_j^a sin(v_j)^b cos(v_j)^c. *)
Theorem C13_trig_moment_discrete_exact :
  forall (R : cring) (Iu : R) (tn : bool) (e : Z -> R),
    e 0%Z = r1 -> (forall m n, e (m + n)%Z = rmul (e m) (e n)) ->
    forall (sn cs : Z -> R),
      (forall v, rmul (rmul (zr 2) Iu) (sn v) = rsub (e v) (e (- v)%Z)) ->
      (forall v, rmul (zr 2) (cs v) = radd (e v) (e (- v)%Z)) ->
      forall (L : zlaw R) (fp : fdict),
        Ez L (fun _ => r1) = r1 ->
        get_trig_moment_num R Iu tn (mom_of R L) (tf_of e L) (dtf_of e Iu L) fp
        = rmul (get_trig_moment_den R Iu tn (mom_of R L) (tf_of e L) (dtf_of e Iu L) fp)
               (Ez L (fun v => rmul (rmul (rpow (zr v) (fget "Id" fp)) (rpow (sn v) (fget "Sin" fp)))
                                    (rpow (cs v) (fget "Cos" fp)))).
Proof. exact trig_moment_discrete_exact. Qed.
Print Assumptions C13_trig_moment_discrete_exact.

(* the cf of the two integer-supported families that declare one is the cf of their law *)
Theorem C13_bernoulli_cf_is_law :
  forall (R : cring) (e : Z -> R), e 0%Z = r1 ->
    forall (p : R) (t : Z), bernoulli_cf R e p t = tf_of e [(rsub r1 p, 0%Z); (p, 1%Z)] t.
Proof. exact bernoulli_cf_is_law. Qed.
Print Assumptions C13_bernoulli_cf_is_law.

(* DiscreteUniform(a, a+n-1), weight w = 1/n on each value: closed form num/den = the law's cf,
   multiplied out (den * cf = num), all a, n, t *)
Theorem C13_du_cf_closed_form :
  forall (R : cring) (e : Z -> R), (forall m n, e (m + n)%Z = rmul (e m) (e n)) ->
    forall (w : R) (a : Z) (n : nat) (t : Z),
      rmul (zr (Z.of_nat n)) w = r1 ->
      rmul (discreteuniform_cf_den R e a (a + Z.of_nat n - 1)%Z t) (tf_of e (du_law R w a n) t)
      = discreteuniform_cf_num R e a (a + Z.of_nat n - 1)%Z t.
Proof. exact du_cf_closed_form. Qed.
Print Assumptions C13_du_cf_closed_form.

(* REFUTED as a formula for the cf at frequency 0: the closed form is 0/0 there (removable
   singularity).  get_trig_moment evaluates cf at frequency 2(k1+k2)-c-b = 0 whenever b+c is
   even: Polar then fails its own `assert im(result) == 0` (a refusal, not a wrong value; C18). *)
Theorem C13_du_cf_zero_refuted :
  forall (R : cring) (e : Z -> R), e 0%Z = r1 ->
    forall a b : Z, discreteuniform_cf_num R e a b 0%Z = r0 /\ discreteuniform_cf_den R e a b 0%Z = r0.
Proof. exact du_cf_zero_over_zero. Qed.
Print Assumptions C13_du_cf_zero_refuted.

(* ALL a, c, ALL finite integer-supported laws: get_exp_moment answers (after convert_func_moment)
   with the defining sum E[X^a exp(X)^c] exactly when mgf_exists_at(c) holds, and raises otherwise *)
Theorem C13_exp_moment_discrete_exact :
  forall (R : cring) (ew : Z -> R),
    ew 0%Z = r1 -> (forall m n, ew (m + n)%Z = rmul (ew m) (ew n)) ->
    forall (ex : Z -> bool) (conv : R -> R) (L : zlaw R) (fp : fdict),
      get_exp_moment R ex (tf_of ew L) (dtf_of ew r1 L) conv fp
      = if ex (Z.of_nat (fget "Exp" fp))
        then Some (conv (Ez L (fun v => rmul (rpow (zr v) (fget "Id" fp)) (rpow (ew v) (fget "Exp" fp)))))
        else None.
Proof. exact exp_moment_discrete_exact. Qed.
Print Assumptions C13_exp_moment_discrete_exact.

(* Bernoulli.mgf and DiscreteUniform.mgf are the expressions of cf with E^t in place of E^(i t) *)
Theorem C13_bernoulli_mgf_is_law :
  forall (R : cring) (ew : Z -> R), ew 0%Z = r1 ->
    forall (p : R) (t : Z), bernoulli_mgf R ew p t = tf_of ew [(rsub r1 p, 0%Z); (p, 1%Z)] t.
Proof. exact bernoulli_cf_is_law. Qed.
Print Assumptions C13_bernoulli_mgf_is_law.

Theorem C13_du_mgf_closed_form :
  forall (R : cring) (ew : Z -> R), (forall m n, ew (m + n)%Z = rmul (ew m) (ew n)) ->
    forall (w : R) (a : Z) (n : nat) (t : Z),
      rmul (zr (Z.of_nat n)) w = r1 ->
      rmul (discreteuniform_mgf_den R ew a (a + Z.of_nat n - 1)%Z t) (tf_of ew (du_law R w a n) t)
      = discreteuniform_mgf_num R ew a (a + Z.of_nat n - 1)%Z t.
Proof. exact du_cf_closed_form. Qed.
Print Assumptions C13_du_mgf_closed_form.

(* Existence: a request outside the mgf's domain is rejected. *)

Theorem C13_exp_moment_rejected_iff :
  forall (R : cring) (ex : Z -> bool) (mgf : Z -> R) (dmgf : nat -> Z -> R) (conv : R -> R) (fp : fdict),
    get_exp_moment R ex mgf dmgf conv fp = None <-> ex (Z.of_nat (fget "Exp" fp)) = false.
Proof. exact exp_moment_rejected_iff. Qed.
Print Assumptions C13_exp_moment_rejected_iff.

Local Open Scope Qc_scope.
(* with the translated mgf_exists_at of each family: rejected exactly outside the true domain
   (Exponential: c < lambda; Gamma: c < 1/theta; Laplace: |c| < 1/b; all others: never) *)
Theorem C13_mgf_domain_exponential :
  forall (R : cring) (mgf : Z -> R) (dmgf : nat -> Z -> R) (conv : R -> R) (lamb : Qc) (fp : fdict),
    get_exp_moment R (fun m => exponential_mgf_exists_at lamb (qz m)) mgf dmgf conv fp = None
    <-> ~ (qz (Z.of_nat (fget "Exp" fp)) < lamb).
Proof.
  exact (fun R mgf dmgf conv lamb =>
           exp_moment_rejected_outside R mgf dmgf conv _ (fun t => t < lamb) (exponential_mgf_domain lamb)).
Qed.
Print Assumptions C13_mgf_domain_exponential.

Theorem C13_mgf_domain_gamma :
  forall (R : cring) (mgf : Z -> R) (dmgf : nat -> Z -> R) (conv : R -> R) (k theta : Qc) (fp : fdict),
    get_exp_moment R (fun m => gamma_mgf_exists_at k theta (qz m)) mgf dmgf conv fp = None
    <-> ~ (qz (Z.of_nat (fget "Exp" fp)) < 1 / theta).
Proof.
  exact (fun R mgf dmgf conv k theta =>
           exp_moment_rejected_outside R mgf dmgf conv _ (fun t => t < 1 / theta) (gamma_mgf_domain k theta)).
Qed.
Print Assumptions C13_mgf_domain_gamma.

Theorem C13_mgf_domain_laplace :
  forall (R : cring) (mgf : Z -> R) (dmgf : nat -> Z -> R) (conv : R -> R) (mu b : Qc) (fp : fdict),
    get_exp_moment R (fun m => laplace_mgf_exists_at mu b (qz m)) mgf dmgf conv fp = None
    <-> ~ (qabs (qz (Z.of_nat (fget "Exp" fp))) < 1 / b).
Proof.
  exact (fun R mgf dmgf conv mu b =>
           exp_moment_rejected_outside R mgf dmgf conv _ (fun t => qabs t < 1 / b) (laplace_mgf_domain mu b)).
Qed.
Print Assumptions C13_mgf_domain_laplace.

Theorem C13_mgf_domain_everywhere :
  forall (R : cring) (mgf : Z -> R) (dmgf : nat -> Z -> R) (conv : R -> R) (fp : fdict),
    (forall p, get_exp_moment R (fun m => bernoulli_mgf_exists_at p (qz m)) mgf dmgf conv fp <> None) /\
    (forall a b, get_exp_moment R (fun m => discreteuniform_mgf_exists_at a b (qz m)) mgf dmgf conv fp <> None) /\
    (forall a b, get_exp_moment R (fun m => uniform_mgf_exists_at a b (qz m)) mgf dmgf conv fp <> None) /\
    (forall a b, get_exp_moment R (fun m => beta2_mgf_exists_at a b (qz m)) mgf dmgf conv fp <> None) /\
    (forall a b s, get_exp_moment R (fun m => beta3_mgf_exists_at a b s (qz m)) mgf dmgf conv fp <> None) /\
    (forall m s, get_exp_moment R (fun t => normal_mgf_exists_at m s (qz t)) mgf dmgf conv fp <> None) /\
    (forall m s a b, get_exp_moment R (fun t => truncnormal_mgf_exists_at m s a b (qz t)) mgf dmgf conv fp <> None).
Proof. exact exp_moment_domain_everywhere. Qed.
Print Assumptions C13_mgf_domain_everywhere.
Local Close Scope Qc_scope.

(* model of the dispatch, all request dicts: the trig branch answers only requests with a Sin/Cos
   power, the exp branch exactly the requests with an Exp power and no Sin/Cos power, a request
   with neither is rejected *)
Theorem C13_dispatch_model :
  forall fp : fdict,
    (get_func_moment fp = DTrig -> has_trig fp = true) /\
    (get_func_moment fp = DExp <-> (has_exp fp = true /\ has_trig fp = false)) /\
    (has_trig fp = false -> has_exp fp = false -> is_raise (get_func_moment fp) = true) /\
    (has_trig fp = true -> has_exp fp = false -> fmem "Expt" fp = false -> get_func_moment fp = DTrig).
Proof. exact dispatch_model. Qed.
Print Assumptions C13_dispatch_model.

(* mixed requests (Sin/Cos AND Exp powers; "Exp can be mixed with Id" only): the trig branch never
   reads the Exp power, so answering such a request by the trig branch drops the factor exp(X)^c.
   Whether all mixed requests are rejected is decided by ONE request, E[sin(X) exp(X)]
   (mixed_witness), which the check evaluates on the translated function on every run
   (DESIGN section 6 #5: with the test `"Expt" in func_powers`, the code before /repo 45d8020,
   it was DTrig — the defect reported). *)
Theorem C13_dispatch_mixed_decided_by_witness :
  is_raise (get_func_moment mixed_witness) = true ->
  forall fp, has_trig fp = true -> has_exp fp = true -> is_raise (get_func_moment fp) = true.
Proof. exact dispatch_mixed_decided_by_witness. Qed.
Print Assumptions C13_dispatch_mixed_decided_by_witness.

Theorem C13_dispatch_refuted_if_witness_trig :
  get_func_moment mixed_witness = DTrig ->
  exists fp, has_trig fp = true /\ has_exp fp = true /\ get_func_moment fp = DTrig /\
    forall (R : cring) (Iu : R) (tn : bool) (mom : nat -> R) (cf : Z -> R) (dcf : nat -> Z -> R),
      (* the answer is that of the request without the Exp power *)
      get_trig_moment_num R Iu tn mom cf dcf fp = get_trig_moment_num R Iu tn mom cf dcf [("Sin", 1%nat)] /\
      get_trig_moment_den R Iu tn mom cf dcf fp = get_trig_moment_den R Iu tn mom cf dcf [("Sin", 1%nat)].
Proof.
  (* the witness itself; the trig branch reads the Id, Sin and Cos powers only *)
  exact (fun H => ex_intro _ mixed_witness (conj eq_refl (conj eq_refl (conj H
           (fun R Iu tn mom cf dcf => conj eq_refl eq_refl))))).
Qed.
Print Assumptions C13_dispatch_refuted_if_witness_trig.

(* Sin/Cos/Exp of a constant c, power k: f(c)^k in exact mode or when the value is rational,
   its rounding to 20 significant digits otherwise; unknown function names are rejected *)
Theorem C13_const_func_moment :
  forall (A V : Type) (fsin fcos fexp : A -> V) (vpow : V -> nat -> V)
         (is_Rational : V -> bool) (round_to : nat -> V -> V) (ex : bool) (func : string) (c : A) (k : nat),
    get_const_moment fsin fcos fexp vpow (convert_func_moment ex is_Rational round_to) func c k
    = match func_named A V fsin fcos fexp func with
      | Some f => Some (if orb ex (is_Rational (vpow (f c) k)) then vpow (f c) k else round_to 20%nat (vpow (f c) k))
      | None => None
      end.
Proof. exact const_func_moment. Qed.
Print Assumptions C13_const_func_moment.

Theorem C13_convert_exact :
  forall (V : Type) (is_Rational : V -> bool) (round_to : nat -> V -> V) (m : V),
    convert_func_moment true is_Rational round_to m = m.
Proof. exact (fun V is_Rational round_to m => eq_refl). Qed.
Print Assumptions C13_convert_exact.

(* Non-vacuity: the hypotheses have a model, and the kernel runs the generated code. *)

(* Gaussian rationals, e m = i^m (angle pi/2): all hypotheses of the main theorem hold *)
Example C13_trig_model_instance :
  forall (tn : bool) (L : zlaw G) (fp : fdict),
    Ez L (fun _ => r1) = r1 ->
    get_trig_moment_num G gi tn (mom_of G L) (tf_of e4 L) (dtf_of e4 gi L) fp
    = rmul (get_trig_moment_den G gi tn (mom_of G L) (tf_of e4 L) (dtf_of e4 gi L) fp)
           (Ez L (fun v => rmul (rmul (rpow (zr v) (fget "Id" fp)) (rpow (sn4 v) (fget "Sin" fp)))
                                (rpow (cs4 v) (fget "Cos" fp)))).
Proof. exact (fun tn => trig_moment_discrete_exact G gi tn e4 e4_0 e4_add sn4 cs4 sn4_def cs4_def). Qed.

(* X ~ DiscreteUniform(-1, 2) at angle pi/2, request X sin(X), evaluated by the kernel:
   num = den * E[X sin X] with E = (1/4)(-1 * -1 + 0 + 1 * 1 + 0) = 1/2, den = i^2 * 2 = -2;
   request X sin^2(X) (frequency 0 occurs): E = (1/4)(-1 + 1) = 0 ... and X^2 cos^2(X):
   E = (1/4)(0 + 0 + 0 + 4) = 1, den = i^2 * 4 = -4 *)
Example C13_trig_model_run :
  let L : zlaw G := du_law G (gq (mkq 1 4)) (-1)%Z 4 in
  let tn := false in
  let num fp := get_trig_moment_num G gi tn (mom_of G L) (tf_of e4 L) (dtf_of e4 gi L) fp in
  let den fp := get_trig_moment_den G gi tn (mom_of G L) (tf_of e4 L) (dtf_of e4 gi L) fp in
  reqb (num [("Id", 1%nat); ("Sin", 1%nat)]) (gq (mkq (-1) 1)) = true
  /\ reqb (den [("Id", 1%nat); ("Sin", 1%nat)]) (gq (mkq (-2) 1)) = true
  /\ reqb (num [("Id", 2%nat); ("Cos", 2%nat)]) (gq (mkq (-4) 1)) = true
  /\ reqb (den [("Id", 2%nat); ("Cos", 2%nat)]) (gq (mkq (-4) 1)) = true.
Proof. vm_compute. repeat split; reflexivity. Qed.

(* the dispatch model is not vacuous: a pure trig, a pure exp and an unknown request *)
Example C13_dispatch_run :
  get_func_moment [("Id", 2%nat); ("Sin", 1%nat)] = DTrig /\ get_func_moment [("Id", 1%nat); ("Exp", 2%nat)] = DExp
  /\ is_raise (get_func_moment [("Id", 1%nat)]) = true.
Proof. vm_compute. repeat split; reflexivity. Qed.
