(* C05 — the type-inference ALGORITHM (type_inference/finite_fixed_point_typer.py,
   FiniteFixedPointTyper.infer_types, run by program/transformer/type_inferer.py).
   Model: Typer.typer_run P syms fp D implied drops  (theories/Typer.v): _initialize_state, at most
   tp_iters rounds of _progress, the failure cascade, _extract_types; None = not applicable
   (a condition in the initial part) or cascade fuel exhausted.
   Tie: harness/typer_model.py evaluates the model on Polar's snapshot before TypeInferer (flat
   program, declared types, symbols, guard_implied flags, Polar's budgets) and compares the
   resulting type environment with Polar's inferred types as sets per variable, inside Coq
   (Typer.typer_matches); the hypotheses body_single / drops_harmless / declared_ok are evaluated
   on every instance. *)
From Coq Require Import List String QArith Qcanon ZArith Bool.
From Polar Require Import Qcx Dist Syntax Sem Types Typer TyperSound TyperExamples.
Import ListNotations.
Open Scope string_scope.

(* the result of the algorithm is a post-fixpoint accepted by the verified validator
   Types.check_types — for every flat program, every budget (iterations, max values, order of
   substitution), every set of symbolic constants, every guard_implied flags — provided every
   variable has one assignment in the loop body (the typer's documented precondition, established
   by MultiAssignTransformer) and a default is left out of a support only where that is
   harmless: the condition is TrueCond or the default is the assigned variable itself (the rule
   of the current Assignment.get_support) *)
Theorem C05_typer_postfixpoint :
  forall (P : tparams) (syms : list var) (fp : flatprog) (implied drops : list bool) (T : tenv),
    typer_run P syms fp [] implied drops = Some T ->
    body_single fp = true -> drops_harmless (fp_body fp) drops = true ->
    check_types fp T = true.
Proof. exact typer_run_postfixpoint. Qed.
Print Assumptions C05_typer_postfixpoint.

(* in particular when no default is dropped at all *)
Theorem C05_typer_postfixpoint_no_drops :
  forall (P : tparams) (syms : list var) (fp : flatprog) (implied drops : list bool) (T : tenv),
    typer_run P syms fp [] implied drops = Some T ->
    body_single fp = true -> forallb negb drops = true ->
    check_types fp T = true.
Proof.
  intros P syms fp implied drops T H Hs Hd.
  exact (typer_run_postfixpoint P syms fp implied drops T H Hs (drops_false_harmless (fp_body fp) drops Hd)).
Qed.
Print Assumptions C05_typer_postfixpoint_no_drops.

(* hence (check_types_sound) every state reachable in any number of iterations, for every law
   of the continuous families, from every admissible start state, is typed *)
Theorem C05_typer_sound :
  forall (P : tparams) (syms : list var) (fp : flatprog) (implied drops : list bool) (T : tenv),
    typer_run P syms fp [] implied drops = Some T ->
    body_single fp = true -> drops_harmless (fp_body fp) drops = true ->
    forall (law : string -> list Qc -> dist Qc) (s0 : state), init_ok fp T s0 ->
    forall (n : nat) (s : state), supp (frun law fp n s0) s -> typed T s.
Proof. exact typer_run_sound. Qed.
Print Assumptions C05_typer_sound.

(* with declared types (a `types` block; trusted and locked by the typer, never re-derived): the
   undeclared variables' assignments are proved; the validator's verdict on the initial block
   and on the declared variables' own assignments is a hypothesis (evaluated per instance).
   Missing for a full statement: check_init in the presence of declared types. *)
Theorem C05_typer_postfixpoint_declared_partial :
  forall (P : tparams) (syms : list var) (fp : flatprog) (D : tenv) (implied drops : list bool) (T : tenv),
    typer_run P syms fp D implied drops = Some T ->
    body_single fp = true -> drops_harmless (fp_body fp) drops = true ->
    declared_ok fp D T = true ->
    check_types fp T = true.
Proof. exact typer_run_postfixpoint_declared_partial. Qed.
Print Assumptions C05_typer_postfixpoint_declared_partial.

(* the core, for any declared types: every assignment to an undeclared variable passes the
   validator's test against the algorithm's result *)
Theorem C05_typer_body :
  forall (P : tparams) (syms : list var) (fp : flatprog) (D : tenv) (implied drops : list bool) (st : tstate),
    typer_state P syms fp D implied drops = Some st ->
    body_single fp = true -> drops_harmless (fp_body fp) drops = true ->
    forall g : gassign, In g (fp_body fp) -> mem_var (ga_var g) (map fst D) = false ->
    check_ga (extract st) g = true.
Proof. exact typer_state_body. Qed.
Print Assumptions C05_typer_body.

(* refuted: with the default dropped whenever the condition is implied by the loop guard (the
   rule of Assignment.get_support BEFORE repo commit cee80d2; the current code is sound on this
   program, see typer_witness_current_rule) the algorithm's result is unsound.  Witness:
   x = 5; c = 0; while c == 0: x = 1; x = x + 1; c = Bernoulli(1/2)  — the version _x1 is typed
   {1} but holds 2 in an iteration where the guard is false. *)
Theorem C05_typer_dropped_default_refuted :
  exists (fp : flatprog) (implied : list bool) (T : tenv) (s0 : state) (n : nat) (s : state),
    typer_run tp_default [] fp [] implied (drops_old (fp_body fp) implied) = Some T /\
    body_single fp = true /\ init_ok fp T s0 /\
    supp (frun no_law fp n s0) s /\ ~ typed T s.
Proof. exact typer_run_dropped_default_refuted. Qed.
Print Assumptions C05_typer_dropped_default_refuted.

(* non-vacuity: runs of the model evaluated in TyperExamples.v *)
Example C05_typer_witness_current_rule :
  let drops := drops_current (fp_body fpW) implW in
  drops_harmless (fp_body fpW) drops = true /\
  match typer_run tp_default [] fpW [] implW drops with
  | Some T => tenv_eqb T [("c", [mkq 0 1; mkq 1 1]); ("_old0", [mkq 0 1; mkq 1 1])] && check_types fpW T
  | None => false
  end = true.
Proof. exact typer_witness_current_rule. Qed.

Example C05_typer_single_assignment_needed :
  body_single fp_twice = false /\
  match typer_run tp_default [] fp_twice [] [true; true] [false; false] with
  | Some T => tenv_eqb T [("x", [mkq 0 1; mkq 1 1])] && negb (check_types fp_twice T)
  | None => false
  end = true.
Proof. exact typer_single_assignment_needed. Qed.

Example C05_typer_converges :
  typer_matches tp_default [] fp_conv [] [true; true] [false; false]
                [("x", [mkq 0 1; mkq 1 1]); ("y", [mkq 0 1; mkq 2 1; mkq 3 1])] = true /\
  typer_cascade_rounds tp_default [] fp_conv [] [true; true] [false; false] = 0%nat /\
  body_single fp_conv = true /\ drops_harmless (fp_body fp_conv) [false; false] = true /\
  check_types fp_conv [("x", [mkq 0 1; mkq 1 1]); ("y", [mkq 0 1; mkq 2 1; mkq 3 1])] = true.
Proof. exact typer_converges. Qed.

Example C05_typer_cascade :
  typer_matches tp3 [] fp_casc [] [true; true; true] [false; false; false] [("z", [mkq 0 1; mkq 1 1])] = true /\
  typer_cascade_rounds tp3 [] fp_casc [] [true; true; true] [false; false; false] = 1%nat /\
  body_single fp_casc = true /\ check_types fp_casc [("z", [mkq 0 1; mkq 1 1])] = true.
Proof. exact typer_cascade. Qed.

Example C05_typer_cascade_chain :
  typer_matches tp2 [] fp_chain [] [true; true; true; true; true] [false; false; false; false; false]
                [("k", [mkq 0 1; mkq 1 1])] = true /\
  typer_cascade_rounds tp2 [] fp_chain [] [true; true; true; true; true] [false; false; false; false; false] = 3%nat.
Proof. exact typer_cascade_chain. Qed.
