(* C02 — pass ConditionsNormalizer, the BERNOULLI ABSTRACTION of conditions over variables
   without a finite type (program/transformer/conditions_normalizer.py: _normalize_conditions,
   _try_abstract_failed_condition, _partition_condition).
   Model: PassAbstraction.abstract_at / abstract_many (+ PassCondNorm.cn_pass for the atoms over
   finitely typed variables).  Side conditions: the boolean, verified PassAbstraction.abstraction_ok
   / many_ok.  DISCRETE draws only (Sem.v's reference semantics is a finite weighted-list monad;
   a continuous family among the hidden assignments makes abstraction_ok false: validated only).
   Tie: harness/pass_abstraction.py evaluates, inside Coq, the model on Polar's snapshot after
   TypeInferer (only the position and the two generated names of each coin are read off Polar's
   output) and compares with the snapshot after ConditionsNormalizer; many_ok / check_types are
   evaluated on every instance; the value required for the probability symbol is compared with an
   independently computed probability. *)
From Coq Require Import List String QArith Qcanon ZArith Bool.
From Polar Require Import Qcx Dist Syntax Sem Types PassCNBase PassCondNorm PassAbstraction.
Import ListNotations.
Open Scope string_scope.

(* consulting C(d) for d ~ D (mass 1) = tossing a coin with probability E D [C] *)
Theorem C02_abs_lemma :
  forall (A B : Type) (D : dist A) (C : A -> bool) (k : bool -> dist B) (f : B -> Qc),
    mass D = 1%Qc ->
    E (bind D (fun d => k (C d))) f = E (bind (coin (prob_of D C)) k) f.
Proof. exact @abstraction_lemma. Qed.
Print Assumptions C02_abs_lemma.

(* any mass, the draw stays in the program (Polar keeps  d = DiscreteUniform(..)) *)
Theorem C02_abs_lemma_mass :
  forall (A B : Type) (D : dist A) (C : A -> bool) (q : Qc) (k : bool -> dist B) (f : B -> Qc),
    (q * mass D)%Qc = prob_of D C ->
    E (bind D (fun d => k (C d))) f = E (bind D (fun _ => bind (coin q) k)) f.
Proof. exact @abstraction_lemma_mass. Qed.
Print Assumptions C02_abs_lemma_mass.

(* the same condition consulted twice: one coin, reused *)
Theorem C02_abs_reuse :
  forall (A B B' : Type) (D : dist A) (C : A -> bool) (k1 : bool -> dist B) (k2 : B -> bool -> dist B') (f : B' -> Qc),
    mass D = 1%Qc ->
    E (bind D (fun d => bind (k1 (C d)) (fun x => k2 x (C d)))) f =
    E (bind (coin (prob_of D C)) (fun b => bind (k1 b) (fun x => k2 x b))) f.
Proof. exact @abstraction_reuse. Qed.
Print Assumptions C02_abs_reuse.

(* two DIFFERENT conditions over one draw must not get two independent coins *)
Theorem C02_abs_two_conditions_two_coins_refuted :
  exists (D : dist bool) (C1 C2 : bool -> bool) (k : bool -> bool -> dist bool) (f : bool -> Qc),
    mass D = 1%Qc /\
    E (bind D (fun d => k (C1 d) (C2 d))) f <>
    E (bind (coin (prob_of D C1)) (fun b1 => bind (coin (prob_of D C2)) (fun b2 => k b1 b2))) f.
Proof. exact two_conditions_two_coins_refuted. Qed.
Print Assumptions C02_abs_two_conditions_two_coins_refuted.

(* a continuation that reads the draw itself (E(d*x), the defect repaired by /repo c349038) *)
Theorem C02_abs_continuation_reads_draw_refuted :
  exists (D : dist Qc) (C : Qc -> bool) (k : Qc -> bool -> dist Qc) (f : Qc -> Qc),
    mass D = 1%Qc /\
    E (bind D (fun d => k d (C d))) f <> E (bind D (fun d => bind (coin (prob_of D C)) (k d))) f.
Proof. exact continuation_reads_draw_refuted. Qed.
Print Assumptions C02_abs_continuation_reads_draw_refuted.

(* one abstraction: every law of the continuous families, every n, every start state in which
   the probability symbol has the value P(C) = abs_prob, every observation that reads neither
   the hidden variables H (superset of the variables of C: the draws and the deterministic /
   random functions of them that C is computed from) nor the coin *)
Theorem C02_abs_at_preserves :
  forall (law : string -> list Qc -> dist Qc) (fp : flatprog) (i : nat) (H bv : list var) (C : cond) (a p : var),
    abstraction_ok fp i H bv C a p = true ->
    forall (n : nat) (s0 : state) (f : state -> Qc),
      s0 p = abs_prob fp i H C -> ignores (H ++ [a]) f ->
      E (frun law (abstract_at fp i bv C a p) n s0) f = E (frun law fp n s0) f.
Proof. exact abstraction_sound. Qed.
Print Assumptions C02_abs_at_preserves.

(* direct draws: the hidden variables are exactly the variables of C *)
Theorem C02_abs_at_preserves_direct_draws :
  forall (law : string -> list Qc -> dist Qc) (fp : flatprog) (i : nat) (bv : list var) (C : cond) (a p : var),
    abstraction_ok fp i (cvars C) bv C a p = true ->
    forall (n : nat) (s0 : state) (f : state -> Qc),
      s0 p = abs_prob fp i (cvars C) C -> ignores (cvars C ++ [a]) f ->
      E (frun law (abstract_at fp i bv C a p) n s0) f = E (frun law fp n s0) f.
Proof. exact abstraction_sound_direct. Qed.
Print Assumptions C02_abs_at_preserves_direct_draws.

(* several coins *)
Theorem C02_abs_many_preserves :
  forall (law : string -> list Qc -> dist Qc) (l : list aspec) (fp : flatprog),
    many_ok fp l = true ->
    forall (n : nat) (s0 : state) (f : state -> Qc),
      probs_ok fp l s0 -> ignores (hidden l) f ->
      E (frun law (abstract_many fp l) n s0) f = E (frun law fp n s0) f.
Proof. exact abstract_many_sound. Qed.
Print Assumptions C02_abs_many_preserves.

(* the pass on a program with failed atoms = abstraction, then normalisation of the atoms over
   finitely typed variables (coins have type {0,1}); this is the program the harness compares
   with Polar's output.  _partial: Polar also accepts programs outside many_ok (a statement after
   the draw reads a hidden variable, e.g. y = y + d; continuous draws) — there the pass does NOT
   preserve the joint law (C02_abs_later_read_refuted) and Polar relies on
   RecBuilder._check_abstraction_is_independent; those programs are validated only *)
Theorem C02_abs_pass_preserves_partial :
  forall (law : string -> list Qc -> dist Qc) (T : tenv) (fp : flatprog) (l : list aspec) (fp' : flatprog),
    many_ok fp l = true ->
    cn_pass T (abstract_many fp l) = Some fp' ->
    check_types (abstract_many fp l) T = true ->
    forall s0 : state, init_ok (abstract_many fp l) T s0 -> probs_ok fp l s0 ->
    forall (n : nat) (f : state -> Qc), ignores (hidden l) f ->
      E (frun law fp' n s0) f = E (frun law fp n s0) f.
Proof. exact abs_then_cn_sound. Qed.
Print Assumptions C02_abs_pass_preserves_partial.

(* the hypothesis on the start state is satisfiable whenever the probability symbols are
   pairwise distinct (Polar's get_unique_var) *)
Theorem C02_abs_probs_ok_satisfiable :
  forall (fp : flatprog) (l : list aspec) (s : state),
    NoDup (map fst (many_probs fp l)) -> probs_ok fp l (set_probs (many_probs fp l) s).
Proof. exact probs_ok_satisfiable. Qed.
Print Assumptions C02_abs_probs_ok_satisfiable.

(* non-vacuity: programs on which every hypothesis holds *)
Definition qc (z : Z) : expr := EConst (mkq z 1).
Definition asg (x : var) (e : expr) : gassign := {| ga_var := x; ga_cond := CTrue; ga_default := x; ga_rhs := RDet e |}.
Definition drw (x : var) (d : draw) : gassign := {| ga_var := x; ga_cond := CTrue; ga_default := x; ga_rhs := RDraw d |}.
Definition gasg (x : var) (c : cond) (e : expr) : gassign := {| ga_var := x; ga_cond := c; ga_default := x; ga_rhs := RDet e |}.
Definition le (x : var) (k : Z) : cond := CAtom (EVar x) Cle (qc k).
Definition st_p (p : var) (q : Qc) : state := upd st0 p q.
Definition exq (q : Qc) : Z * Z := (qnum q, Zpos (qden q)).

(* x = 0; y = 0; d = 0; while true: d = DiscreteUniform(1,6); if d <= 2: x = x + 1 end; if d <= 2: y = y + 2 end *)
Definition demo : flatprog :=
  {| fp_init := [asg "x" (qc 0); asg "y" (qc 0); asg "d" (qc 0)];
     fp_body := [drw "d" (DUnif 1 6); gasg "x" (le "d" 2) (EAdd (EVar "x") (qc 1)); gasg "y" (le "d" 2) (EAdd (EVar "y") (qc 2))] |}.
Definition demo_abs : flatprog := abstract_at demo 1 ["d"] (le "d" 2) "_a0" "_prob1".

Example demo_abs_body :
  map (fun g => (ga_var g, ga_cond g)) (fp_body demo_abs)
  = [("d", CTrue); ("_a0", CTrue); ("x", eq_atom "_a0" 1%Qc); ("y", eq_atom "_a0" 1%Qc)].
Proof. vm_compute. reflexivity. Qed.
Example demo_ok : abstraction_ok demo 1 ["d"] ["d"] (le "d" 2) "_a0" "_prob1" = true.
Proof. vm_compute. reflexivity. Qed.
Example demo_prob : exq (abs_prob demo 1 ["d"] (le "d" 2)) = (1, 3)%Z.
Proof. vm_compute. reflexivity. Qed.
(* the parameters computed from the program and the types (d has no finite type) *)
Example demo_auto :
  let sp := auto_spec [("x", [0%Qc])] demo 1 "_a0" "_prob1" in (as_H sp, as_bv sp, as_C sp) = (["d"], ["d"], le "d" 2).
Proof. vm_compute. reflexivity. Qed.
(* both sides of the theorem on this program: E(x*y) for n = 0..3 *)
Definition exy (fp : flatprog) (n : nat) : Z * Z :=
  exq (E (frun no_law fp n (st_p "_prob1" (mkq 1 3))) (fun s => s "x" * s "y")%Qc).
Lemma exq_mkq q n d : exq q = (n, Zpos d) -> q = mkq n d.
Proof.
  destruct q as [[a b] Hc]. unfold exq, qnum, qden. cbn [this Qnum Qden]. intros Hq. injection Hq as -> ->.
  apply Qc_is_canon. symmetry. apply Qred_correct.
Qed.
(* all hypotheses of C02_abs_at_preserves hold here, so the two sides agree; the values are
   those of the original program, evaluated *)
Lemma demo_abs_exy n : exy demo_abs n = exy demo n.
Proof.
  unfold exy, demo_abs. f_equal. apply (C02_abs_at_preserves no_law _ _ _ _ _ _ _ demo_ok); [|exact wit_ignores_xy].
  unfold st_p. rewrite upd_same. symmetry. apply exq_mkq, demo_prob.
Qed.
Example demo_values : (map (exy demo_abs) [0; 1; 2; 3]%nat, map (exy demo) [0; 1; 2; 3]%nat)
  = ([(0, 1); (2, 3); (16, 9); (10, 3)], [(0, 1); (2, 3); (16, 9); (10, 3)])%Z.
Proof.
  rewrite (map_ext _ _ demo_abs_exy). apply (f_equal (fun l => (l, l))). vm_compute. reflexivity.
Qed.

(* all hypotheses of C02_abs_pass_preserves_partial on this program (x, y are unbounded: no type) *)
Definition demo_T : tenv := [("_a0", [0%Qc; 1%Qc])].
Definition demo_specs : list aspec := auto_specs demo_T demo [(1%nat, ("_a0", "_prob1"))].
Example demo_pipeline_hyps :
  (many_ok demo demo_specs, check_types (abstract_many demo demo_specs) demo_T,
   match cn_pass demo_T (abstract_many demo demo_specs) with Some m => map ga_cond (fp_body m) | None => [] end)
  = (true, true, [CTrue; CTrue; eq_atom "_a0" 1%Qc; eq_atom "_a0" 1%Qc]).
Proof. vm_compute. reflexivity. Qed.
Example demo_pipeline_start :
  init_ok (abstract_many demo demo_specs) demo_T (set_probs (many_probs demo demo_specs) st0)
  /\ probs_ok demo demo_specs (set_probs (many_probs demo demo_specs) st0).
Proof.
  split.
  - unfold init_ok. replace (declared _ demo_T) with demo_T by (vm_compute; reflexivity).
    intros x vs Hx. cbn [demo_T tlookup] in Hx. destruct (var_eqb x "_a0") eqn:Ex; [|discriminate Hx].
    injection Hx as <-. apply String.eqb_eq in Ex. subst x. left. vm_compute. reflexivity.
  - apply probs_ok_satisfiable. vm_compute. constructor; [intros []|constructor].
Qed.

(* a hidden deterministic function of two draws (the ConditionsReducer's alias):
   d = DiscreteUniform(1,6); g = DiscreteUniform(1,4); r = d + g - 5; if r <= 0: x = x + 1 end *)
Definition demo2 : flatprog :=
  {| fp_init := [asg "x" (qc 0)];
     fp_body := [drw "d" (DUnif 1 6); drw "g" (DUnif 1 4); asg "r" (EAdd (EAdd (EVar "d") (EVar "g")) (qc (-5)));
                 gasg "x" (le "r" 0) (EAdd (EVar "x") (qc 1))] |}.
Example demo2_auto :
  let sp := auto_spec [("x", [0%Qc])] demo2 3 "_a0" "_prob1" in (as_H sp, as_bv sp, as_C sp) = (["r"; "d"; "g"], ["r"], le "r" 0).
Proof. vm_compute. reflexivity. Qed.
Example demo2_ok : abstraction_ok demo2 3 ["r"; "d"; "g"] ["r"] (le "r" 0) "_a0" "_prob1" = true.
Proof. vm_compute. reflexivity. Qed.
Example demo2_prob : exq (abs_prob demo2 3 ["r"; "d"; "g"] (le "r" 0)) = (5, 12)%Z.
Proof. vm_compute. reflexivity. Qed.

(* the checker rejects the defect shapes *)
(* two different conditions over the same draw *)
Definition two_conds : flatprog :=
  {| fp_init := [asg "x" (qc 0); asg "y" (qc 0)];
     fp_body := [drw "d" (DUnif 1 6); gasg "x" (le "d" 2) (EAdd (EVar "x") (qc 1)); gasg "y" (le "d" 4) (EAdd (EVar "y") (qc 1))] |}.
Example two_conds_rejected : abstraction_ok two_conds 1 ["d"] ["d"] (le "d" 2) "_a0" "_prob1" = false.
Proof. vm_compute. reflexivity. Qed.
(* the guarded assignment reads a copy of the draw (/repo 50b0bdd): y = d; if d <= 1: x = x + y *)
Example reads_copy_rejected :
  (abstraction_ok wit_reads_copy 2 ["d"] ["d"] (le "d" 1) "_a0" "_prob1", abstraction_ok wit_reads_copy 2 ["d"; "y"] ["d"] (le "d" 1) "_a0" "_prob1")
  = (false, false).
Proof. change (le "d" 1) with (wle "d" 1). rewrite wit_reads_copy_rejected. vm_compute. reflexivity. Qed.
(* a later statement reads the draw (/repo c349038): if d <= 1: x = x + 1 end; y = y + d *)
Example later_read_rejected : abstraction_ok wit_later_read 1 ["d"] ["d"] (le "d" 1) "_a0" "_prob1" = false.
Proof. exact wit_later_read_rejected. Qed.
(* a continuous draw: outside the discrete theorem *)
Definition cont_draw : flatprog :=
  {| fp_init := [asg "x" (qc 0)];
     fp_body := [drw "u" (DCont "Normal" [qc 0; qc 1]); gasg "x" (CAtom (EVar "u") Cgt (qc 0)) (EAdd (EVar "x") (qc 1))] |}.
Example cont_draw_rejected : abstraction_ok cont_draw 1 ["u"] ["u"] (CAtom (EVar "u") Cgt (qc 0)) "_a0" "_prob1" = false.
Proof. vm_compute. reflexivity. Qed.

(* the side conditions are not superfluous: on the two rejected shapes the abstracted program has
   a different law of the NON-hidden variables although the probability symbol has the value P(C) *)
Theorem C02_abs_later_read_refuted :
  exists (fp : flatprog) (i : nat) (H bv : list var) (C : cond) (a p : var) (n : nat) (s0 : state) (f : state -> Qc),
    abstraction_ok fp i H bv C a p = false /\ s0 p = abs_prob fp i H C /\ ignores (H ++ [a]) f /\
    E (frun no_law (abstract_at fp i bv C a p) n s0) f <> E (frun no_law fp n s0) f.
Proof. exact abstract_at_later_read_refuted. Qed.
Print Assumptions C02_abs_later_read_refuted.
Theorem C02_abs_reads_copy_refuted :
  exists (fp : flatprog) (i : nat) (H bv : list var) (C : cond) (a p : var) (n : nat) (s0 : state) (f : state -> Qc),
    abstraction_ok fp i H bv C a p = false /\ s0 p = abs_prob fp i H C /\ ignores (H ++ [a]) f /\
    E (frun no_law (abstract_at fp i bv C a p) n s0) f <> E (frun no_law fp n s0) f.
Proof. exact abstract_at_reads_copy_refuted. Qed.
Print Assumptions C02_abs_reads_copy_refuted.
Example later_read_values :
  (exq (E (frun no_law (abstract_at wit_later_read 1 ["d"] (le "d" 1) "_a0" "_prob1") 1 (st_p "_prob1" (mkq 1 2))) (fun s => s "x" * s "y")%Qc),
   exq (E (frun no_law wit_later_read 1 (st_p "_prob1" (mkq 1 2))) (fun s => s "x" * s "y")%Qc)) = ((3, 4), (1, 2))%Z.
Proof.
  change (le "d" 1) with (wle "d" 1). unfold st_p. rewrite wit_later_read_abs, wit_later_read_orig. vm_compute. reflexivity.
Qed.
