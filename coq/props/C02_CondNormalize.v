(* C02 — pass ConditionsNormalizer (program/transformer/conditions_normalizer.py,
   Atom/And/Or/Not.get_normalized, utils/conditions.get_valid_values).
   Model: PassCondNorm.cn_pass (None = outside the model: the Bernoulli abstraction of atoms
   over variables without a finite type, and non-reduced atoms, which Polar refuses).
   Tie: harness/pass_condnorm.py evaluates the model on Polar's snapshot after TypeInferer
   (with the inferred types) and compares with the snapshot after ConditionsNormalizer. *)
From Coq Require Import List String QArith Qcanon ZArith Bool Permutation.
From Polar Require Import Qcx Dist Syntax Sem Types PassCondNorm.
Import ListNotations.
Open Scope string_scope.

(* pointwise: on every typed state the normalised condition has the same truth value *)
Theorem C02_cn_cond_sound :
  forall (T : tenv) (c c' : cond) (s : state),
    typed T s -> cn_cond T c = Some c' -> holds c' s = holds c s.
Proof. exact cn_cond_sound. Qed.
Print Assumptions C02_cn_cond_sound.

(* the truth value of an Or-chain depends only on the SET of its values: Python's set pop /
   iteration order (and hash seed) cannot change the meaning *)
Theorem C02_or_chain_order_irrelevant :
  forall (x : var) (vs vs' : list Qc),
    (forall v, In v vs <-> In v vs') ->
    forall s : state, holds (or_chain x vs) s = holds (or_chain x vs') s.
Proof. exact or_chain_order_irrelevant. Qed.
Print Assumptions C02_or_chain_order_irrelevant.

Theorem C02_or_chain_perm :
  forall (x : var) (vs vs' : list Qc),
    Permutation vs vs' -> forall s : state, holds (or_chain x vs) s = holds (or_chain x vs') s.
Proof. exact or_chain_perm. Qed.
Print Assumptions C02_or_chain_perm.

(* the output is in the normal form the later stages rely on (only  x == c  atoms) *)
Theorem C02_cn_cond_normal :
  forall (T : tenv) (c c' : cond), cn_cond T c = Some c' -> is_normal c' = true.
Proof. exact cn_cond_normal. Qed.
Print Assumptions C02_cn_cond_normal.

(* program level: for a flat program whose types are validated by the C05 validator
   (Types.check_types: every reachable state, at every program point, is typed), the
   normalised program has the same law at every iteration boundary for EVERY function of
   the state, from every admissible start state, for every law of the continuous families *)
Theorem C02_cn_pass_preserves :
  forall (law : string -> list Qc -> dist Qc) (T : tenv) (fp fp' : flatprog),
    cn_pass T fp = Some fp' -> check_types fp T = true ->
    forall s0 : state, init_ok fp T s0 ->
    forall (n : nat) (f : state -> Qc), E (frun law fp' n s0) f = E (frun law fp n s0) f.
Proof. exact cn_pass_preserves. Qed.
Print Assumptions C02_cn_pass_preserves.

(* non-vacuity: the model evaluated on conditions over typed variables, then on a program *)
Definition qc (z : Z) : expr := EConst (mkq z 1).
Definition T0 : tenv := [("x", [mkq 0 1; mkq 1 1; mkq 2 1; mkq 3 1]); ("b", [mkq 0 1; mkq 1 1])].
Definition T1 : tenv := [("x", [mkq 0 1; mkq 1 1; mkq 2 1]); ("b", [mkq 0 1; mkq 1 1])].

Example cn_le : cn_cond T0 (CAtom (EVar "x") Cle (qc 1))
                = Some (COr (eq_atom "x" (mkq 0 1)) (eq_atom "x" (mkq 1 1))).
Proof. vm_compute. reflexivity. Qed.
Example cn_lt : cn_cond T0 (CAtom (EVar "x") Clt (qc 1)) = Some (eq_atom "x" (mkq 0 1)).
Proof. vm_compute. reflexivity. Qed.
Example cn_gt_none : cn_cond T0 (CAtom (EVar "x") Cgt (qc 3)) = Some CFalse.
Proof. vm_compute. reflexivity. Qed.
Example cn_ge3 : cn_cond T0 (CAtom (EVar "x") Cge (qc 1))
                 = Some (COr (COr (eq_atom "x" (mkq 1 1)) (eq_atom "x" (mkq 2 1))) (eq_atom "x" (mkq 3 1))).
Proof. vm_compute. reflexivity. Qed.
Example cn_nested :
  cn_cond T0 (CAnd (CNot (CAtom (EVar "x") Cgt (qc 0))) (COr (CAtom (EVar "b") Ceq (qc 1)) CTrue))
  = Some (CAnd (CNot (COr (COr (eq_atom "x" (mkq 1 1)) (eq_atom "x" (mkq 2 1))) (eq_atom "x" (mkq 3 1))))
               (COr (eq_atom "b" (mkq 1 1)) CTrue)).
Proof. vm_compute. reflexivity. Qed.
(* outside the model: untyped variable (Bernoulli abstraction), non-reduced atom *)
Example cn_untyped : cn_cond T0 (CAtom (EVar "z") Cle (qc 1)) = None.
Proof. vm_compute. reflexivity. Qed.
Example cn_not_reduced : cn_cond T0 (CAtom (EAdd (EVar "x") (EVar "b")) Cle (qc 1)) = None.
Proof. vm_compute. reflexivity. Qed.

(* a program on which all hypotheses of the program-level theorem hold and the pass changes
   the conditions:  x = 1; b = 1; while true: b = Bernoulli(1/2); x = 0 {1/2} 2 | x <= 1 && b >= 1 : x *)
Definition demo : flatprog :=
  {| fp_init := [{| ga_var := "x"; ga_cond := CTrue; ga_default := "x"; ga_rhs := RDet (qc 1) |};
                 {| ga_var := "b"; ga_cond := CTrue; ga_default := "b"; ga_rhs := RDet (qc 1) |}];
     fp_body := [{| ga_var := "b"; ga_cond := CTrue; ga_default := "b"; ga_rhs := RDraw (DBern (EConst (mkq 1 2))) |};
                 {| ga_var := "x"; ga_cond := CAnd (CAtom (EVar "x") Cle (qc 1)) (CAtom (EVar "b") Cge (qc 1));
                    ga_default := "x"; ga_rhs := RChoice [(EConst (mkq 1 2), qc 0); (EConst (mkq 1 2), qc 2)] |}] |}.
Example demo_types_ok : check_types demo T1 = true.
Proof. vm_compute. reflexivity. Qed.
Example demo_init_ok : init_ok demo T1 st0.
Proof. intros x vs H. vm_compute in H. discriminate H. Qed.
Example demo_pass :
  option_map (fun fp' => map ga_cond (fp_body fp')) (cn_pass T1 demo)
  = Some [CTrue; CAnd (COr (eq_atom "x" (mkq 0 1)) (eq_atom "x" (mkq 1 1))) (eq_atom "b" (mkq 1 1))].
Proof. vm_compute. reflexivity. Qed.
(* both sides of the theorem on this program (a test): the law of (x, b) is not trivial *)
Definition ex (fp : flatprog) (n : nat) : Z * Z :=
  let q := E (frun no_law fp n st0) (fun s => s "x") in (qnum q, Zpos (qden q)).
Example demo_values :
  match cn_pass T1 demo with
  | Some fp' => (map (ex fp') [0; 1; 2]%nat, map (ex demo) [0; 1; 2]%nat)
  | None => ([], [])
  end = ([(1, 1); (1, 1); (9, 8)], [(1, 1); (1, 1); (9, 8)])%Z.
Proof. vm_compute. reflexivity. Qed.
(* the comparison used by the correspondence check identifies chains with permuted values
   and distinguishes chains with different value sets *)
Example eq_mod_perm :
  cond_eq_mod (or_chain "x" [mkq 0 1; mkq 1 1; mkq 2 1]) (or_chain "x" [mkq 2 1; mkq 0 1; mkq 1 1]) = true.
Proof. vm_compute. reflexivity. Qed.
Example eq_mod_drop :
  cond_eq_mod (or_chain "x" [mkq 0 1; mkq 1 1; mkq 2 1]) (or_chain "x" [mkq 0 1; mkq 1 1]) = false.
Proof. vm_compute. reflexivity. Qed.
