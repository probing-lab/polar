(* C02 — pass ConstantsTransformer (program/transformer/constants_transformer.py as of /repo
   99cc64b).  Model: PassConstants.constants (= constants_gen RCond); tie: harness/pass_constants.py
   evaluates the model on Polar's input snapshot and compares with Polar's output snapshot on
   every run.  The folding rules /repo had before (PassConstants.rule) are models too: RFix
   (5e78f4d..99cc64b) is sound, RCur (3e6440d..5e78f4d) and ROld (before 3e6440d) are refuted. *)
From Coq Require Import List String QArith Qcanon ZArith Bool.
From Polar Require Import Qcx Dist Syntax Sem Types Poly PassCNBase PassConstants.
Import ListNotations.
Open Scope string_scope.

(* THE CURRENT RULE.  For every structurally well-formed flat program (boolean [wf_flat]: the
   default of an initial assignment is its own variable, a single-alternative unconditional
   initial assignment has probability 1, defaults of body assignments are body variables —
   what Polar's constructors guarantee), every law of the continuous families, every n, every
   start state and every f that does not read the folded variables (they disappear from the
   program): the expectation of f at iteration n is unchanged by the pass.  No semantic
   hypothesis is left: [constants_ok] holds by construction. *)
Theorem C02_constants_preserves :
  forall (law : string -> list Qc -> dist Qc) (fp : flatprog),
    wf_flat fp = true ->
    forall (n : nat) (s0 : state) (f : state -> Qc),
      ignores (folded fp) f ->
      E (frun law (constants fp) n s0) f = E (frun law fp n s0) f.
Proof.
  intros law fp H.
  apply (constants_gen_preserves law RCond fp eq_refl), (constants_ok_gen_by_construction RCond fp eq_refl), H.
Qed.
Print Assumptions C02_constants_preserves.

(* its two ingredients: the hypothesis the proof forces holds for the model's own choice of
   folded variables, and the theorem under that hypothesis (any flat program) *)
Theorem C02_constants_ok_by_construction :
  forall fp : flatprog, wf_flat fp = true -> constants_ok fp = true.
Proof. intros fp. apply (constants_ok_gen_by_construction RCond fp eq_refl). Qed.
Print Assumptions C02_constants_ok_by_construction.
Theorem C02_constants_preserves_under_ok :
  forall (law : string -> list Qc -> dist Qc) (fp : flatprog),
    constants_ok fp = true ->
    forall (n : nat) (s0 : state) (f : state -> Qc),
      ignores (folded fp) f ->
      E (frun law (constants fp) n s0) f = E (frun law fp n s0) f.
Proof. intros law fp. apply (constants_gen_preserves law RCond fp eq_refl). Qed.
Print Assumptions C02_constants_preserves_under_ok.

(* What makes the substitution right: in the ORIGINAL program, at every iteration boundary
   and in every reachable state, every folded variable equals its folded expression
   evaluated in the current state.  [closed_map] (boolean: no folded value depends on a folded
   variable) fails only for a self-referential  k = k + 1  with k used as a symbol. *)
Theorem C02_constants_invariant :
  forall (law : string -> list Qc -> dist Qc) (fp : flatprog),
    constants_ok fp = true -> closed_map (fixed fp) = true ->
    forall (n : nat) (s0 s : state), supp (frun law fp n s0) s ->
    forall (k : var) (v : expr), slookup (fixed fp) k = Some v -> s k = eval v s.
Proof. intros law fp. apply (constants_gen_invariant law RCond fp eq_refl). Qed.
Print Assumptions C02_constants_invariant.

(* SUPERSEDED RULE 3 (/repo 5e78f4d .. 99cc64b: like the current rule, but constants occurring in
   conditions were folded too, which turned reduced atoms into  1 == 0  and made Polar refuse the
   program later — C18's finding): sound, same theorem. *)
Theorem C02_constants_superseded_fix_rule_preserves :
  forall (law : string -> list Qc -> dist Qc) (fp : flatprog),
    wf_flat fp = true ->
    forall (n : nat) (s0 : state) (f : state -> Qc),
      ignores (sdom (fixed_gen RFix fp)) f ->
      E (frun law (constants_fix fp) n s0) f = E (frun law fp n s0) f.
Proof.
  intros law fp H.
  apply (constants_gen_preserves law RFix fp eq_refl), (constants_ok_gen_by_construction RFix fp eq_refl), H.
Qed.
Print Assumptions C02_constants_superseded_fix_rule_preserves.

(* SUPERSEDED RULE 1 (before /repo 3e6440d: fold every unconditional single-alternative
   polynomial initial assignment of a variable not assigned in the loop) is unsound:
   x = 3; k = x + 1; while true: x = x + k   gives E(x) = 15 instead of 11 at n = 2. *)
Theorem C02_constants_old_behaviour_refuted :
  exists (fp : flatprog) (n : nat) (s0 : state) (f : state -> Qc),
    ignores (sdom (fixed_gen ROld fp)) f /\
    E (frun no_law (constants_old fp) n s0) f <> E (frun no_law fp n s0) f.
Proof. exact constants_old_refuted. Qed.
Print Assumptions C02_constants_old_behaviour_refuted.

(* SUPERSEDED RULE 2 (/repo 3e6440d .. 5e78f4d: additionally "the value mentions no loop
   variable") satisfied the theorem only under [constants_ok_gen RCur], which its own choices
   violated when the initial block re-assigns a constant:
   (a)  k = 1; y = k; k = 2; while true: y = y + k      (the final value 2 is substituted into
        the earlier  y = k)
   (b)  k = 1; k = Bernoulli(1/2); x = 0; while true: x = x + k   (k folded to 1 AND kept) *)
Definition zp (q : Qc) : Z * Z := (qnum q, Zpos (qden q)).
Theorem C02_constants_old_rule_without_ok_refuted :
  exists (fp : flatprog) (n : nat) (s0 : state) (f : state -> Qc),
    ignores (sdom (fixed_gen RCur fp)) f /\
    E (frun no_law (constants_cur fp) n s0) f <> E (frun no_law fp n s0) f.
Proof. exact constants_cur_without_ok_refuted. Qed.
Print Assumptions C02_constants_old_rule_without_ok_refuted.
Theorem C02_constants_old_rule_preserves_under_ok :
  forall (law : string -> list Qc -> dist Qc) (fp : flatprog),
    constants_ok_gen RCur fp = true ->
    forall (n : nat) (s0 : state) (f : state -> Qc),
      ignores (sdom (fixed_gen RCur fp)) f ->
      E (frun law (constants_cur fp) n s0) f = E (frun law fp n s0) f.
Proof. intros law fp. apply (constants_gen_preserves law RCur fp eq_refl). Qed.
Print Assumptions C02_constants_old_rule_preserves_under_ok.

Example old_rule_ok_false : constants_ok_gen RCur wit_a = false /\ constants_ok_gen RCur wit_b = false.
Proof. vm_compute. split; reflexivity. Qed.
(* the superseded model reproduces what Polar computed then: E(y) = 2n+2 instead of 2n+1,
   E(x) = n instead of n/2 *)
Example old_rule_wit_a_values :
  map (fun n => (zp (E (frun no_law (constants_cur wit_a) n st0) (fun s => s "y")),
                 zp (E (frun no_law wit_a n st0) (fun s => s "y")))) [0; 1; 2]%nat
  = [((2, 1), (1, 1)); ((4, 1), (3, 1)); ((6, 1), (5, 1))]%Z.
Proof. vm_compute. reflexivity. Qed.
Example old_rule_wit_b_values :
  map (fun n => (zp (E (frun no_law (constants_cur wit_b) n st0) (fun s => s "x")),
                 zp (E (frun no_law wit_b n st0) (fun s => s "x")))) [0; 1; 2]%nat
  = [((0, 1), (0, 1)); ((1, 1), (1, 2)); ((2, 1), (1, 1))]%Z.
Proof. vm_compute. reflexivity. Qed.
(* the current rule on the same witnesses: well-formed, hypothesis true, exact values *)
Example constants_wit_wf : wf_flat wit_a = true /\ wf_flat wit_b = true /\
                           constants_ok wit_a = true /\ constants_ok wit_b = true.
Proof. vm_compute. repeat split; reflexivity. Qed.
Example constants_wit_a_values :
  map (fun n => (zp (E (frun no_law (constants wit_a) n st0) (fun s => s "y")),
                 zp (E (frun no_law wit_a n st0) (fun s => s "y")))) [0; 1; 2]%nat
  = [((1, 1), (1, 1)); ((3, 1), (3, 1)); ((5, 1), (5, 1))]%Z.
Proof. vm_compute. reflexivity. Qed.
Example constants_wit_b_values :
  map (fun n => (zp (E (frun no_law (constants wit_b) n st0) (fun s => s "x")),
                 zp (E (frun no_law wit_b n st0) (fun s => s "x")))) [0; 1; 2]%nat
  = [((0, 1), (0, 1)); ((1, 2), (1, 2)); ((1, 1), (1, 1))]%Z.
Proof. vm_compute. reflexivity. Qed.

(* non-vacuity: the hypothesis holds on a program where the pass does all it can do:
   a = 2; u = Bernoulli(1/2); k = a*a + 1; m = u + k; j = x + 1 (x loop variable: NOT folded);
   x = 0; y = 1
   while true: x = x + k*u {1/2} x + m ; y = y*a | x < 3 : y
   folded: a -> 2, k -> 2*2+1, m -> u + (2*2+1)   (m refers to the other constant u);
   kept: u, j, x, y;  appended: u = u, j = j *)
Definition demo : flatprog :=
  {| fp_init := [det "x" (qc 0);
                 det "a" (qc 2);
                 {| ga_var := "u"; ga_cond := CTrue; ga_default := "u"; ga_rhs := RDraw (DBern (EConst (mkq 1 2))) |};
                 det "k" (EAdd (EMul (EVar "a") (EVar "a")) (qc 1));
                 det "m" (EAdd (EVar "u") (EVar "k"));
                 det "j" (EAdd (EVar "x") (qc 1));
                 det "y" (qc 1)];
     fp_body := [{| ga_var := "x"; ga_cond := CTrue; ga_default := "x";
                    ga_rhs := RChoice [(EConst (mkq 1 2), EAdd (EVar "x") (EMul (EVar "k") (EVar "u")));
                                       (EConst (mkq 1 2), EAdd (EVar "x") (EVar "m"))] |};
                 {| ga_var := "y"; ga_cond := CAtom (EVar "x") Clt (qc 3); ga_default := "y";
                    ga_rhs := RDet (EMul (EVar "y") (EVar "a")) |}] |}.

Example constants_ok_demo : wf_flat demo = true /\ constants_ok demo = true /\ closed_map (fixed demo) = true.
Proof. vm_compute. repeat split; reflexivity. Qed.
Example constants_demo_folded : folded demo = ["m"; "k"; "a"].
Proof. vm_compute. reflexivity. Qed.
Example constants_demo_shape :
  (map ga_var (fp_init (constants demo)), map ga_var (fp_body (constants demo)))
  = (["x"; "u"; "j"; "y"], ["x"; "y"; "u"; "j"]).
Proof. vm_compute. reflexivity. Qed.
(* the theorem's two sides on this program (a test, not the theorem): E(x*y) for n <= 2 *)
Example constants_demo_values :
  map (fun n => zp (E (frun no_law (constants demo) n st0) (fun s => s "x" * s "y")%Qc)) [0; 1; 2]%nat
  = map (fun n => zp (E (frun no_law demo n st0) (fun s => s "x" * s "y")%Qc)) [0; 1; 2]%nat.
Proof. vm_compute. reflexivity. Qed.
Example constants_demo_nontrivial :
  zp (E (frun no_law demo 2 st0) (fun s => s "x" * s "y")%Qc) <> (0%Z, 1%Z).
Proof. vm_compute. intros H. discriminate H. Qed.
(* the repaired rule leaves the old counterexample alone *)
Example constants_refute_prog_ok : wf_flat refute_prog = true /\ folded refute_prog = [].
Proof. vm_compute. split; reflexivity. Qed.

(* on a program whose initial block assigns every variable once the last two rules coincide *)
Example constants_same_on_demo : constants demo = constants_cur demo.
Proof. vm_compute. reflexivity. Qed.
(* the self-referential initial assignment  k = k + 1  (k read as a symbol): preserved, but the
   invariant's extra hypothesis is false there *)
Definition selfref : flatprog :=
  {| fp_init := [det "x" (qc 0); det "k" (EAdd (EVar "k") (qc 1))];
     fp_body := [det "x" (EAdd (EVar "x") (EVar "k"))] |}.
Example selfref_ok : wf_flat selfref = true /\ folded selfref = ["k"] /\ closed_map (fixed selfref) = false.
Proof. vm_compute. repeat split; reflexivity. Qed.
(* the difference between the current rule and the superseded RFix: a constant used in a
   condition is kept as a variable (and gets  c = c), so reduced atoms  c == 0  keep their form:
   c = 0; a = 2; x = 0; while true: x = x + a | c == 0 : x *)
Definition cond_demo : flatprog :=
  {| fp_init := [det "c" (qc 0); det "a" (qc 2); det "x" (qc 0)];
     fp_body := [{| ga_var := "x"; ga_cond := CAtom (EVar "c") Ceq (qc 0); ga_default := "x";
                    ga_rhs := RDet (EAdd (EVar "x") (EVar "a")) |}] |}.
Example cond_demo_rules :
  folded cond_demo = ["a"] /\ sdom (fixed_gen RFix cond_demo) = ["a"; "c"] /\
  map ga_var (fp_body (constants cond_demo)) = ["x"; "c"] /\ wf_flat cond_demo = true.
Proof. vm_compute. repeat split; reflexivity. Qed.
Example cond_demo_values :
  map (fun n => zp (E (frun no_law (constants cond_demo) n st0) (fun s => s "x"))) [0; 1; 2]%nat
  = map (fun n => zp (E (frun no_law cond_demo n st0) (fun s => s "x"))) [0; 1; 2]%nat.
Proof. vm_compute. reflexivity. Qed.
