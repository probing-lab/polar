(* C06 — every reported polynomial invariant holds on the goal sequences.
   Property theorems, each closed by [exact] and followed by Print Assumptions; then non-vacuity
   examples by vm_compute. *)
From Coq Require Import List Arith ZArith QArith Qcanon.
From Polar Require Import Qcx CRing ExpPoly ClosedForm Invariant InvariantIdeal InvariantOnSequence LatticeRel LatticeIdealModel.
Import ListNotations.

(* evaluation inside the exponential-polynomial ring is evaluation of the polynomial at the values *)
Theorem C06_poly_eval_ep_hom :
  forall (R : cring) (B : mpoly R) (F : list (epoly R)) (n : nat),
    eeval (poly_eval_ep B F) n = poly_eval B (evalF F n).
Proof. exact poly_eval_ep_hom. Qed.
Print Assumptions C06_poly_eval_ep_hom.

(* V: acceptance means the basis polynomial B vanishes on the closed forms at EVERY n, over every
   commutative ring (Q and the towers Q(sqrt g1)...(sqrt gk) for irrational bases) *)
Theorem C06_check_invariant_sound :
  forall (R : cring) (B : mpoly R) (F : list (epoly R)),
    check_invariant B F = true -> forall n : nat, poly_eval B (evalF F n) = r0.
Proof. exact check_invariant_sound. Qed.
Print Assumptions C06_check_invariant_sound.

(* the property's wording: goal sequences that agree with the closed forms from n0 on (n < n0 are
   the special cases Polar lists) satisfy the reported invariant at every n >= n0 *)
Theorem C06_check_invariant_past_special :
  forall (R : cring) (B : mpoly R) (F : list (epoly R)) (n0 : nat) (s : nat -> list R),
    check_invariant B F = true ->
    (forall n, (n0 <= n)%nat -> s n = evalF F n) ->
    forall n, (n0 <= n)%nat -> poly_eval B (s n) = r0.
Proof. exact check_invariant_past_special. Qed.
Print Assumptions C06_check_invariant_past_special.

(* every MEMBER of the ideal generated by accepted basis polynomials is an invariant: for arbitrary
   cofactors Cs over the goal variables, sum_i C_i * B_i vanishes on the closed forms at every n *)
Theorem C06_ideal_member_invariant :
  forall (R : cring) (Bs Cs : list (mpoly R)) (F : list (epoly R)),
    forallb (fun B => check_invariant B F) Bs = true ->
    forallb (exps_ok (length F)) Cs = true ->
    forall n : nat, poly_eval (ideal_comb Cs Bs) (evalF F n) = r0.
Proof. exact ideal_member_invariant. Qed.
Print Assumptions C06_ideal_member_invariant.

(* composed with C04: closed forms accepted for the moment system x(n+1) = A x(n), x(0) = v and an
   invariant accepted against them (exponent 0 for system entries that are not goals) give an
   invariant of the TRUE sequence A^n v from the cut-off on -- the closed forms have disappeared
   from the conclusion *)
Theorem C06_invariant_on_recurrence_sequence :
  forall (R : cring) A v (F : list (epoly R)) sp (B : mpoly R),
    check_solution A v F sp = true -> check_invariant B F = true ->
    forall n : nat, (length sp <= n)%nat -> poly_eval B (iter_mat A n v) = r0.
Proof. exact invariant_on_recurrence_sequence. Qed.
Print Assumptions C06_invariant_on_recurrence_sequence.

Theorem C06_ideal_member_on_recurrence_sequence :
  forall (R : cring) A v (F : list (epoly R)) sp (Bs Cs : list (mpoly R)),
    check_solution A v F sp = true ->
    forallb (fun B => check_invariant B F) Bs = true ->
    forallb (exps_ok (length F)) Cs = true ->
    forall n : nat, (length sp <= n)%nat -> poly_eval (ideal_comb Cs Bs) (iter_mat A n v) = r0.
Proof. exact ideal_member_on_recurrence_sequence. Qed.
Print Assumptions C06_ideal_member_on_recurrence_sequence.

(* model of LatticeIdeal.compute_basis (invariants/lattice_ideal.py): the generator equations
   built from accepted lattice rows (inverse symbols for negative exponents, x_i*c_i - 1) vanish at
   x_i = b_i^n, c_i = b_i^-n for EVERY n, and so does every inverse-symbol-free polynomial that is
   certified (cofactors Cs) to lie in the ideal they generate -- what the elimination step returns *)
Theorem C06_lattice_row_generator_vanishes :
  forall (R : cring) (bs : list (R * R)) (e : list Z) (n : nat),
    length e = length bs -> is_relation bs e -> poly_eval (row_gen e) (val bs n) = r0.
Proof. exact row_gen_vanishes. Qed.
Print Assumptions C06_lattice_row_generator_vanishes.

Theorem C06_lattice_inverse_generator_vanishes :
  forall (R : cring) (bs : list (R * R)) (i n : nat),
    inverses_ok bs -> (i < length bs)%nat -> poly_eval (inv_gen (length bs) i) (val bs n) = r0.
Proof. exact inv_gen_vanishes. Qed.
Print Assumptions C06_lattice_inverse_generator_vanishes.

Theorem C06_lattice_ideal_sound :
  forall (R : cring) (bs : list (R * R)) (B : list (list Z)) (Cs : list (mpoly R)) (q : mpoly R),
    check_relations bs B = true ->
    exps_ok (length bs) q = true ->
    forallb (exps_ok (R := R) (length bs + length bs)%nat) (generators (length bs) B) = true ->
    forallb (exps_ok (length bs + length bs)%nat) Cs = true ->
    mpeq (padq (length bs + length bs)%nat q) (ideal_comb Cs (generators (length bs) B)) = true ->
    forall n : nat, poly_eval q (xval bs n) = r0.
Proof. exact lattice_ideal_sound. Qed.
Print Assumptions C06_lattice_ideal_sound.

(* Non-vacuity: the validators accept true invariants and reject a false one, and the hypotheses of
   the ideal theorems are met. *)
(* a = 4^n, b = 8^n: a^3 - b^2 is an invariant, the polynomial a - b that Polar reported before
   /repo a4c7460 is not *)
Example C06_nonvacuous_4_8 :
  let F : list (epoly Qc_cring) := [[(mkq 4 1, [mkq 1 1])]; [(mkq 8 1, [mkq 1 1])]] in
  check_invariant (R := Qc_cring) [(mkq 1 1, [3; 0]%nat); (mkq (-1) 1, [0; 2]%nat)] F = true /\
  check_invariant (R := Qc_cring) [(mkq 1 1, [1; 0]%nat); (mkq (-1) 1, [0; 1]%nat)] F = false.
Proof. vm_compute. split; reflexivity. Qed.
(* x = n*2^n, y = 2^n, z = n :  x - y*z = 0 *)
Example C06_nonvacuous_poly_exp :
  let F : list (epoly Qc_cring) := [[(mkq 2 1, [mkq 0 1; mkq 1 1])]; [(mkq 2 1, [mkq 1 1])]; [(mkq 1 1, [mkq 0 1; mkq 1 1])]] in
  check_invariant (R := Qc_cring) [(mkq 1 1, [1; 0; 0]%nat); (mkq (-1) 1, [0; 1; 1]%nat)] F = true.
Proof. vm_compute. reflexivity. Qed.
(* golden ratio over Q(sqrt 5): a = phi^n, b = psi^n: a^2 b^2 - 1 = 0 *)
Example C06_nonvacuous_golden :
  let R := quad_cring Qc_cring (mkq 5 1) in
  let F : list (epoly R) := [[((mkq 1 2, mkq 1 2), [(mkq 1 1, mkq 0 1)])]; [((mkq 1 2, mkq (-1) 2), [(mkq 1 1, mkq 0 1)])]] in
  check_invariant (R := R) [((mkq 1 1, mkq 0 1), [2; 2]%nat); ((mkq (-1) 1, mkq 0 1), [0; 0]%nat)] F = true /\
  check_invariant (R := R) [((mkq 1 1, mkq 0 1), [1; 1]%nat); ((mkq (-1) 1, mkq 0 1), [0; 0]%nat)] F = false.
Proof. vm_compute. split; reflexivity. Qed.
(* hypotheses of the ideal theorem are met: basis {a^3 - b^2} for a = 4^n, b = 8^n, cofactor a + 2b *)
Example C06_nonvacuous_ideal_member :
  let F : list (epoly Qc_cring) := [[(mkq 4 1, [mkq 1 1])]; [(mkq 8 1, [mkq 1 1])]] in
  let Bs : list (mpoly Qc_cring) := [[(mkq 1 1, [3; 0]%nat); (mkq (-1) 1, [0; 2]%nat)]] in
  let Cs : list (mpoly Qc_cring) := [[(mkq 1 1, [1; 0]%nat); (mkq 2 1, [0; 1]%nat)]] in
  forallb (fun B => check_invariant B F) Bs = true /\ forallb (exps_ok (length F)) Cs = true /\
  length (ideal_comb Cs Bs) = 4%nat.
Proof. vm_compute. repeat split; reflexivity. Qed.
(* both hypotheses together: a(n+1) = 4a, b(n+1) = 8b from (1, 1); a^3 - b^2 on the true sequence *)
Example C06_nonvacuous_on_sequence :
  let A : list (list Qc) := [[mkq 4 1; mkq 0 1]; [mkq 0 1; mkq 8 1]] in
  let F : list (epoly Qc_cring) := [[(mkq 4 1, [mkq 1 1])]; [(mkq 8 1, [mkq 1 1])]] in
  check_solution (R := Qc_cring) A [mkq 1 1; mkq 1 1] F [] = true /\
  check_invariant (R := Qc_cring) [(mkq 1 1, [3; 0]%nat); (mkq (-1) 1, [0; 2]%nat)] F = true.
Proof. vm_compute. split; reflexivity. Qed.
(* the lattice-ideal theorem applies: bases 4, 8 with the row (-3, 2); y^2 - x^3 is in the ideal of
   { c1^3 y^2 - 1, x c1 - 1, y c2 - 1 } with cofactors  x^3  and  -y^2 (x^2 c1^2 + x c1 + 1) *)
Example C06_nonvacuous_lattice_ideal :
  let bs : list (Qc * Qc) := [(mkq 4 1, mkq 1 4); (mkq 8 1, mkq 1 8)] in
  let B := [[-3; 2]]%Z in
  let q : mpoly Qc_cring := [(mkq 1 1, [0; 2]%nat); (mkq (-1) 1, [3; 0]%nat)] in
  let Cs : list (mpoly Qc_cring) :=
    [ [(mkq 1 1, [3; 0; 0; 0]%nat)];
      [(mkq (-1) 1, [2; 2; 2; 0]%nat); (mkq (-1) 1, [1; 2; 1; 0]%nat); (mkq (-1) 1, [0; 2; 0; 0]%nat)];
      [] ] in
  check_relations (R := Qc_cring) bs B = true /\
  exps_ok (R := Qc_cring) 2 q = true /\
  forallb (exps_ok (R := Qc_cring) 4) (generators 2 B) = true /\
  forallb (exps_ok (R := Qc_cring) 4) Cs = true /\
  mpeq (R := Qc_cring) (padq 4 q) (ideal_comb Cs (generators 2 B)) = true.
Proof. vm_compute. repeat split; reflexivity. Qed.
