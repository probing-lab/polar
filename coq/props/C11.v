(* C11 — Central moments, cumulants, tail bounds and expansions match the exact law.
   Property theorems, each closed by [exact] and followed by Print Assumptions; then an example
   law with non-vacuity examples by vm_compute.

   The definitions raw_moments_to_centrals[_with], raw_moments_to_cumulants[_with], comb,
   get_all_moments, tail_bound_upper, tail_bound_lower are GENERATED (gen/StatsGen.v) from
   /repo/utils/statistics.py, /repo/cli/common.py and /repo/cli/actions/goals_action.py on
   every run.  `_with cmb` is the translated function with the callee bound to the name
   `comb` abstracted; raw_moments_to_X = raw_moments_to_X_with comb.

   A finite law is a list of (weight, value) over Qc, Ex L f = sum w * f v;
   raw L k = E[X^k], central L i = E[(X - E X)^i], Pge L a = P(X >= a), Pgt L a = P(X > a);
   moments_of L K d : the dict d has K entries and d[k] = raw L k for k = 1..K. *)
From Coq Require Import List ZArith QArith Qcanon Lia Arith Bool.
From Polar Require Import Qcx Stats StatsFps.
From PolarGen Require Import StatsGen.
From Polar Require Import StatsThm StatsHermite.
Import ListNotations.
Local Open Scope Qc_scope.

(* the translated comb (n! // (k! (n-k)!), integer floor division) is the binomial coefficient,
   for ALL n, k.  (Before /repo commit 2370b33 comb went through a float and was wrong from
   (57,25); that version was refuted here and is re-detected by the check if it returns.) *)
Theorem C11_comb_spec : forall n k : nat, comb n k = binom n k.
Proof. exact comb_spec_lemma. Qed.
Print Assumptions C11_comb_spec.

(* for all laws of total mass 1 (weights may even be signed), all K, all orders 1 <= i <= K:
   the translated conversion with the true binomial yields E[(X - mu)^i] *)
Theorem C11_centrals_exact :
  forall (L : law) (K : nat) (d : pydict) (i : nat),
    mass L = 1 -> moments_of L K d -> (1 <= i <= K)%nat ->
    dget (raw_moments_to_centrals_with binom d) i = central L i.
Proof. exact centrals_exact. Qed.
Print Assumptions C11_centrals_exact.

(* the same for the function as Polar runs it (its own comb), every K *)
Theorem C11_centrals_exact_polar :
  forall (L : law) (K : nat) (d : pydict) (i : nat),
    mass L = 1 -> moments_of L K d -> (1 <= i <= K)%nat ->
    dget (raw_moments_to_centrals d) i = central L i.
Proof. exact centrals_exact_polar. Qed.
Print Assumptions C11_centrals_exact_polar.

(* centrals[1] is 0, the first central moment (before /repo commit 437ee40 it was the mean) *)
Theorem C11_central1_is_zero :
  forall (cmb : nat -> nat -> Z) (d : pydict), dget (raw_moments_to_centrals_with cmb d) 1 = 0.
Proof. exact centrals_key1. Qed.
Print Assumptions C11_central1_is_zero.
Theorem C11_central1_should_be_zero : forall L : law, mass L = 1 -> central L 1 = 0.
Proof. exact central_1_zero. Qed.
Print Assumptions C11_central1_should_be_zero.

(* Cumulants.  RESTATEMENT LEVEL: what the translated loop computes, as an equation *)
Theorem C11_cumulants_recursion_restatement :
  forall (cmb : nat -> nat -> Z) (d : pydict) (i : nat),
    (1 <= i <= dlen d)%nat ->
    let kap := raw_moments_to_cumulants_with cmb d in
    dget kap i = dget d i - bigsum (pyrange 1 i)
                   (fun k => zq (cmb (i - 1)%nat (k - 1)%nat) * dget kap k * dget d (i - k)%nat).
Proof. exact cumulants_recursion. Qed.
Print Assumptions C11_cumulants_recursion_restatement.

(* FULL STRENGTH, all orders: the translated cumulants are i! [t^i] log (sum_k E[X^k] t^k / k!)
   (cumulant_log is defined from the log series -sum_j (1 - M)^j / j in StatsFps.v, with
   Cauchy products of coefficient sequences; independent of the recursion) *)
Theorem C11_cumulants_are_log_coefficients :
  forall (L : law) (K : nat) (d : pydict) (i : nat),
    mass L = 1 -> moments_of L K d -> (1 <= i <= K)%nat ->
    dget (raw_moments_to_cumulants_with binom d) i = cumulant_log (raw L) i.
Proof. intros L K d i. exact (cumulants_are_log_coefficients binom L K d i (fun _ _ _ => eq_refl)). Qed.
Print Assumptions C11_cumulants_are_log_coefficients.

(* the same for the function as Polar runs it (its own comb), every K *)
Theorem C11_cumulants_polar :
  forall (L : law) (K : nat) (d : pydict) (i : nat),
    mass L = 1 -> moments_of L K d -> (1 <= i <= K)%nat ->
    dget (raw_moments_to_cumulants d) i = cumulant_log (raw L) i.
Proof. exact cumulants_polar. Qed.
Print Assumptions C11_cumulants_polar.

(* all orders: additivity over independent sums, shift invariance, homogeneity *)
Theorem C11_cumulants_additive :
  forall (L1 L2 : law) (K : nat) (d1 d2 d12 : pydict) (i : nat),
    mass L1 = 1 -> mass L2 = 1 ->
    moments_of L1 K d1 -> moments_of L2 K d2 -> moments_of (indep_sum L1 L2) K d12 ->
    (1 <= i <= K)%nat ->
    dget (raw_moments_to_cumulants_with binom d12) i
    = dget (raw_moments_to_cumulants_with binom d1) i + dget (raw_moments_to_cumulants_with binom d2) i.
Proof. intros L1 L2 K d1 d2 d12 i. exact (cumulants_additive binom L1 L2 K d1 d2 d12 i (fun _ _ _ => eq_refl)). Qed.
Print Assumptions C11_cumulants_additive.

Theorem C11_cumulants_shift :
  forall (L : law) (c : Qc) (K : nat) (d d' : pydict) (i : nat),
    mass L = 1 -> moments_of L K d -> moments_of (shift_law c L) K d' -> (1 <= i <= K)%nat ->
    dget (raw_moments_to_cumulants_with binom d') i
    = dget (raw_moments_to_cumulants_with binom d) i + (if Nat.eqb i 1 then c else 0).
Proof. intros L c K d d' i. exact (cumulants_shift binom L c K d d' i (fun _ _ _ => eq_refl)). Qed.
Print Assumptions C11_cumulants_shift.

Theorem C11_cumulants_scale :
  forall (L : law) (c : Qc) (K : nat) (d d' : pydict) (i : nat),
    mass L = 1 -> moments_of L K d -> moments_of (scale_law c L) K d' -> (1 <= i <= K)%nat ->
    dget (raw_moments_to_cumulants_with binom d') i = qpow c i * dget (raw_moments_to_cumulants_with binom d) i.
Proof. intros L c K d d' i. exact (cumulants_scale binom L c K d d' i (fun _ _ _ => eq_refl)). Qed.
Print Assumptions C11_cumulants_scale.

(* Tail bounds.  The dict handed to the bound code: get_all_moments yields the raw moments 1..K *)
Theorem C11_get_all_moments_spec :
  forall (L : law) (ex : nat -> bool) (K : nat), moments_of L K (fst (get_all_moments (raw L) ex K)).
Proof. exact get_all_moments_spec. Qed.
Print Assumptions C11_get_all_moments_spec.

(* the printed list: entry with label j (position j-1) is E[X^j] / a^j *)
Theorem C11_tail_bound_upper_listing :
  forall (a : Qc) (mp : nat -> Qc) (ex : nat -> bool) (K : nat),
    tail_bound_upper a (fst (get_all_moments mp ex K)) = map (fun k => mp k / qpow a k) (pyrange 1 (K + 1)).
Proof. exact tail_bound_upper_listing. Qed.
Print Assumptions C11_tail_bound_upper_listing.

(* Markov: for every finite law with non-negative weights and X >= 0 (mass 1 not even needed),
   every a > 0, every number K of moments: every listed bound is >= P(X >= a) *)
Theorem C11_markov_bound :
  forall (L : law) (a : Qc) (ex : nat -> bool) (K : nat),
    nonneg_weights L -> support_ge L 0 -> 0 < a ->
    Forall (fun b => Pge L a <= b) (tail_bound_upper a (fst (get_all_moments (raw L) ex K))).
Proof. exact markov_bounds_valid. Qed.
Print Assumptions C11_markov_bound.

Theorem C11_markov_bound_any_dict :
  forall (L : law) (a : Qc) (d : pydict),
    nonneg_weights L -> support_ge L 0 -> 0 < a ->
    (forall k m, In (k, m) d -> m = raw L k) ->
    Forall (fun b => Pge L a <= b) (tail_bound_upper a d).
Proof. exact markov_bounds_valid_dict. Qed.
Print Assumptions C11_markov_bound_any_dict.

(* second-moment (Cauchy-Schwarz / Paley-Zygmund at 0) lower bound, under the printed
   assumption "X - a is non-negative":  (E X - a)^2 / (E X^2 - 2 a E X + a^2) <= P(X > a).
   (If E (X-a)^2 = 0 the Qc quotient is 0 and the statement still holds; Python raises
   ZeroDivisionError / prints nan there.) *)
Theorem C11_second_moment_lower_bound :
  forall (L : law) (a : Qc) (K : nat) (d : pydict),
    is_prob L -> support_ge L a -> moments_of L K d -> (2 <= K)%nat ->
    tail_bound_lower a d <= Pgt L a.
Proof. exact second_moment_bound_valid. Qed.
Print Assumptions C11_second_moment_lower_bound.

Theorem C11_second_moment_lower_bound_polar :
  forall (L : law) (a : Qc) (ex : nat -> bool),
    is_prob L -> support_ge L a ->
    tail_bound_lower a (fst (get_all_moments (raw L) ex tail_bound_lower_order)) <= Pgt L a.
Proof. exact second_moment_bound_polar. Qed.
Print Assumptions C11_second_moment_lower_bound_polar.

(* Expansions, algebraic part (theories/StatsHermite.v).
   Gaussian moment functional G[z^k] = (k-1)!! / 0 on polynomials (coefficient lists);
   He_n by the three-term recurrence.  For ALL n and all polynomials q of degree < n:
   G[He_n * q] = 0; and G[He_n * He_n] = n!. *)
Theorem C11_hermite_orthogonal_low :
  forall (n : nat) (q : list Qc), (length q <= n)%nat -> gauss (pmul (hermite n) q) = 0.
Proof. exact hermite_orth_low. Qed.
Print Assumptions C11_hermite_orthogonal_low.

Theorem C11_hermite_norm : forall n : nat, gauss (pmul (hermite n) (hermite n)) = factq n.
Proof. exact hermite_norm. Qed.
Print Assumptions C11_hermite_norm.

Theorem C11_hermite_orthogonal : forall i j : nat, i <> j -> gauss (pmul (hermite i) (hermite j)) = 0.
Proof. exact hermite_orthogonal. Qed.
Print Assumptions C11_hermite_orthogonal.

(* Gram-Charlier shape  phi(z) * (1 + sum_{i=3..K} c_i He_i(z)) : for every coefficient
   vector c (in particular Polar's Bell-polynomial coefficients, any cumulants) the density
   integrates to 1, has standardized mean 0 and variance 1, and E[He_j] = j! c_j.
   PARTIAL w.r.t. the property: "reproduces the first k raw moments" additionally needs
   c_j = B_j(0,0,k3..kj)/(j! sigma^j) = E[He_j(Z)]/j!  (only validated, harness) *)
Theorem C11_gram_charlier_partial :
  forall (c : nat -> Qc) (K : nat),
    let f := gc_poly c K in
    gauss f = 1 /\ gauss (pmul [0; 1] f) = 0 /\ gauss (pmul [0; 0; 1] f) = 1 /\
    forall j, (3 <= j <= K)%nat -> gauss (pmul (hermite j) f) = factq j * c j.
Proof. exact gram_charlier_shape. Qed.
Print Assumptions C11_gram_charlier_partial.

(* Non-vacuity, on X in {0, 1, 4} with probabilities 1/2, 1/3, 1/6. *)
Definition L3 : law := [(mkq 1 2, mkq 0 1); (mkq 1 3, mkq 1 1); (mkq 1 6, mkq 4 1)].
Definition zp (n : Z) (d : positive) : Z * positive := (n, d).
Definition d3 (K : nat) : pydict := fst (get_all_moments (raw L3) (fun _ => true) K).

Example C11_nonvacuous_law : Qc_eqb (mass L3) 1 = true /\ forallb (fun p => Qc_leb 0 (fst p) && Qc_leb 0 (snd p)) L3 = true.
Proof. split; vm_compute; reflexivity. Qed.

(* raw moments 1, 3, 11, 43; centrals 0, 2, 4, 14 ; cumulants 1, 2, 4, 2 *)
Example C11_nonvacuous_conversions :
  map qpair (map (dget (d3 4)) [1; 2; 3; 4]%nat) = [zp (1) 1; zp (3) 1; zp (11) 1; zp (43) 1]
  /\ map qpair (map (dget (raw_moments_to_centrals (d3 4))) [1; 2; 3; 4]%nat) = [zp (0) 1; zp (2) 1; zp (4) 1; zp (14) 1]
  /\ map qpair (map (central L3) [2; 3; 4]%nat) = [zp (2) 1; zp (4) 1; zp (14) 1]
  /\ map qpair (map (dget (raw_moments_to_cumulants (d3 4))) [1; 2; 3; 4]%nat) = [zp (1) 1; zp (2) 1; zp (4) 1; zp (2) 1]
  /\ map qpair (map (cumulant_log (raw L3)) [1; 2; 3; 4]%nat) = [zp (1) 1; zp (2) 1; zp (4) 1; zp (2) 1].
Proof. repeat split; vm_compute; reflexivity. Qed.

(* P(X >= 2) = 1/6 <= 1/2, 3/4, 11/8 ;  with a = -1:  P(X > -1) = 1 >= (1+1)^2/(3+2+1) = 2/3 *)
Example C11_nonvacuous_bounds :
  qpair (Pge L3 (mkq 2 1)) = (1%Z, 6%positive)
  /\ map qpair (tail_bound_upper (mkq 2 1) (d3 3)) = [zp (1) 2; zp (3) 4; zp (11) 8]
  /\ forallb (fun p => Qc_leb (mkq (-1) 1) (snd p)) L3 = true
  /\ qpair (tail_bound_lower (mkq (-1) 1) (d3 2)) = (2%Z, 3%positive)
  /\ qpair (Pgt L3 (mkq (-1) 1)) = (1%Z, 1%positive)
  (* a sharp instance: X - 1/2 >= 0 fails, so take a = 0: (E X)^2 / E X^2 = 1/3 <= P(X > 0) = 1/2 *)
  /\ qpair (tail_bound_lower 0 (d3 2)) = (1%Z, 3%positive)
  /\ qpair (Pgt L3 0) = (1%Z, 2%positive).
Proof. repeat split; vm_compute; reflexivity. Qed.

(* He_4 = z^4 - 6 z^2 + 3 ; G[He_3 * z^2] = 0 ; G[He_3 * He_3] = 6 *)
Example C11_nonvacuous_hermite :
  map qpair (hermite 4) = [zp (3) 1; zp (0) 1; zp (-6) 1; zp (0) 1; zp (1) 1]
  /\ qpair (gauss (pmul (hermite 3) [0; 0; 1])) = (0%Z, 1%positive)
  /\ qpair (gauss (pmul (hermite 3) (hermite 3))) = (6%Z, 1%positive).
Proof. repeat split; vm_compute; reflexivity. Qed.
