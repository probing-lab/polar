(* C19 — texts that denote the same loop yield the same analysis.
   Property theorems, each closed by [exact] and followed by Print Assumptions; then precedence
   and rejection samples, evaluated.
   Models: theories/Parse.v (arithmetic grammar, Python precedence), ParseCond.v (conditions as
   syntax.lark's LALR tables read them), ParseSem.v (values, decimals, the parser's implicit
   last probability text), Sugar.v (sugar under the reference semantics Sem.v). *)
From Coq Require Import String List NArith ZArith QArith Qcanon Lia.
From Polar Require Import Qcx Dist Syntax Sem Parse ParseCond ParseSem Sugar.
Import ListNotations.
Local Open Scope Qc_scope.

(* parse (print e) = e.
   [pr 0 e ts]: ts is a spelling of the arithmetic AST e with parentheses wherever the grammar
   needs them and any number of redundant ones.  Every spelling parses back to its AST; the
   fuel the structurally recursive parser gets is the length of the token list, and the
   out-of-fuel answer None is excluded by the statement. *)
Theorem C19_parse_print_spelling :
  forall (e : sx) (ts : list tok), pr 0 e ts -> parse_expr ts = Some e.
Proof. exact parse_spelling. Qed.
Print Assumptions C19_parse_print_spelling.

Theorem C19_parse_print_full : forall e : sx, parse_expr (print_full e) = Some e.
Proof. exact parse_print_full. Qed.
Print Assumptions C19_parse_print_full.

Theorem C19_parse_print_min : forall e : sx, parse_expr (print_min e) = Some e.
Proof. exact parse_print_min. Qed.
Print Assumptions C19_parse_print_min.

Theorem C19_redundant_parens :
  forall e ts ts', pr 0 e ts -> pr 0 e ts' -> parse_expr ts = parse_expr ts'.
Proof. exact redundant_parens. Qed.
Print Assumptions C19_redundant_parens.

Theorem C19_spelling_injective : forall e e' ts, pr 0 e ts -> pr 0 e' ts -> e = e'.
Proof. exact spelling_injective. Qed.
Print Assumptions C19_spelling_injective.

(* conditions: true/false, arithm COP arithm, !(c), && and || on one level associating to the
   right, parenthesised conditions; a leading "(" may belong to the arithmetic *)
Theorem C19_parse_print_cond_spelling :
  forall (c : sc) (ts : list tok), prc 0 c ts -> parse_cond ts = Some c.
Proof. exact parse_cond_spelling. Qed.
Print Assumptions C19_parse_print_cond_spelling.

Theorem C19_parse_print_cond_full : forall c : sc, parse_cond (printc_full c) = Some c.
Proof. exact parse_cond_print_full. Qed.
Print Assumptions C19_parse_print_cond_full.

Theorem C19_parse_print_cond_min : forall c : sc, parse_cond (printc_min c) = Some c.
Proof. exact parse_cond_print_min. Qed.
Print Assumptions C19_parse_print_cond_min.

(* decimal versus fraction:
   the literal d1..dj.e1..ek has the value of the quotient of the integer literals d1..dj e1..ek and
   10^k, which is its positional value — what Rational("d1..dj.e1..ek") returns *)
Theorem C19_decimal_fraction_same :
  forall (ip fp : list nat) (s : state),
    let m := digits_val (ip ++ fp) in
    sx_eval (XNum m (length fp)) s = sx_eval (XDiv (XNum m 0) (XNum (Npos (pow10 (length fp))) 0)) s
    /\ sx_eval (XNum m (length fp)) s = Some (dec_value ip fp).
Proof. exact decimal_fraction_same. Qed.
Print Assumptions C19_decimal_fraction_same.

(* the polynomial fragment of the surface syntax means what Syntax.expr / Sem.eval say *)
Theorem C19_to_expr_sound :
  forall (e : sx) (p : expr), to_expr e = Some p -> forall s, sx_eval e s = Some (eval p s).
Proof. exact to_expr_sound. Qed.
Print Assumptions C19_to_expr_sound.

(* sugar under the reference semantics, for all programs, states, test functions *)
Theorem C19_elif_is_nested_else_if :
  forall law (bs : branches) (els : block) (s : state) (f : state -> Qc),
    E (exec_stmt law (SIf bs els) s) f = E (exec_block law (nest bs els) s) f.
Proof. exact elif_is_nested_else_if. Qed.
Print Assumptions C19_elif_is_nested_else_if.

Theorem C19_elif_one_step :
  forall law c b bs els (s : state) (f : state -> Qc),
    E (exec_stmt law (SIf (BrCons c b bs) els) s) f =
    E (exec_stmt law (SIf (BrCons c b BrNil) (BCons (SIf bs els) BNil)) s) f.
Proof. exact elif_one_step. Qed.
Print Assumptions C19_elif_one_step.

Theorem C19_simult_is_temporaries :
  forall law (l : list (var * rhs)) (ts : list var) (s : state) (f : state -> Qc),
    length ts = length l -> NoDup ts ->
    (forall x, In x (map fst l) -> ~ In x ts) ->
    (forall r x, In r (map snd l) -> In x (rvars r) -> ~ In x ts) ->
    (forall a b, agree_off ts a b -> f a = f b) ->
    E (exec_stmt law (SSimult l) s) f = E (exec_block law (temps_block l ts) s) f.
Proof. exact simult_is_temporaries. Qed.
Print Assumptions C19_simult_is_temporaries.

Theorem C19_implicit_last_probability :
  forall law (alts : list (expr * expr)) (q e : expr) (s : state) (f : Qc -> Qc),
    eval q s = 1 - qsum (map (fun pe => eval (fst pe) s) alts) ->
    E (sample law (RChoice (alts ++ [(q, e)])) s) f = E (sample law (fill_last alts e) s) f.
Proof. exact implicit_last_probability. Qed.
Print Assumptions C19_implicit_last_probability.

Theorem C19_implicit_last_total_mass :
  forall law alts e s, mass (sample law (fill_last alts e) s) = 1.
Proof. exact implicit_last_total_mass. Qed.
Print Assumptions C19_implicit_last_total_mass.

(* _assign_categorical (since /repo commit 1ab34b4) parses every listed probability text on its own
   and takes 1 - sum: right for EVERY spelling of the probabilities *)
Theorem C19_implicit_last_parsed_separately :
  forall (ps : list sx) (ts : list (list tok)), Forall2 (pr 0) ps ts ->
    implicit_fixed ts = Some (XSub (XNum 1 0) (sum_sx ps)) /\
    forall s vs, Forall2 (fun p v => sx_eval p s = Some v) ps vs ->
      sx_eval (XSub (XNum 1 0) (sum_sx ps)) s = Some (1 - fold_right Qcplus 0 vs).
Proof. exact implicit_last_parsed_separately. Qed.
Print Assumptions C19_implicit_last_parsed_separately.

(* the construction before that commit (regression witness): the TEXT "1-" + "-".join(probabilities)
   denotes 1 - p1 - ... - pk when every listed probability is spelled as a term (no top-level + or -) ... *)
Theorem C19_implicit_last_tokens :
  forall (ps : list sx) (ts : list (list tok)), Forall2 (pr 1) ps ts ->
    parse_expr (implicit_tokens ts) = Some (implicit_sx ps).
Proof. exact implicit_last_tokens. Qed.
Print Assumptions C19_implicit_last_tokens.

Theorem C19_implicit_last_value :
  forall ps s vs, Forall2 (fun p v => sx_eval p s = Some v) ps vs ->
    sx_eval (implicit_sx ps) s = Some (1 - fold_right Qcplus 0 vs).
Proof. exact implicit_last_value. Qed.
Print Assumptions C19_implicit_last_value.

(* ... and it does not otherwise: for the spelling 1/4+1/4 of the probability 1/2 the parser's
   text 1-1/4+1/4 parses (Python precedence) to something of value 1, not 1 - 1/2 *)
Theorem C19_implicit_last_unparenthesised_refuted :
  exists p tp e', pr 0 p tp /\ parse_expr (implicit_tokens [tp]) = Some e' /\
    sx_eval p st0 = Some (mkq 1 2) /\ sx_eval e' st0 = Some (mkq 1 1) /\ mkq 1 1 <> 1 - mkq 1 2.
Proof. exact implicit_last_unparenthesised_refuted. Qed.
Print Assumptions C19_implicit_last_unparenthesised_refuted.

Theorem C19_choice_is_probability_iff_valid :
  forall law (ps : list Qc) (es : list expr) (e : expr) (s : state), length es = length ps ->
    (is_prob_law (sample law (fill_last (const_alts ps es) e) s) <-> valid_probs ps).
Proof. exact choice_is_probability_iff_valid. Qed.
Print Assumptions C19_choice_is_probability_iff_valid.

Theorem C19_choice_all_listed_iff :
  forall law (ps : list Qc) (es : list expr) (s : state), length es = length ps ->
    (is_prob_law (sample law (RChoice (const_alts ps es)) s) <-> Forall (fun p => 0 <= p) ps /\ qsum ps = 1).
Proof. exact choice_all_listed_iff. Qed.
Print Assumptions C19_choice_all_listed_iff.

(* PolyAssignment.__init__ since /repo commit 626892e (all probabilities numbers => each in [0,1] and
   sum 1, else RuntimeError): the constructor accepts a constant vector iff the choice is a probability law *)
Theorem C19_repaired_constructor_accepts_iff_valid :
  forall law x (ps : list Qc) (es : list expr) (s : state), length es = length ps ->
    (poly_assignment_init x es (map EConst ps) <> None <->
     is_prob_law (sample law (RChoice (const_alts ps es)) s)).
Proof. exact repaired_constructor_accepts_iff_valid. Qed.
Print Assumptions C19_repaired_constructor_accepts_iff_valid.

(* with the last probability omitted (the parser fills in 1 - sum): accepted iff listed >= 0 and sum <= 1 *)
Theorem C19_repaired_constructor_implicit_last :
  forall x (ps : list Qc) (es : list expr),
    (poly_assignment_init x es (map EConst (ps ++ [1 - qsum ps])) <> None <-> valid_probs ps).
Proof. exact repaired_constructor_implicit_last. Qed.
Print Assumptions C19_repaired_constructor_implicit_last.

(* the OLD rule (no validation, before 626892e) accepted every vector: "invalid probability vectors are
   rejected" is false of it (witness x = 1 {3/2} 2); kept as the regression witness *)
Theorem C19_invalid_probs_accepted_old_rule_refuted :
  ~ (forall x ps es e st, length es = length ps ->
       poly_assignment_init_old x (es ++ [e]) (map EConst ps ++ [one_minus (map EConst ps)]) = Some st ->
       valid_probs ps).
Proof. exact invalid_probs_accepted_old_rule_refuted. Qed.
Print Assumptions C19_invalid_probs_accepted_old_rule_refuted.

(* non-vacuity / precedence samples (tests, by vm_compute) *)
Open Scope string_scope.
(* -x**2 is -(x**2); 2**3**2 is 2**(3**2); a-b-c is (a-b)-c; a/b*c is (a/b)*c; 2**-1 *)
Example C19_prec_neg_pow :
  parse_expr [TMinus; TId "x"; TPow; TNum 2 0] = Some (XNeg (XPow (XVar "x") (XNum 2 0))).
Proof. vm_compute. reflexivity. Qed.
Example C19_prec_pow_right :
  parse_expr [TNum 2 0; TPow; TNum 3 0; TPow; TNum 2 0] = Some (XPow (XNum 2 0) (XPow (XNum 3 0) (XNum 2 0))).
Proof. vm_compute. reflexivity. Qed.
Example C19_prec_sub_left :
  parse_expr [TId "a"; TMinus; TId "b"; TMinus; TId "c"] = Some (XSub (XSub (XVar "a") (XVar "b")) (XVar "c")).
Proof. vm_compute. reflexivity. Qed.
Example C19_prec_div_mul :
  parse_expr [TId "a"; TSlash; TId "b"; TStar; TId "c"; TPlus; TNum 1 0]
  = Some (XAdd (XMul (XDiv (XVar "a") (XVar "b")) (XVar "c")) (XNum 1 0)).
Proof. vm_compute. reflexivity. Qed.
Example C19_prec_pow_neg :
  parse_expr [TNum 2 0; TPow; TMinus; TNum 1 0] = Some (XPow (XNum 2 0) (XNeg (XNum 1 0))).
Proof. vm_compute. reflexivity. Qed.
Example C19_min_printer_sample :
  print_min (XMul (XAdd (XVar "a") (XVar "b")) (XPow (XNeg (XVar "c")) (XNum 2 0)))
  = [TLp; TId "a"; TPlus; TId "b"; TRp; TStar; TLp; TMinus; TId "c"; TRp; TPow; TNum 2 0].
Proof. vm_compute. reflexivity. Qed.
Example C19_rejects_unbalanced : parse_expr [TLp; TId "a"; TPlus; TId "b"] = None.
Proof. vm_compute. reflexivity. Qed.
Example C19_rejects_two_operators : parse_expr [TId "a"; TPlus; TStar; TId "b"] = None.
Proof. vm_compute. reflexivity. Qed.
Example C19_cond_paren_arith :
  parse_cond [TLp; TId "x"; TPlus; TNum 1 0; TRp; TStar; TNum 2 0; TCop Ogt; TNum 0 0]
  = Some (KAtom (XMul (XAdd (XVar "x") (XNum 1 0)) (XNum 2 0)) Ogt (XNum 0 0)).
Proof. vm_compute. reflexivity. Qed.
Example C19_cond_paren_cond :
  parse_cond [TLp; TId "x"; TCop Ogt; TNum 0 0; TAnd; TId "y"; TCop Ogt; TNum 0 0; TRp; TOr; TTrue]
  = Some (KOr (KAnd (KAtom (XVar "x") Ogt (XNum 0 0)) (KAtom (XVar "y") Ogt (XNum 0 0))) KTrue).
Proof. vm_compute. reflexivity. Qed.
Example C19_cond_not_needs_parens : parse_cond [TNot; TId "x"; TCop Ogt; TNum 0 0] = None.
Proof. vm_compute. reflexivity. Qed.
(* 0.25 = 25/100: digits [0] . [2;5] *)
Example C19_decimal_sample : dec_value [0%nat] [2%nat; 5%nat] = mkq 1 4.
Proof. apply Qc_is_canon. vm_compute. reflexivity. Qed.
