(* C04 — solved closed forms reproduce the linear recurrence sequence for all n.
   Property theorems, each closed by [exact] and followed by Print Assumptions; two non-vacuity
   examples at the end, evaluated. *)
From Coq Require Import List QArith Qcanon.
From Polar Require Import Qcx CRing ExpPoly ClosedForm ClosedFormSeq.
Import ListNotations.

(* V: acceptance by the executable validator implies equality with A^n v at EVERY n,
   over every commutative ring (instantiated at Q and at towers Q(sqrt g1)...(sqrt gk)). *)
Theorem C04_check_solution_sound :
  forall (R : cring) (A : list (list R)) (v : list R) (F : list (epoly R)) (sp : list (list R)),
    check_solution A v F sp = true -> forall n : nat, pw_eval F sp n = iter_mat A n v.
Proof. exact check_solution_sound. Qed.
Print Assumptions C04_check_solution_sound.

(* two accepted closed forms for one system denote the same sequence (both solvers; C17) *)
Theorem C04_accepted_agree :
  forall (R : cring) A v (F : list (epoly R)) sp F' sp',
    check_solution A v F sp = true -> check_solution A v F' sp' = true ->
    forall n : nat, pw_eval F sp n = pw_eval F' sp' n.
Proof. exact accepted_agree. Qed.
Print Assumptions C04_accepted_agree.

(* the same statement against the recurrence itself rather than against [iter_mat]:
   an accepted closed form starts at the initial vector, obeys x(n+1) = A x(n) at every n,
   and equals EVERY sequence that does (uniqueness) *)
Theorem C04_accepted_starts_at_init :
  forall (R : cring) A v (F : list (epoly R)) sp,
    check_solution A v F sp = true -> pw_eval F sp 0 = v.
Proof. exact accepted_starts_at_init. Qed.
Print Assumptions C04_accepted_starts_at_init.

Theorem C04_accepted_satisfies_recurrence :
  forall (R : cring) A v (F : list (epoly R)) sp,
    check_solution A v F sp = true ->
    forall n : nat, pw_eval F sp (S n) = mvec A (pw_eval F sp n).
Proof. exact accepted_satisfies_recurrence. Qed.
Print Assumptions C04_accepted_satisfies_recurrence.

Theorem C04_accepted_is_the_recurrence_sequence :
  forall (R : cring) A v (F : list (epoly R)) sp,
    check_solution A v F sp = true ->
    forall x : nat -> list R,
      x 0%nat = v -> (forall n, x (S n) = mvec A (x n)) -> forall n : nat, pw_eval F sp n = x n.
Proof. exact accepted_is_the_recurrence_sequence. Qed.
Print Assumptions C04_accepted_is_the_recurrence_sequence.

(* from the cut-off on, the general expressions alone (no Piecewise) give the sequence *)
Theorem C04_general_part_from_cutoff :
  forall (R : cring) A v (F : list (epoly R)) sp,
    check_solution A v F sp = true ->
    forall n : nat, (length sp <= n)%nat -> evalF F n = iter_mat A n v.
Proof. exact general_part_from_cutoff. Qed.
Print Assumptions C04_general_part_from_cutoff.

(* the zero test behind it: a normalised-to-zero exponential polynomial vanishes everywhere *)
Theorem C04_ezero_sound :
  forall (R : cring) (f : epoly R), ezero f = true -> forall n : nat, eeval f n = r0.
Proof. exact ezero_sound. Qed.
Print Assumptions C04_ezero_sound.

(* non-vacuity: x(n+1) = x(n)/2 + 1, x(0) = 6 has closed form 6; 2 + 4/2^n *)
Example C04_nonvacuous_rational :
  check_solution (R := Qc_cring)
    [[mkq 1 2; mkq 1 1]; [mkq 0 1; mkq 1 1]] [mkq 6 1; mkq 1 1]
    [[(mkq 1 1, [mkq 2 1]); (mkq 1 2, [mkq 4 1])]; [(mkq 1 1, [mkq 1 1])]]
    [[mkq 6 1; mkq 1 1]] = true.
Proof. vm_compute. reflexivity. Qed.

(* non-vacuity over Q(sqrt 5): Fibonacci, x(n) = (phi^n - psi^n)/sqrt5 with one special case *)
Definition Q5 := quad_cring Qc_cring (mkq 5 1).
Example C04_nonvacuous_fibonacci :
  check_solution (R := Q5)
    [[(mkq 1 1, mkq 0 1); (mkq 1 1, mkq 0 1)]; [(mkq 1 1, mkq 0 1); (mkq 0 1, mkq 0 1)]]
    [(mkq 1 1, mkq 0 1); (mkq 0 1, mkq 0 1)]
    [ [((mkq 1 2, mkq 1 2), [(mkq 1 2, mkq 1 10)]); ((mkq 1 2, mkq (-1) 2), [(mkq 1 2, mkq (-1) 10)])];
      [((mkq 1 2, mkq 1 2), [(mkq 0 1, mkq 1 5)]); ((mkq 1 2, mkq (-1) 2), [(mkq 0 1, mkq (-1) 5)])] ]
    [[(mkq 1 1, mkq 0 1); (mkq 0 1, mkq 0 1)]] = true.
Proof. vm_compute. reflexivity. Qed.
