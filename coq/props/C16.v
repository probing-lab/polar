(* C16 — exponent-lattice bases consist of, and generate, all multiplicative relations.
   Property theorems, each closed by [exact] and followed by Print Assumptions; then non-vacuity
   and refutation examples by vm_compute.
   Vectors are rows (lists over Z); a matrix is the list of its rows; [zlincomb k c B] is the
   integer combination sum_j c_j * B_j of the rows of B. *)
From Coq Require Import List ZArith Znumtheory QArith Qcanon.
From Polar Require Import Qcx CRing ExpPoly Lattice LatticeRel LatticeRat LatticeModel.
Import ListNotations.

(* V (any commutative ring: Qc, Q(sqrt g1)..(sqrt gk)): exact evaluation of prod b_i^{e_i};
   negative exponents use the SUPPLIED inverses, which are checked (b * b' = 1). *)
Theorem C16_check_relations_sound :
  forall (R : cring) (bs : list (R * R)) (B : list (list Z)),
    check_relations bs B = true ->
    inverses_ok bs /\ forall e, In e B -> length e = length bs /\ is_relation bs e.
Proof. exact check_relations_sound. Qed.
Print Assumptions C16_check_relations_sound.

(* the relation set is a lattice: every integer combination of relations is a relation *)
Theorem C16_relations_closed :
  forall (R : cring) (bs : list (R * R)) (B : list (list Z)),
    inverses_ok bs -> (forall e, In e B -> is_relation bs e) ->
    forall (k : nat) (c : list Z), is_relation bs (lincomb (R := Z_cring) k c B).
Proof. exact relations_closed. Qed.
Print Assumptions C16_relations_closed.

(* V: certificate  B * Rb = d * I, d <> 0  =>  the rows of B are linearly independent *)
Theorem C16_check_independent_sound :
  forall (B Rb : list (list Z)) (d : Z),
    check_independent_Z B Rb d = true ->
    forall c : list Z, length c = length B ->
      forall k, zlincomb k c B = zeros (R := Z_cring) k -> Forall (fun x => x = 0%Z) c.
Proof. exact check_independent_Z_sound. Qed.
Print Assumptions C16_check_independent_sound.

(* V, the heart: unimodular-completion certificate  Wa*V1 + Wc*B = I,  B*Vals = 0,
   (V1*Vals)*Rt = d*I, d <> 0   =>   for ALL e in Z^k:  e*Vals = 0  ->  e in Z-span(rows of B) *)
Theorem C16_check_generates_sound :
  forall (k : nat) (Vals B V1 Wa Wc Rt : list (list Z)) (d : Z),
    check_generates_Z k Vals B V1 Wa Wc Rt d = true ->
    forall (e : list Z) (m : nat), length e = k ->
      zlincomb m e Vals = zeros (R := Z_cring) m ->
      exists c : list Z, length c = length B /\ e = zlincomb k c B.
Proof. exact check_generates_Z_sound. Qed.
Print Assumptions C16_check_generates_sound.

(* unique factorisation (Coq stdlib Znumtheory.prime): for rationals b_i = (+-1) * prod_j p_j^{v_ij}
   over distinct primes,  prod b_i^{e_i} = 1  <->  sum_i e_i v_i = 0  /\  sum_{b_i < 0} e_i even *)
Theorem C16_rational_relation_iff :
  forall (ps : list Z) (facts : list (bool * list Z)),
    Forall prime ps -> NoDup ps -> facts_wf ps facts ->
    forall e : list Z,
      qrelation (map (qfact ps) facts) e <->
      (lincomb (R := Z_cring) (length ps) e (valrows facts) = zeros (R := Z_cring) (length ps)
       /\ Z.Even (vdot (R := Z_cring) e (signs facts))).
Proof. exact rational_relation_iff. Qed.
Print Assumptions C16_rational_relation_iff.

(* rational bases: the factorisation is re-multiplied (check_factorisation: primality by trial
   division, distinctness, b_i = (+-1) prod p^v), and the generation certificate is for the
   system with the parity unknown, as compute_basis_rational sets it up.  Conclusion: EVERY
   multiplicative relation is an integer combination of the rows. *)
Theorem C16_rational_basis_complete :
  forall ps facts bs B' V1 Wa Wc Rt d,
    check_rational_generates ps facts bs B' V1 Wa Wc Rt d = true ->
    forall e : list Z, length e = length bs -> qrelation bs e ->
      exists c : list Z, length c = length B' /\ e = zlincomb (length bs) c (map (@tl Z) B').
Proof. exact rational_basis_complete. Qed.
Print Assumptions C16_rational_basis_complete.

(* the property for one rational base list, all three parts: rows are relations, independent, and
   an integer vector is a relation IF AND ONLY IF it is an integer combination of the rows *)
Theorem C16_rational_basis_correct :
  forall ps facts bs B' Rb d2 V1 Wa Wc Rt d,
    check_relations (R := Qc_cring) (map qbase bs) (map (@tl Z) B') = true ->
    check_independent_Z (map (@tl Z) B') Rb d2 = true ->
    check_rational_generates ps facts bs B' V1 Wa Wc Rt d = true ->
    (forall row, In row (map (@tl Z) B') -> length row = length bs /\ qrelation bs row) /\
    (forall c : list Z, length c = length B' ->
       forall k, zlincomb k c (map (@tl Z) B') = zeros (R := Z_cring) k -> Forall (fun x => x = 0%Z) c) /\
    (forall e : list Z, length e = length bs ->
       (qrelation bs e <-> exists c : list Z, length c = length B' /\ e = zlincomb (length bs) c (map (@tl Z) B'))).
Proof. exact rational_basis_correct. Qed.
Print Assumptions C16_rational_basis_correct.

(* non-rational bases (any ring).  PARTIAL: soundness, independence and "the span consists of
   relations".  MISSING: "every relation is in the span" — needs an a-priori bound on a basis of
   the relation lattice (Masser), which is what compute_basis_kauers relies on and is not
   formalised; the check only enumerates |e_i| <= bound there. *)
Theorem C16_general_basis_partial :
  forall (R : cring) (bs : list (R * R)) (B Rb : list (list Z)) (d : Z),
    check_relations bs B = true ->
    check_independent_Z B Rb d = true ->
    inverses_ok bs /\
    (forall row, In row B -> length row = length bs /\ is_relation bs row) /\
    (forall c : list Z, length c = length B ->
       forall k, zlincomb k c B = zeros (R := Z_cring) k -> Forall (fun x => x = 0%Z) c) /\
    (forall k c, is_relation bs (zlincomb k c B)).
Proof. exact general_basis_partial. Qed.
Print Assumptions C16_general_basis_partial.

(* OLD RULE (before /repo a4c7460): the model of "Q-nullspace, then astype(int)" returns
   [[-1; 1]] for [4; 8] and [[0; 1]] for [4; 1/2]; neither is a relation.  Statement about the old
   rule only; the current code follows [model_compute_basis] below. *)
Theorem C16_truncation_old_rule_refuted :
  (exists bs ps facts row,
      bs = [q_of 4 1; q_of 8 1] /\ check_factorisation ps facts bs = true /\
      old_model_compute_basis bs (length ps) facts = [row] /\ row = [(-1)%Z; 1%Z] /\ ~ qrelation bs row)
  /\
  (exists bs ps facts row,
      bs = [q_of 4 1; q_of 1 2] /\ check_factorisation ps facts bs = true /\
      old_model_compute_basis bs (length ps) facts = [row] /\ row = [0%Z; 1%Z] /\ ~ qrelation bs row).
Proof. exact truncation_old_rule_refuted. Qed.
Print Assumptions C16_truncation_old_rule_refuted.

(* OLD RULE (before /repo 47f10be): the shortcut declares the lattice of [3; 1] trivial although
   (0, 1) is a relation: the numerator 1 was filtered away before the |numerator| > 1 test *)
Theorem C16_trivially_empty_old_rule_refuted :
  exists bs ps facts e,
    bs = [q_of 3 1; q_of 1 1] /\ check_factorisation ps facts bs = true /\
    old_model_compute_basis bs (length ps) facts = [] /\
    length e = length bs /\ qrelation bs e /\ e <> zeros (R := Z_cring) (length bs).
Proof. exact trivially_empty_old_rule_refuted. Qed.
Print Assumptions C16_trivially_empty_old_rule_refuted.

(* Non-vacuity (tests by computation, not theorems about Polar): the validators accept true
   bases with their certificates and reject wrong ones. *)
(* [4; 8]: the true basis [[-3; 2]] with its certificate is accepted by all three validators *)
Example C16_nonvacuous_4_8 :
  let bs := [mkq 4 1; mkq 8 1] in
  let B' := [[0; -3; 2]]%Z in
  check_relations (R := Qc_cring) (map qbase bs) (map (@tl Z) B') = true /\
  check_independent_Z (map (@tl Z) B') [[-3]; [2]]%Z 13 = true /\
  check_rational_generates [2%Z] [(false, [2%Z]); (false, [3%Z])] bs B'
    [[1; 0; 0]; [0; -2; 1]]%Z [[1; 0]; [0; -2]; [0; -3]]%Z [[0]; [1]; [2]]%Z [[1; 0]; [0; -2]]%Z 2 = true.
Proof. vm_compute. repeat split. Qed.
(* ... while the row Polar returned before /repo a4c7460 is rejected by the relation validator *)
Example C16_rejects_truncated_4_8 :
  check_relations (R := Qc_cring) (map qbase [mkq 4 1; mkq 8 1]) [[-1; 1]]%Z = false.
Proof. vm_compute. reflexivity. Qed.
(* [-4; 8]: parity matters: (-3, 2) has product -1; the basis is [[-6; 4]] *)
Example C16_nonvacuous_parity :
  let bs := [mkq (-4) 1; mkq 8 1] in
  check_relations (R := Qc_cring) (map qbase bs) [[-3; 2]]%Z = false /\
  check_relations (R := Qc_cring) (map qbase bs) [[-6; 4]]%Z = true /\
  check_rational_generates [2%Z] [(true, [2%Z]); (false, [3%Z])] bs [[3; -6; 4]]%Z
    [[0; 1; 0]; [1; -2; 1]]%Z [[2; 4]; [1; 0]; [0; -3]]%Z [[-1]; [0]; [1]]%Z [[1; 2]; [0; -1]]%Z 1 = true.
Proof. vm_compute. repeat split. Qed.
(* a certificate for a sublattice of index 2 does not exist: [[-6; 4]] for [4; 8] is rejected
   with the completion that works for [[-3; 2]] *)
Example C16_rejects_index_2 :
  check_rational_generates [2%Z] [(false, [2%Z]); (false, [3%Z])] [mkq 4 1; mkq 8 1] [[0; -6; 4]]%Z
    [[1; 0; 0]; [0; -2; 1]]%Z [[1; 0]; [0; -2]; [0; -3]]%Z [[0]; [1]; [2]]%Z [[1; 0]; [0; -2]]%Z 2 = false.
Proof. vm_compute. reflexivity. Qed.
(* golden ratio over Q(sqrt 5): phi * psi = -1, so (2, 2) is a relation and (1, 1) is not *)
Example C16_nonvacuous_golden :
  let R := quad_cring Qc_cring (mkq 5 1) in
  let bs : list (R * R) := [((mkq 1 2, mkq 1 2), (mkq (-1) 2, mkq 1 2)); ((mkq 1 2, mkq (-1) 2), (mkq (-1) 2, mkq (-1) 2))] in
  check_relations bs [[2; 2]]%Z = true /\ check_relations bs [[1; 1]]%Z = false.
Proof. vm_compute. split; reflexivity. Qed.

(* the model of the REPAIRED code (integer kernel, base-1 test) on the former counterexamples: its
   output passes the relation validator (per-instance evaluation; that it does so for ALL inputs is
   not proved — every run validates the real outputs instead) *)
Example C16_repaired_model_on_old_counterexamples :
  let b48 := [mkq 4 1; mkq 8 1] in
  let b4h := [mkq 4 1; mkq 1 2] in
  let b31 := [mkq 3 1; mkq 1 1] in
  check_relations (R := Qc_cring) (map qbase b48) (model_compute_basis b48 1 [(false, [2%Z]); (false, [3%Z])]) = true /\
  length (model_compute_basis b48 1 [(false, [2%Z]); (false, [3%Z])]) = 1%nat /\
  check_relations (R := Qc_cring) (map qbase b4h) (model_compute_basis b4h 1 [(false, [2%Z]); (false, [(-1)%Z])]) = true /\
  length (model_compute_basis b4h 1 [(false, [2%Z]); (false, [(-1)%Z])]) = 1%nat /\
  model_compute_basis b31 1 [(false, [1%Z]); (false, [0%Z])] = [[0; 1]]%Z.
Proof. vm_compute. repeat split. Qed.
