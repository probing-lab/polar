(* C02 — pass DistTransformer (program/transformer/dist_transformer.py): location-scale
   rewriting of Normal / Uniform / Laplace draws whose parameters mention variables into a
   fixed draw plus arithmetic.  Model: PassDist.dt_prog on statement trees, fresh variables
   from a supply of names (Polar: `_u<k>` from the global counter).
   Outside the model (dt_prog = None): Normal whose variance is not a constant with a rational
   square root, Exponential with a non-constant rate, continuous draws inside a simultaneous
   assignment.  Tie: harness/pass_dist.py. *)
From Coq Require Import List String QArith Qcanon ZArith Bool.
From Polar Require Import Qcx Dist Syntax Sem Types PassGuard PassCNBase PassDist PassCNMatch.
Import ListNotations.
Open Scope string_scope.
Local Open Scope Qc_scope.

(* Law-level theorem, parametric in the law of the continuous families: for EVERY family of
   finitely supported laws satisfying the three location-scale equations, every program,
   every supply of names that do not occur in the program, every n, every start state and
   every f that does not read the fresh names, the expectation of f at iteration n is
   unchanged by the pass.  (Parameter order of DCont = dump order: Normal [mu; sigma2],
   Uniform [a; b], Laplace [b; mu].) *)
Theorem C02_dist_pass_preserves :
  forall (law : string -> list Qc -> dist Qc),
    (forall m r : Qc, deq (law "Normal" [m; r * r]) (dmap (fun z => m + r * z) (law "Normal" [0; 1]))) ->
    (forall a b : Qc, deq (law "Uniform" [a; b]) (dmap (fun z => a + (b - a) * z) (law "Uniform" [0; 1]))) ->
    (forall b m : Qc, deq (law "Laplace" [b; m]) (dmap (fun z => m + z) (law "Laplace" [b; 0]))) ->
    forall (names : list var) (p p' : prog) (rest : list var),
      dt_prog names p = Some (p', rest) -> fresh_ok names p = true ->
      forall (n : nat) (s0 : state) (f : state -> Qc), ignores_names names f ->
        E (run law p' n s0) f = E (run law p n s0) f.
Proof.
  intros law Hnormal Huniform Hlaplace names p p' rest H Hf n s0 f Hig. symmetry.
  apply (dist_pass_drel law Hnormal Huniform Hlaplace names p p' rest H Hf n s0 f f).
  intros s s' HR. apply Hig, HR.
Qed.
Print Assumptions C02_dist_pass_preserves.

(* the hypotheses on the law are consistent (non-vacuity of the theorem) *)
Theorem C02_dist_law_hypotheses_consistent :
  exists law : string -> list Qc -> dist Qc,
    (forall m r : Qc, deq (law "Normal" [m; r * r]) (dmap (fun z => m + r * z) (law "Normal" [0; 1]))) /\
    (forall a b : Qc, deq (law "Uniform" [a; b]) (dmap (fun z => a + (b - a) * z) (law "Uniform" [0; 1]))) /\
    (forall b m : Qc, deq (law "Laplace" [b; m]) (dmap (fun z => m + z) (law "Laplace" [b; 0]))) /\
    law "Uniform" [0; 1] <> [] /\ law "Laplace" [1; 0] <> [].
Proof.
  exists demo_law. split; [exact demo_law_normal|]. split; [exact demo_law_uniform|]. split; [exact demo_law_laplace|].
  split; cbn; discriminate.
Qed.
Print Assumptions C02_dist_law_hypotheses_consistent.

(* non-vacuity: the model is defined on a program with all three rewritten families *)
Definition qc (z : Z) : expr := EConst (mkq z 1).
(* x = 0; y = 1; while true: x = Uniform(y, y + 2); if x > 1: y = Normal(x, 4) else: y = Laplace(x, 1) end *)
Definition demo : prog :=
  {| p_init := BCons (SAssign "x" (RDet (qc 0))) (BCons (SAssign "y" (RDet (qc 1))) BNil);
     p_guard := CTrue;
     p_body := BCons (SAssign "x" (RDraw (DCont "Uniform" [EVar "y"; EAdd (EVar "y") (qc 2)])))
              (BCons (SIf (BrCons (CAtom (EVar "x") Cgt (qc 1))
                                  (BCons (SAssign "y" (RDraw (DCont "Normal" [EVar "x"; qc 4]))) BNil) BrNil)
                          (BCons (SAssign "y" (RDraw (DCont "Laplace" [qc 1; EVar "x"]))) BNil)) BNil) |}.

Example demo_fresh : fresh_ok ["_u0"; "_u1"; "_u2"] demo = true.
Proof. vm_compute. reflexivity. Qed.
Example demo_pass :
  option_map (fun pr => (p_body (fst pr), snd pr)) (dt_prog ["_u0"; "_u1"; "_u2"] demo) =
  Some (BCons (SAssign "_u0" (RDraw (DCont "Uniform" [qc 0; qc 1])))
       (BCons (SAssign "x" (RDet (EAdd (EVar "y") (EMul (ESub (EAdd (EVar "y") (qc 2)) (EVar "y")) (EVar "_u0")))))
       (BCons (SIf (BrCons (CAtom (EVar "x") Cgt (qc 1))
                     (BCons (SAssign "_u1" (RDraw (DCont "Normal" [qc 0; qc 1])))
                     (BCons (SAssign "y" (RDet (EAdd (EVar "x") (EMul (EConst (mkq 2 1)) (EVar "_u1"))))) BNil)) BrNil)
                   (BCons (SAssign "_u2" (RDraw (DCont "Laplace" [qc 1; qc 0])))
                   (BCons (SAssign "y" (RDet (EAdd (EVar "x") (EVar "_u2")))) BNil))) BNil)), []).
Proof. vm_compute. reflexivity. Qed.
(* both sides of the theorem under the consistent demo law (a test, not the theorem) *)
Example demo_values :
  match dt_prog ["_u0"; "_u1"; "_u2"] demo with
  | Some (p', _) =>
      map (fun n => let q := E (run demo_law p' n st0) (fun s => s "x" * s "y") in (qnum q, Zpos (qden q))) [0; 1; 2]%nat
  | None => []
  end = map (fun n => let q := E (run demo_law demo n st0) (fun s => s "x" * s "y") in (qnum q, Zpos (qden q))) [0; 1; 2]%nat.
Proof. vm_compute. reflexivity. Qed.
Example demo_values_nontrivial :
  (let q := E (run demo_law demo 2 st0) (fun s => s "x" * s "y") in (qnum q, Zpos (qden q))) <> (0%Z, 1%Z).
Proof. vm_compute. intros H. discriminate H. Qed.
(* outside the model *)
Example out_variable_variance :
  dt_stmt ["_u0"] (SAssign "y" (RDraw (DCont "Normal" [qc 0; EVar "x"]))) = None.
Proof. vm_compute. reflexivity. Qed.
Example out_irrational_sqrt :
  dt_stmt ["_u0"] (SAssign "y" (RDraw (DCont "Normal" [EVar "x"; qc 2]))) = None.
Proof. vm_compute. reflexivity. Qed.
Example keep_constant_parameters :
  dt_stmt ["_u0"] (SAssign "y" (RDraw (DCont "Normal" [qc 3; qc 2])))
  = Some (BCons (SAssign "y" (RDraw (DCont "Normal" [qc 3; qc 2]))) BNil, ["_u0"]).
Proof. vm_compute. reflexivity. Qed.
