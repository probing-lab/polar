(* Probabilists' Hermite polynomials, the Gaussian moment functional and
   the Gram-Charlier shape, algebraically over Qc.
   Polynomials are coefficient lists (computable: compared with Polar's prob_hermite_poly by
   the harness); proofs go through their coefficient sequences and the power-series lemmas
   of StatsFps.v (Cauchy product = polynomial product, derivative, Leibniz rule).
   The Gaussian functional is DEFINED by the moments E z^k = (k-1)!! (k even), 0 (k odd),
   i.e. by m_0 = 1, m_1 = 0, m_{k+2} = (k+1) m_k  (the Normal moment recurrence of C08). *)
From Coq Require Import List ZArith QArith Qcanon Lia Arith Bool Field.
From Polar Require Import Qcx Stats StatsFps.
Import ListNotations.
Local Open Scope Qc_scope.

Definition poly := list Qc.
Definition coef (p : poly) : seqc := fun i => nth i p 0.

Fixpoint padd (p q : poly) : poly :=
  match p, q with
  | [], _ => q
  | _, [] => p
  | a :: p', b :: q' => (a + b) :: padd p' q'
  end.
Definition pscal (c : Qc) (p : poly) : poly := map (Qcmult c) p.
Definition psub (p q : poly) : poly := padd p (pscal (- (1)) q).
Fixpoint pmul (p q : poly) : poly :=
  match p with [] => [] | a :: p' => padd (pscal a q) (0 :: pmul p' q) end.

Fixpoint gmom (k : nat) : Qc :=
  match k with
  | O => 1
  | S O => 0
  | S (S j as k') => nq k' * gmom j
  end.
Fixpoint gauss_from (k : nat) (p : poly) : Qc :=
  match p with [] => 0 | a :: p' => a * gmom k + gauss_from (S k) p' end.
Definition gauss (p : poly) : Qc := gauss_from 0 p.

(* He_0 = 1, He_1 = z, He_{n+1} = z He_n - n He_{n-1} *)
Fixpoint hermite_pair (n : nat) : poly * poly :=
  match n with
  | O => ([1], [])
  | S m => let hp := hermite_pair m in (psub (0 :: fst hp) (pscal (nq m) (snd hp)), fst hp)
  end.
Definition hermite (n : nat) : poly := fst (hermite_pair n).

(* Gram-Charlier polynomial factor 1 + sum_{i=3..K} c_i He_i *)
Definition gc_poly (c : nat -> Qc) (K : nat) : poly :=
  fold_right (fun i acc => padd (pscal (c i) (hermite i)) acc) [1] (pyrange 3 (K + 1)).

Lemma coef_nil i : coef [] i = 0. Proof. destruct i; reflexivity. Qed.
Lemma coef_cons_0 a p : coef (a :: p) O = a. Proof. reflexivity. Qed.
Lemma coef_cons_S a p i : coef (a :: p) (S i) = coef p i. Proof. reflexivity. Qed.
Lemma coef_one i : coef [1] i = sone i. Proof. destruct i as [|[|i]]; reflexivity. Qed.

Lemma coef_padd p : forall q i, coef (padd p q) i = coef p i + coef q i.
Proof.
  induction p as [|a p IH]; intros q i.
  - cbn [padd]. rewrite coef_nil. symmetry. apply Qcplus_0_l.
  - destruct q as [|b q]; cbn [padd].
    + rewrite coef_nil. symmetry. apply Qcplus_0_r.
    + destruct i as [|i]; [reflexivity|]. rewrite !coef_cons_S. apply IH.
Qed.
Lemma coef_pscal c p : forall i, coef (pscal c p) i = c * coef p i.
Proof.
  induction p as [|a p IH]; intros i.
  - change (pscal c []) with (@nil Qc). rewrite coef_nil. symmetry. apply Qcmult_0_r.
  - destruct i as [|i]; [reflexivity|]. cbn [pscal map]. rewrite !coef_cons_S. apply IH.
Qed.
Lemma coef_psub p q i : coef (psub p q) i = coef p i - coef q i.
Proof. unfold psub. rewrite coef_padd, coef_pscal. ring. Qed.

Definition Xs (a : seqc) : seqc := fun i => match i with O => 0 | S j => a j end.
Lemma coef_shift p i : coef (0 :: p) i = Xs (coef p) i.
Proof. destruct i; reflexivity. Qed.

Lemma conv_Xs a b n : conv (Xs a) b n = Xs (conv a b) n.
Proof.
  destruct n as [|n].
  - rewrite conv_0. apply Qcmult_0_l.
  - rewrite conv_head. cbn [Xs]. rewrite Qcmult_0_l, Qcplus_0_l. reflexivity.
Qed.

Lemma coef_pmul p : forall q n, coef (pmul p q) n = conv (coef p) (coef q) n.
Proof.
  induction p as [|a p IH]; intros q n.
  - cbn [pmul]. rewrite coef_nil. symmetry. apply conv_low. intros; apply coef_nil.
  - cbn [pmul]. rewrite coef_padd, coef_pscal, coef_shift.
    destruct n as [|n].
    + rewrite conv_0. cbn [Xs coef nth]. ring.
    + rewrite conv_head. cbn [Xs]. rewrite IH. rewrite coef_cons_0. reflexivity.
Qed.

Definition supp (N : nat) (a : seqc) : Prop := forall i, (N <= i)%nat -> a i = 0.
Definition Gs (N : nat) (a : seqc) : Qc := bigsum (seq 0 N) (fun i => a i * gmom i).

Lemma Gs_ext N a b : (forall i, (i < N)%nat -> a i = b i) -> Gs N a = Gs N b.
Proof. intros H. apply bigsum_ext. intros i Hi. apply in_seq in Hi. rewrite H by lia. reflexivity. Qed.

Lemma Gs_S N a : Gs (S N) a = Gs N a + a N * gmom N.
Proof. apply bigsum_seq_last. Qed.

Lemma Gs_mono N M a : supp N a -> (N <= M)%nat -> Gs M a = Gs N a.
Proof.
  intros HS. induction M as [|M IH]; intros H.
  - replace N with O by lia. reflexivity.
  - destruct (Nat.eq_dec N (S M)) as [->|NE]; [reflexivity|].
    rewrite Gs_S, (HS M), IH by lia. ring.
Qed.

Lemma Gs_add N a b : Gs N (fun i => a i + b i) = Gs N a + Gs N b.
Proof. unfold Gs. rewrite <- bigsum_add. apply bigsum_ext. intros; apply Qcmult_plus_distr_l. Qed.
Lemma Gs_sub N a b : Gs N (fun i => a i - b i) = Gs N a - Gs N b.
Proof. unfold Gs, Qcminus. rewrite <- bigsum_opp, <- bigsum_add. apply bigsum_ext. intros; ring. Qed.
Lemma Gs_scal N c a : Gs N (fun i => c * a i) = c * Gs N a.
Proof. unfold Gs. rewrite <- bigsum_scal. apply bigsum_ext. intros; symmetry; apply Qcmult_assoc. Qed.
Lemma Gs_zero N a : (forall i, a i = 0) -> Gs N a = 0.
Proof. intros H. apply bigsum_eq0. intros i _. rewrite H. apply Qcmult_0_l. Qed.

Lemma gauss_from_sum p : forall k,
  gauss_from k p = bigsum (seq 0 (length p)) (fun i => coef p i * gmom (k + i)).
Proof.
  induction p as [|a p IH]; intros k; [reflexivity|].
  cbn [gauss_from length]. rewrite bigsum_seq_first. rewrite Nat.add_0_r, coef_cons_0. f_equal.
  rewrite IH. apply bigsum_ext. intros i _. rewrite coef_cons_S. f_equal. f_equal. lia.
Qed.

Lemma supp_coef p : supp (length p) (coef p).
Proof. intros i Hi. unfold coef. apply nth_overflow. exact Hi. Qed.

Lemma gauss_Gs p N : (length p <= N)%nat -> gauss p = Gs N (coef p).
Proof.
  intros H. rewrite (Gs_mono (length p) N) by (try apply supp_coef; exact H).
  unfold gauss. rewrite gauss_from_sum. reflexivity.
Qed.

Lemma gauss_peq p q : (forall i, coef p i = coef q i) -> gauss p = gauss q.
Proof.
  intros H. rewrite (gauss_Gs p (max (length p) (length q))) by lia.
  rewrite (gauss_Gs q (max (length p) (length q))) by lia. apply Gs_ext. intros; apply H.
Qed.

(* Stein's identity  G[z a] = G[a']  for the moment functional (exact, any truncation) *)
Lemma stein N a : Gs (S (S N)) (Xs a) = Gs N (sD a).
Proof.
  unfold Gs. rewrite bigsum_seq_first. cbn [Xs]. rewrite Qcmult_0_l, Qcplus_0_l.
  rewrite bigsum_seq_first. cbn [gmom]. rewrite Qcmult_0_r, Qcplus_0_l.
  apply bigsum_ext. intros i _. unfold sD. cbn [gmom]. ring.
Qed.

Lemma supp_weaken N M a : supp N a -> (N <= M)%nat -> supp M a.
Proof. intros H L i Hi. apply H. lia. Qed.
Lemma supp_sD N a : supp N a -> supp N (sD a).
Proof. intros H i Hi. unfold sD. rewrite H by lia. apply Qcmult_0_r. Qed.
Lemma supp_Xs N a : supp N a -> supp (S N) (Xs a).
Proof. intros H [|i] Hi; [lia|]. cbn [Xs]. apply H. lia. Qed.
Lemma supp_conv Na Nb a b : supp Na a -> supp Nb b -> supp (Na + Nb) (conv a b).
Proof.
  intros Ha Hb i Hi. apply bigsum_eq0. intros j Hj. apply in_seq in Hj.
  destruct (le_lt_dec Na j) as [L|L]; [rewrite Ha by exact L; apply Qcmult_0_l|].
  rewrite (Hb (i - j)%nat) by lia. apply Qcmult_0_r.
Qed.

Definition hs (n : nat) : seqc := coef (hermite n).
Definition ps (n : nat) : seqc := coef (snd (hermite_pair n)).   (* He_{n-1}, 0 for n = 0 *)

Lemma ps_S n i : ps (S n) i = hs n i. Proof. reflexivity. Qed.
Lemma ps_0 i : ps 0 i = 0. Proof. unfold ps. cbn. apply coef_nil. Qed.
Lemma hs_0 i : hs 0 i = sone i. Proof. apply coef_one. Qed.

Lemma hs_rec n i : hs (S n) i = Xs (hs n) i - nq n * ps n i.
Proof.
  unfold hs at 1. unfold hermite. cbn [hermite_pair fst]. rewrite coef_psub, coef_shift, coef_pscal. reflexivity.
Qed.

Lemma sD_Xs a i : sD (Xs a) i = a i + Xs (sD a) i.
Proof.
  unfold sD. destruct i as [|i]; cbn [Xs].
  - rewrite nq_1. ring.
  - rewrite (nq_S (S i)). ring.
Qed.

(* Appell property He_n' = n He_{n-1}, proved together with  n He_n = n (z He_{n-1} - He_{n-1}')
   (the three-term recurrence with its second term read as a derivative) *)
Lemma appell_pair n :
  (forall i, sD (hs n) i = nq n * ps n i) /\ (forall i, nq n * hs n i = nq n * (Xs (ps n) i - sD (ps n) i)).
Proof.
  induction n as [|n [A B]].
  - split; intros i; rewrite nq_0, !Qcmult_0_l; [|reflexivity]. unfold sD. rewrite hs_0. cbn [sone]. ring.
  - split; intros i.
    + transitivity (sD (Xs (hs n)) i - nq n * sD (ps n) i); [unfold sD; rewrite hs_rec; ring|].
      rewrite sD_Xs, ps_S, nq_S.
      transitivity (hs n i + nq n * (Xs (ps n) i - sD (ps n) i)); [|rewrite <- B; ring].
      destruct i as [|i]; cbn [Xs]; rewrite ?A; ring.
    + f_equal. rewrite hs_rec, <- A. reflexivity.
Qed.

Lemma appell_gen n i : sD (hs n) i = nq n * ps n i.
Proof. apply appell_pair. Qed.
Lemma appell n i : sD (hs (S n)) i = nq (S n) * hs n i.
Proof. apply appell_gen. Qed.

Lemma supp_hs_ps : forall n, supp (S n) (hs n) /\ supp n (ps n).
Proof.
  induction n as [|n [IH1 IH2]].
  - split; intros i Hi; [rewrite hs_0; destruct i; [lia | reflexivity] | apply ps_0].
  - split.
    + intros i Hi. rewrite hs_rec. rewrite (supp_Xs _ _ IH1) by lia. rewrite IH2 by lia. ring.
    + intros i Hi. rewrite ps_S. apply IH1. exact Hi.
Qed.
Lemma supp_hs n : supp (S n) (hs n). Proof. apply supp_hs_ps. Qed.

Lemma stein_supp N d a : supp d a -> (d + 2 <= N)%nat -> Gs N (Xs a) = Gs N (sD a).
Proof.
  intros Ha HN. destruct N as [|[|M]]; try lia. rewrite stein.
  rewrite (Gs_mono d M), (Gs_mono d (S (S M))) by (try apply supp_sD; assumption || lia). reflexivity.
Qed.

(* G[He_{n+1} q] = G[He_n q']: recurrence, Stein, then Leibniz and Appell *)
Lemma hermite_step n d q N : supp d q -> (n + d + 3 <= N)%nat ->
  Gs N (conv (hs (S n)) q) = Gs N (conv (hs n) (sD q)).
Proof.
  intros Hq HN.
  rewrite (Gs_ext N _ (fun i => Xs (conv (hs n) q) i - nq n * conv (ps n) q i)).
  2:{ intros i _. rewrite <- conv_Xs, <- conv_scal_l, <- conv_sub_l.
      apply conv_ext_l. intros j _. apply hs_rec. }
  rewrite Gs_sub, Gs_scal, (stein_supp N (S n + d)) by (try apply supp_conv; try apply supp_hs; assumption || lia).
  rewrite (Gs_ext N _ (fun i => nq n * conv (ps n) q i + conv (hs n) (sD q) i)).
  2:{ intros i _. rewrite sD_conv, <- conv_scal_l. f_equal.
      apply conv_ext_l. intros j _. apply appell_gen. }
  rewrite Gs_add, Gs_scal. ring.
Qed.

Fixpoint sDn (k : nat) (a : seqc) : seqc := match k with O => a | S k' => sDn k' (sD a) end.

Lemma supp_sDn k : forall d a, supp d a -> supp d (sDn k a).
Proof. induction k as [|k IH]; intros d a H; [exact H|]. cbn [sDn]. apply IH. apply supp_sD. exact H. Qed.

(* G[He_n q] = G[q^(n)] *)
Lemma hermite_reduce n : forall d q N, supp d q -> (n + d + 3 <= N)%nat ->
  Gs N (conv (hs n) q) = Gs N (sDn n q).
Proof.
  induction n as [|n IH]; intros d q N Hq HN.
  - cbn [sDn]. apply Gs_ext. intros i _.
    rewrite (conv_ext_l (hs 0) sone q i (fun j _ => hs_0 j)). apply conv_one_l.
  - rewrite (hermite_step n d q N Hq) by lia. cbn [sDn]. apply (IH d); [apply supp_sD; exact Hq | lia].
Qed.

(* derivatives kill low degree: supp n q -> q^(n) = 0 *)
Lemma sDn_low n : forall q, supp n q -> forall i, sDn n q i = 0.
Proof.
  induction n as [|n IH]; intros q H i.
  - cbn [sDn]. apply H. lia.
  - cbn [sDn]. apply IH. intros j Hj. unfold sD. rewrite H by lia. apply Qcmult_0_r.
Qed.

Lemma sDn_ext k : forall a b, (forall i, a i = b i) -> forall i, sDn k a i = sDn k b i.
Proof.
  induction k as [|k IH]; intros a b H i; [apply H|]. cbn [sDn]. apply IH. intros j. unfold sD. rewrite H. reflexivity.
Qed.
Lemma sDn_scal k : forall c a i, sDn k (fun j => c * a j) i = c * sDn k a i.
Proof.
  induction k as [|k IH]; intros c a i; [reflexivity|]. cbn [sDn].
  rewrite (sDn_ext k (sD (fun j => c * a j)) (fun j => c * sD a j)) by (intros; unfold sD; ring). apply IH.
Qed.

(* He_n^(n) = n! *)
Lemma sDn_hs n : forall i, sDn n (hs n) i = factq n * sone i.
Proof.
  induction n as [|n IH]; intros i.
  - cbn [sDn]. rewrite hs_0, factq_0. ring.
  - cbn [sDn]. rewrite (sDn_ext n (sD (hs (S n))) (fun j => nq (S n) * hs n j)) by (intros; apply appell).
    rewrite sDn_scal, IH, factq_S. ring.
Qed.

(* on lists the functional is Gs at any truncation N beyond the length; the theorems below
   ask for one that is also beyond the bound n0 their sequence lemmas need *)
Lemma gauss_pmul_conv p q n0 :
  exists N, (n0 <= N)%nat /\ gauss (pmul p q) = Gs N (conv (coef p) (coef q)).
Proof.
  exists (max (length (pmul p q)) n0). split; [apply Nat.le_max_r|].
  rewrite (gauss_Gs _ _ (Nat.le_max_l _ n0)). apply Gs_ext. intros; apply coef_pmul.
Qed.

Lemma Gs_sone N : Gs (S N) sone = 1.
Proof.
  unfold Gs. rewrite bigsum_seq_first, bigsum_eq0 by (intros; apply Qcmult_0_l). cbn [sone gmom]. ring.
Qed.

Lemma hermite_orth_seq n q d N : supp d q -> (d <= n)%nat -> (n + d + 3 <= N)%nat ->
  Gs N (conv (hs n) q) = 0.
Proof.
  intros Hq Hd HN. rewrite (hermite_reduce n d q N Hq HN). apply Gs_zero. apply sDn_low.
  apply (supp_weaken d); assumption.
Qed.

(* orthogonality and norms at once:  G[He_i He_j] = i! [i = j] *)
Lemma hermite_gram_seq i j N : (i + j + 4 <= N)%nat ->
  Gs N (conv (hs i) (hs j)) = if Nat.eqb i j then factq i else 0.
Proof.
  intros HN. destruct (Nat.eqb_spec i j) as [<-|NE].
  - rewrite (hermite_reduce i (S i) (hs i) N) by (try apply supp_hs; lia).
    rewrite (Gs_ext N _ (fun n => factq i * sone n)) by (intros; apply sDn_hs).
    destruct N as [|N]; [lia|]. rewrite Gs_scal, Gs_sone. apply Qcmult_1_r.
  - destruct (lt_dec j i) as [L|L].
    + apply (hermite_orth_seq i (hs j) (S j) N); [apply supp_hs | lia | lia].
    + rewrite (Gs_ext N _ (conv (hs j) (hs i))) by (intros; apply conv_comm).
      apply (hermite_orth_seq j (hs i) (S i) N); [apply supp_hs | lia | lia].
Qed.

Theorem hermite_orth_low n q : (length q <= n)%nat -> gauss (pmul (hermite n) q) = 0.
Proof.
  intros H. destruct (gauss_pmul_conv (hermite n) q (n + length q + 3)) as [N [HN ->]].
  apply (hermite_orth_seq n (coef q) (length q) N); [apply supp_coef | exact H | exact HN].
Qed.

Theorem hermite_norm n : gauss (pmul (hermite n) (hermite n)) = factq n.
Proof.
  destruct (gauss_pmul_conv (hermite n) (hermite n) (n + n + 4)) as [N [HN ->]]. fold (hs n).
  rewrite hermite_gram_seq, Nat.eqb_refl by exact HN. reflexivity.
Qed.

Theorem hermite_orthogonal i j : i <> j -> gauss (pmul (hermite i) (hermite j)) = 0.
Proof.
  intros NE. destruct (gauss_pmul_conv (hermite i) (hermite j) (i + j + 4)) as [N [HN ->]]. fold (hs i) (hs j).
  rewrite hermite_gram_seq by exact HN. apply Nat.eqb_neq in NE. rewrite NE. reflexivity.
Qed.

Definition gcs (c : nat -> Qc) (l : list nat) : seqc :=
  fun n => sone n + bigsum l (fun i => c i * hs i n).

Lemma coef_gc_fold c l n :
  coef (fold_right (fun i acc => padd (pscal (c i) (hermite i)) acc) [1] l) n = gcs c l n.
Proof.
  unfold gcs. induction l as [|i l IH]; cbn [fold_right].
  - rewrite bigsum_nil, coef_one. symmetry. apply Qcplus_0_r.
  - rewrite coef_padd, coef_pscal, IH, bigsum_cons. unfold hs. ring.
Qed.

Lemma conv_gcs q c l n :
  conv q (gcs c l) n = q n + bigsum l (fun i => c i * conv q (hs i) n).
Proof.
  rewrite conv_comm. change (gcs c l) with (sadd sone (fun n => bigsum l (fun i => sscal (c i) (hs i) n))).
  rewrite conv_add_l, conv_one_l, conv_bigsum_l. f_equal. apply bigsum_ext. intros i _.
  rewrite conv_scal_l. f_equal. apply conv_comm.
Qed.

Lemma Gs_bigsum {A} N (l : list A) (f : A -> seqc) :
  Gs N (fun n => bigsum l (fun i => f i n)) = bigsum l (fun i => Gs N (f i)).
Proof.
  unfold Gs. rewrite (bigsum_ext (seq 0 N) _ (fun n => bigsum l (fun i => f i n * gmom n))).
  2:{ intros n _. rewrite bigsum_scal_r. reflexivity. }
  apply bigsum_swap.
Qed.

(* G[q * f] = G[q] + sum_i c_i G[q * He_i] *)
Lemma gauss_pmul_gc q c K n0 :
  exists N, (n0 <= N)%nat /\
  gauss (pmul q (gc_poly c K))
  = Gs N (coef q) + bigsum (pyrange 3 (K + 1)) (fun i => c i * Gs N (conv (coef q) (hs i))).
Proof.
  destruct (gauss_pmul_conv q (gc_poly c K) n0) as [N [HN ->]]. exists N. split; [exact HN|].
  rewrite (Gs_ext N _ (fun n => coef q n + bigsum (pyrange 3 (K + 1)) (fun i => c i * conv (coef q) (hs i) n))).
  2:{ intros n _. rewrite <- conv_gcs. apply conv_ext_r. intros j _. apply coef_gc_fold. }
  rewrite Gs_add. f_equal. rewrite Gs_bigsum. apply bigsum_ext. intros i _. apply Gs_scal.
Qed.

(* below degree 3 every He_i of the sum is orthogonal to q *)
Lemma gauss_pmul_gc_low q c K : (length q <= 3)%nat -> gauss (pmul q (gc_poly c K)) = gauss q.
Proof.
  intros Hq. destruct (gauss_pmul_gc q c K (K + 10)) as [N [HN ->]].
  rewrite <- (gauss_Gs q N) by lia.
  rewrite bigsum_eq0; [apply Qcplus_0_r|]. intros i Hi. apply in_pyrange in Hi.
  rewrite (Gs_ext N _ (conv (hs i) (coef q))) by (intros; apply conv_comm).
  rewrite (hermite_orth_seq i (coef q) (length q) N); [apply Qcmult_0_r | apply supp_coef | lia | lia].
Qed.

(* G[He_j] = G[He_j He_0] *)
Lemma Gs_hs j N : (j + 4 <= N)%nat -> Gs N (hs j) = if Nat.eqb j 0 then 1 else 0.
Proof.
  intros HN. rewrite (Gs_ext N (hs j) (conv (hs j) (hs 0))).
  - rewrite hermite_gram_seq by lia. destruct j; reflexivity.
  - intros n _. rewrite (conv_ext_r _ _ sone n (fun i _ => hs_0 i)). symmetry. apply conv_one_r.
Qed.

(* of the sum only i = j survives *)
Lemma gauss_hermite_gc c K j : (3 <= j <= K)%nat -> gauss (pmul (hermite j) (gc_poly c K)) = factq j * c j.
Proof.
  intros Hj. destruct (gauss_pmul_gc (hermite j) c K (K + j + 10)) as [N [HN ->]]. fold (hs j).
  rewrite Gs_hs by lia. replace (Nat.eqb j 0) with false by (symmetry; apply Nat.eqb_neq; lia).
  rewrite Qcplus_0_l, (bigsum_ext _ _ (fun i => if Nat.eqb i j then factq j * c j else 0)).
  - apply bigsum_delta; [unfold pyrange; apply seq_NoDup | apply in_pyrange; lia].
  - intros i Hi. apply in_pyrange in Hi. rewrite hermite_gram_seq, Nat.eqb_sym by lia.
    destruct (Nat.eqb_spec i j) as [->|_]; [apply Qcmult_comm | apply Qcmult_0_r].
Qed.

Lemma coef_pmul_1 q i : coef (pmul [1] q) i = coef q i.
Proof. rewrite coef_pmul, (conv_ext_l _ sone _ i (fun j _ => coef_one j)). apply conv_one_l. Qed.

Theorem gram_charlier_shape (c : nat -> Qc) (K : nat) :
  let f := gc_poly c K in
  gauss f = 1 /\ gauss (pmul [0; 1] f) = 0 /\ gauss (pmul [0; 0; 1] f) = 1 /\
  forall j, (3 <= j <= K)%nat -> gauss (pmul (hermite j) f) = factq j * c j.
Proof.
  cbv zeta. split; [|split; [|split]].
  - rewrite <- (gauss_peq _ _ (coef_pmul_1 (gc_poly c K))), gauss_pmul_gc_low by (cbn; lia). reflexivity.
  - rewrite gauss_pmul_gc_low by (cbn; lia). unfold gauss. cbn. ring.
  - rewrite gauss_pmul_gc_low by (cbn; lia). unfold gauss. cbn. rewrite nq_1. ring.
  - apply gauss_hermite_gc.
Qed.
