(* C20 — results are independent of process history, goal order and hash seed.  The parts
   (enumeration order, caches, the name counter, renaming of variables) are re-exported; here
   the last two are combined: starting the name counter later changes no expectation. *)
From Coq Require Import List String QArith Qcanon.
From Polar Require Import Qcx Dist Syntax Sem.
From Polar Require Export HistoryPerm HistoryMemo HistoryNames HistoryAlpha.
Import ListNotations.

(* The flat program whose auxiliary names were generated d counter values later (all
   canonical generated names shifted by d, every other variable unchanged) has, at every
   iteration n and for every observable, the same expectation read through the renaming.
   NOT covered: that Polar's transformers, run at counter value k0 + d, output exactly
   [rename_fp (cshift d)] of what they output at k0 — that is a statement about the
   transformer code (they call get_unique_var in the same sequence), checked on the real
   implementation by the harness, not proved here. *)
Theorem counter_shift_semantic (law : string -> list Qc -> dist Qc) (d : nat) fp n s' g :
  extensional g ->
  E (frun law (rename_fp (cshift d) fp) n s') (fun t => g (fun x => t (cshift d x)))
  = E (frun law fp n (fun x => s' (cshift d x))) g.
Proof. apply frun_alpha_pullback. apply cshift_injective. Qed.
