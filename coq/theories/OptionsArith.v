(* C17 — settings.cond2arithm: model of program/transformer/conditions_to_arithm.py
   (ConditionsToArithm) on flat programs and its preservation theorem.

     for assign in assignments:
         arithm_cond = assign.condition.to_arithm(program)          # Wp.arith
         if arithm_cond == 1:  condition := true; keep                # (is_one)
         PolyAssignment:  every alternative p  :=  arithm_cond*p + (1-arithm_cond)*default
                          condition := true                           # probabilities kept
         DistAssignment:  u fresh;  u = D ;  x = arithm_cond*u + (1-arithm_cond)*default
         (a FunctionalAssignment matches neither isinstance test; before /repo 0c1450d it was
          NOT re-emitted: see [c2ax_old], [c2ax] and
          [cond2arithm_drops_functional_old_rule_refuted] in OptionsThm) *)
From Coq Require Import List String QArith Qcanon ZArith Bool Ring Field Arith Lia.
From Polar Require Import Qcx CRing ExpPoly ClosedForm Dist Syntax Sem Types Poly Pipeline Wp PassGuard Options.
Import ListNotations.
Local Open Scope Qc_scope.

Fixpoint mono_expr (m : mono) : expr :=
  match m with [] => EConst 1 | (x, k) :: m' => EMul (EPow (EVar x) k) (mono_expr m') end.
Fixpoint to_expr (p : poly) : expr :=
  match p with [] => EConst 0 | (c, m) :: p' => EAdd (EMul (EConst c) (mono_expr m)) (to_expr p') end.
Lemma eval_mono_expr m s : eval (mono_expr m) s = eval_mono m s.
Proof. induction m as [|[x k] m IH]; cbn [mono_expr eval eval_mono]; [reflexivity | rewrite IH; reflexivity]. Qed.
Lemma eval_to_expr p s : eval (to_expr p) s = eval_poly p s.
Proof.
  induction p as [|[c m] p IH]; cbn [to_expr eval eval_poly]; [reflexivity|].
  rewrite IH, eval_mono_expr. reflexivity.
Qed.

(* [C]*e + (1-[C])*default *)
Definition mix (a : poly) (e : expr) (d : var) : expr :=
  EAdd (EMul (to_expr a) e) (EMul (EAdd (EConst 1) (EMul (EConst (- (1))) (to_expr a))) (EVar d)).
Lemma eval_mix a e d s : eval (mix a e d) s = eval_poly a s * eval e s + (1 - eval_poly a s) * s d.
Proof. unfold mix. cbn [eval]. rewrite !eval_to_expr. ring. Qed.

(* arithm_cond == 1 : any test that implies "the polynomial is identically 1" is covered *)
Definition is_one (a : poly) : bool := pzero (psub a (pconst 1)).
Lemma is_one_sound a s : is_one a = true -> eval_poly a s = 1.
Proof. intros H. rewrite (pzero_psub_sound a (pconst 1) H s). apply eval_pconst. Qed.

Definition set_true (g : gassign) : gassign :=
  {| ga_var := ga_var g; ga_cond := CTrue; ga_default := ga_default g; ga_rhs := ga_rhs g |}.

(* one assignment; [u] is the name get_unique_var() would return *)
Definition c2a_ga (T : tenv) (u : var) (g : gassign) : option (list gassign * bool) :=
  match arith T (ga_cond g) with
  | None => None                         (* ArithmConversionException *)
  | Some a =>
      if is_one a then Some ([set_true g], false)
      else match ga_rhs g with
           | RChoice alts =>
               Some ([ {| ga_var := ga_var g; ga_cond := CTrue; ga_default := ga_default g;
                          ga_rhs := RChoice (map (fun pe => (fst pe, mix a (snd pe) (ga_default g))) alts) |} ], false)
           | RDraw d =>
               Some ([ {| ga_var := u; ga_cond := CTrue; ga_default := u; ga_rhs := RDraw d |};
                       {| ga_var := ga_var g; ga_cond := CTrue; ga_default := ga_var g;
                          ga_rhs := RDet (mix a (EVar u) (ga_default g)) |} ], true)
           end
  end.

Lemma c2a_ga_keeps_var T u g gs used : c2a_ga T u g = Some (gs, used) -> In (ga_var g) (map ga_var gs).
Proof.
  unfold c2a_ga. destruct (arith T (ga_cond g)) as [a|]; [|discriminate].
  destruct (is_one a); [|destruct (ga_rhs g)]; intros H; injection H as <- _; cbn; auto.
Qed.

(* the list; [us] is the supply of fresh names, one is consumed per conditioned draw *)
Fixpoint c2a_gas (T : tenv) (us : list var) (l : list gassign) : option (list gassign) :=
  match l with
  | [] => Some []
  | g :: l' =>
      match c2a_ga T (hd ""%string us) g with
      | None => None
      | Some (gs, used) =>
          match c2a_gas T (if used then tl us else us) l' with
          | Some r => Some (gs ++ r)
          | None => None
          end
      end
  end.

(* the initial block: the typer refuses conditions there, so every arithmetised condition is 1 *)
Definition c2a_init (l : list gassign) : option (list gassign) :=
  if forallb (fun g => match ga_cond g with CTrue => true | _ => false end) l then Some (map set_true l) else None.

Definition c2a_fp (T : tenv) (us : list var) (fp : flatprog) : option flatprog :=
  match c2a_init (fp_init fp), c2a_gas T us (fp_body fp) with
  | Some i, Some b => Some {| fp_init := i; fp_body := b |}
  | _, _ => None
  end.

Section C2A.
  Variable law : string -> list Qc -> dist Qc.
  Variable T : tenv.
  Variable U : list var.           (* all generated names *)
  Hypothesis U_untyped : forall u, In u U -> tlookup T u = None.

  (* an assignment of the source flat program does not mention generated names *)
  Definition no_touch (g : gassign) : Prop :=
    ~ In (ga_var g) U /\ ~ In (ga_default g) U /\
    (forall x, In x (cvars (ga_cond g)) -> ~ In x U) /\ (forall x, In x (rvars (ga_rhs g)) -> ~ In x U).
  (* the weights of its right-hand side add up to one on typed states (probabilities of a
     choice; total mass of a draw) *)
  Definition mass_one (g : gassign) : Prop := forall s, typed T s -> mass (sample law (ga_rhs g) s) = 1.

  (* test functions: do not read generated names (on typed states) *)
  Definition insens (G : state -> Qc) : Prop := forall t t', typed T t -> agree_off U t t' -> G t = G t'.

  (* a test function [K] for the source program and one [K'] for the arithmetised program that
     may be exchanged: they agree on a typed state and any state that differs from it in
     generated names only.  [insens G] is [related G G]. *)
  Definition related (K K' : state -> Qc) : Prop :=
    forall t t', typed T t -> agree_off U t t' -> K t = K' t'.
  Lemma related_insens K K' : related K K' -> insens K'.
  Proof.
    intros H t t' Ht Ha. rewrite <- (H t t Ht (agree_refl U t)). exact (H t t' Ht Ha).
  Qed.

  Lemma typed_agree s s' : typed T s -> agree_off U s s' -> typed T s'.
  Proof.
    intros HT Ha x vs Hx. rewrite <- (Ha x); [apply HT; exact Hx|].
    intros Hin. rewrite (U_untyped x Hin) in Hx. discriminate.
  Qed.

  Lemma exec_ga_det x d e t (G : state -> Qc) :
    E (exec_ga law {| ga_var := x; ga_cond := CTrue; ga_default := d; ga_rhs := RDet e |} t) G = G (upd t x (eval e t)).
  Proof.
    rewrite E_exec_ga_true by reflexivity. cbn [ga_rhs ga_var]. rewrite sample_det. exact (E_ret _ (fun v => G (upd t x v))).
  Qed.

  (* when the weights add up to one, the guard can be moved into the assigned value: the sampled
     value if the condition holds, the default otherwise.  This is the form the pass produces. *)
  Lemma E_exec_ga_mass g s (G : state -> Qc) : mass (sample law (ga_rhs g) s) = 1 ->
    E (exec_ga law g s) G =
    E (sample law (ga_rhs g) s)
      (fun v => G (upd s (ga_var g) (if holds (ga_cond g) s then v else s (ga_default g)))).
  Proof.
    intros Hm. rewrite E_exec_ga. destruct (holds (ga_cond g) s); [reflexivity|]. rewrite E_const, Hm. ring.
  Qed.
  Lemma exec_ga_typed g s w v :
    check_ga T g = true -> typed T s -> In (w, v) (sample law (ga_rhs g) s) ->
    typed T (upd s (ga_var g) (if holds (ga_cond g) s then v else s (ga_default g))).
  Proof.
    intros Hck HT Hin. apply (check_ga_sound law T g s Hck HT). unfold exec_ga.
    destruct (holds (ga_cond g) s).
    - eapply supp_bind_intro; [exact Hin|]. exists 1. left. reflexivity.
    - exists 1. left. reflexivity.
  Qed.

  Lemma exec_ga_related g K K' :
    check_ga T g = true -> no_touch g -> mass_one g -> related K K' ->
    related (fun s => E (exec_ga law g s) K) (fun s' => E (exec_ga law g s') K').
  Proof.
    intros Hck (Hx & Hd & Hc & Hr) Hm HK s s' HT Ha.
    rewrite (E_exec_ga_mass g s K (Hm s HT)), (E_exec_ga_mass g s' K' (Hm s' (typed_agree s s' HT Ha))).
    rewrite <- (holds_ext (ga_cond g) s s'), <- (sample_ext law (ga_rhs g) s s'), <- (Ha (ga_default g) Hd)
      by (intros y Hy; apply Ha; auto).
    apply E_ext_in. intros w v Hin.
    apply HK; [exact (exec_ga_typed g s w v Hck HT Hin) | apply agree_upd; exact Ha].
  Qed.

  Lemma eval_mix_arith c a e d s :
    arith T c = Some a -> typed T s -> eval (mix a e d) s = if holds c s then eval e s else s d.
  Proof.
    intros Ea HT. rewrite eval_mix, (arith_sound T s c a HT Ea). destruct (holds c s); cbn [ind]; ring.
  Qed.
  Lemma sample_mix c a alts d s (F : Qc -> Qc) :
    arith T c = Some a -> typed T s ->
    E (sample law (RChoice (map (fun pe => (fst pe, mix a (snd pe) d)) alts)) s) F =
    E (sample law (RChoice alts) s) (fun v => F (if holds c s then v else s d)).
  Proof.
    intros Ea HT. cbn [sample]. induction alts as [|[p e] alts IH]; cbn [map E fst snd]; [reflexivity|].
    rewrite IH, (eval_mix_arith c a e d s Ea HT). reflexivity.
  Qed.

  Lemma is_one_holds c a s : arith T c = Some a -> is_one a = true -> typed T s -> holds c s = true.
  Proof.
    intros Ea E1 HT. pose proof (arith_sound T s c a HT Ea) as Hi. rewrite (is_one_sound a s E1) in Hi.
    destruct (holds c s); [reflexivity | discriminate Hi].
  Qed.

  (* one assignment: the original and its arithmetised replacement, from the same typed state *)
  Lemma c2a_ga_step g u gs used s (G : state -> Qc) :
    c2a_ga T u g = Some (gs, used) ->
    check_ga T g = true -> no_touch g -> mass_one g ->
    (used = true -> In u U) ->
    typed T s -> insens G ->
    E (exec_ga law g s) G = E (exec_gas law gs s) G.
  Proof.
    intros Hc Hck (_ & Hd & Hcv & _) Hm Hu HT HG. unfold c2a_ga in Hc.
    destruct (arith T (ga_cond g)) as [a|] eqn:Ea; [|discriminate].
    destruct (is_one a) eqn:E1.
    - injection Hc as <- <-. rewrite E_exec_gas_single, (E_exec_ga_true law (set_true g)) by reflexivity.
      rewrite E_exec_ga, (is_one_holds _ a s Ea E1 HT). reflexivity.
    - rewrite (E_exec_ga_mass g s G (Hm s HT)).
      destruct (ga_rhs g) as [alts|d] eqn:Er; injection Hc as <- <-.
      + (* polynomial assignment: every alternative is mixed with the default *)
        rewrite E_exec_gas_single, E_exec_ga_true by reflexivity. cbn [ga_rhs ga_var].
        symmetry. exact (sample_mix _ a alts _ s (fun v => G (upd s (ga_var g) v)) Ea HT).
      + (* draw into the fresh u, then a deterministic mix; after u is drawn the condition and
           the default evaluate as before *)
        specialize (Hu eq_refl). rewrite E_exec_gas_cons, E_exec_ga_true by reflexivity. cbn [ga_rhs ga_var].
        apply E_ext_in. intros w0 w Hin.
        rewrite E_exec_gas_single, exec_ga_det, (eval_mix_arith (ga_cond g) a _ _ _ Ea)
          by (apply (typed_agree s); [exact HT | apply agree_upd_in; exact Hu]).
        cbn [eval]. rewrite upd_same, (upd_other s u w (ga_default g)), (holds_ext (ga_cond g) (upd s u w) s).
        * apply HG; [rewrite <- Er in Hin; exact (exec_ga_typed g s w0 w Hck HT Hin)|].
          apply agree_upd, agree_upd_in. exact Hu.
        * intros y Hy. apply upd_other. intros ->. exact (Hcv u Hy Hu).
        * intros E. apply Hd. rewrite E. exact Hu.
  Qed.

  Lemma c2a_ga_used u g gs : c2a_ga T u g = Some (gs, true) -> exists d, ga_rhs g = RDraw d.
  Proof.
    unfold c2a_ga. destruct (arith T (ga_cond g)) as [a|]; [|discriminate].
    destruct (is_one a); [discriminate|]. destruct (ga_rhs g) as [alts|d]; [discriminate|].
    intros _. exists d. reflexivity.
  Qed.

  (* the name supply [us] serves the list l: its names are generated names, one for every draw *)
  Definition supplies (us : list var) (l : list gassign) : Prop :=
    (forall u, In u us -> In u U) /\
    (List.length (filter (fun g => match ga_rhs g with RDraw _ => true | _ => false end) l) <= List.length us)%nat.
  Lemma supplies_cons us g l gs used :
    c2a_ga T (hd ""%string us) g = Some (gs, used) -> supplies us (g :: l) ->
    (used = true -> In (hd ""%string us) U) /\ supplies (if used then tl us else us) l.
  Proof.
    intros Eg [Hus Hlen]. cbn [filter] in Hlen. unfold supplies. destruct used.
    - destruct (c2a_ga_used _ _ _ Eg) as [d Ed]. rewrite Ed in Hlen.
      destruct us as [|u0 us0]; cbn [List.length hd tl] in *; [lia|].
      repeat split; [intros _; apply Hus; left; reflexivity | intros u Hu; apply Hus; right; exact Hu | lia].
    - repeat split; [discriminate | exact Hus|]. destruct (ga_rhs g); cbn [List.length] in Hlen; lia.
  Qed.

  Lemma c2a_gas_related : forall l us l',
    c2a_gas T us l = Some l' ->
    forallb (check_ga T) l = true ->
    (forall g, In g l -> no_touch g) -> (forall g, In g l -> mass_one g) ->
    supplies us l ->
    forall K K', related K K' ->
    related (fun s => E (exec_gas law l s) K) (fun s' => E (exec_gas law l' s') K').
  Proof.
    induction l as [|g l IH]; intros us l' Hc Hck Hnt Hms Hsup K K' HK.
    - injection Hc as <-. intros s s' HT Ha. rewrite !E_exec_gas_nil. exact (HK s s' HT Ha).
    - cbn [c2a_gas] in Hc.
      destruct (c2a_ga T (hd ""%string us) g) as [[gs used]|] eqn:Eg; [|discriminate].
      destruct (c2a_gas T (if used then tl us else us) l) as [r|] eqn:Er; [|discriminate].
      injection Hc as <-.
      cbn [forallb] in Hck. apply andb_true_iff in Hck. destruct Hck as [Hg Hl].
      destruct (supplies_cons us g l gs used Eg Hsup) as [Hused Hsup'].
      pose proof (IH _ r Er Hl (fun g0 H0 => Hnt g0 (or_intror H0)) (fun g0 H0 => Hms g0 (or_intror H0)) Hsup' K K' HK) as HKl.
      pose proof (Hnt g (or_introl eq_refl)) as Hng. pose proof (Hms g (or_introl eq_refl)) as Hmg.
      intros s s' HT Ha. rewrite E_exec_gas_cons, E_exec_gas_app.
      (* g from s to s', then g against its replacement in s' *)
      rewrite (exec_ga_related g _ _ Hg Hng Hmg HKl s s' HT Ha).
      exact (c2a_ga_step g _ gs used s' _ Eg Hg Hng Hmg Hused (typed_agree s s' HT Ha) (related_insens _ _ HKl)).
  Qed.

  Theorem c2a_gas_sound : forall l us l',
    c2a_gas T us l = Some l' ->
    forallb (check_ga T) l = true ->
    (forall g, In g l -> no_touch g) -> (forall g, In g l -> mass_one g) ->
    (forall u, In u us -> In u U) -> (List.length (filter (fun g => match ga_rhs g with RDraw _ => true | _ => false end) l) <= List.length us)%nat ->
    forall s s' (G : state -> Qc), typed T s -> agree_off U s s' -> insens G ->
    E (exec_gas law l s) G = E (exec_gas law l' s') G.
  Proof.
    intros l us l' Hc Hck Hnt Hms Hus Hlen s s' G HT Ha HG.
    exact (c2a_gas_related l us l' Hc Hck Hnt Hms (conj Hus Hlen) G G HG s s' HT Ha).
  Qed.
End C2A.
