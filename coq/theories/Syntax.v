(* Abstract syntax of Polar's loop language: source programs (statements with
   if/elif/else, probabilistic choice, draws, simultaneous assignment) and flat programs
   (lists of guarded single assignments, the output of normalisation). *)
From Coq Require Import List String QArith Qcanon ZArith Bool.
From Polar Require Import Qcx.
Import ListNotations.

Definition var := string.
Definition var_eqb (x y : var) : bool := String.eqb x y.
Lemma var_eqb_eq x y : var_eqb x y = true <-> x = y.
Proof. apply String.eqb_eq. Qed.
Lemma var_eqb_refl x : var_eqb x x = true.
Proof. apply String.eqb_refl. Qed.
Lemma var_eqb_neq x y : var_eqb x y = false <-> x <> y.
Proof. apply String.eqb_neq. Qed.
Lemma var_eqb_sym x y : var_eqb x y = var_eqb y x.
Proof. apply String.eqb_sym. Qed.
Lemma var_eqb_spec x y : reflect (x = y) (var_eqb x y).
Proof. apply String.eqb_spec. Qed.

Inductive expr :=
| EConst (q : Qc)
| EVar (x : var)
| EAdd (a b : expr)
| EMul (a b : expr)
| EPow (a : expr) (k : nat).

Definition ENeg (a : expr) : expr := EMul (EConst (mkq (-1) 1)) a.
Definition ESub (a b : expr) : expr := EAdd a (ENeg b).

Inductive cop := Ceq | Cle | Cge | Clt | Cgt.

Inductive cond :=
| CTrue
| CFalse
| CAtom (a : expr) (c : cop) (b : expr)
| CNot (c : cond)
| CAnd (c1 c2 : cond)
| COr (c1 c2 : cond).

Lemma cond_ind_bin (P : cond -> Prop) :
  P CTrue -> P CFalse -> (forall a o b, P (CAtom a o b)) -> (forall c, P c -> P (CNot c)) ->
  (forall op c1 c2, op = CAnd \/ op = COr -> P c1 -> P c2 -> P (op c1 c2)) -> forall c, P c.
Proof. intros Ht Hf Ha Hn Hb c. induction c; auto. Qed.

(* primitive draws; a continuous family is a name with evaluated parameters, its law is a
   parameter of the semantics *)
Inductive draw :=
| DBern (p : expr)
| DCat (ps : list expr)
| DUnif (a b : Z)
| DCont (family : string) (args : list expr).

(* right-hand sides: probabilistic choice  e1 {p1} e2 {p2} ...  as (probability, value)
   pairs with the last probability made explicit, or a draw *)
Inductive rhs :=
| RChoice (alts : list (expr * expr))
| RDraw (d : draw).

Definition RDet (e : expr) : rhs := RChoice [(EConst (mkq 1 1), e)].

Inductive stmt :=
| SAssign (x : var) (r : rhs)
| SSimult (l : list (var * rhs))
| SIf (bs : branches) (els : block)
with block :=
| BNil
| BCons (s : stmt) (b : block)
with branches :=
| BrNil
| BrCons (c : cond) (b : block) (bs : branches).

Scheme stmt_mut := Induction for stmt Sort Prop
with block_mut := Induction for block Sort Prop
with branches_mut := Induction for branches Sort Prop.
Combined Scheme stmt_block_branches_ind from stmt_mut, block_mut, branches_mut.

Fixpoint block_of_list (l : list stmt) : block :=
  match l with [] => BNil | s :: l' => BCons s (block_of_list l') end.
Fixpoint block_app (b1 b2 : block) : block :=
  match b1 with BNil => b2 | BCons s b => BCons s (block_app b b2) end.

Record prog := { p_init : block; p_guard : cond; p_body : block }.

(* flat programs: every assignment  x = rhs | cond : default *)
Record gassign := { ga_var : var; ga_cond : cond; ga_default : var; ga_rhs : rhs }.
Record flatprog := { fp_init : list gassign; fp_body : list gassign }.
