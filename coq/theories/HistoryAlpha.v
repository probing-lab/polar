(* C20, part 3 (semantic side) — alpha-invariance of the reference semantics of flat
   programs: renaming the variables of a flat program by an INJECTIVE map rho (e.g.
   HistoryNames.cshift: the counter part of the canonical generated names shifted, every
   other string left alone) does not change the distribution, read through the renaming.
   States are functions, so "the same state up to renaming" is the pointwise relation
   [srel]; no functional extensionality is used. *)
From Coq Require Import List String QArith Qcanon ZArith Bool.
From Polar Require Import Qcx Dist Syntax Sem.
Import ListNotations.
Local Open Scope Qc_scope.

Section Alpha.
  Variable law : string -> list Qc -> dist Qc.
  Variable rho : var -> var.
  Hypothesis rho_inj : forall x y, rho x = rho y -> x = y.

  Fixpoint ren_expr (e : expr) : expr :=
    match e with
    | EConst q => EConst q
    | EVar x => EVar (rho x)
    | EAdd a b => EAdd (ren_expr a) (ren_expr b)
    | EMul a b => EMul (ren_expr a) (ren_expr b)
    | EPow a k => EPow (ren_expr a) k
    end.
  Fixpoint ren_cond (c : cond) : cond :=
    match c with
    | CTrue => CTrue
    | CFalse => CFalse
    | CAtom a o b => CAtom (ren_expr a) o (ren_expr b)
    | CNot c => CNot (ren_cond c)
    | CAnd c1 c2 => CAnd (ren_cond c1) (ren_cond c2)
    | COr c1 c2 => COr (ren_cond c1) (ren_cond c2)
    end.
  Definition ren_draw (d : draw) : draw :=
    match d with
    | DBern p => DBern (ren_expr p)
    | DCat ps => DCat (map ren_expr ps)
    | DUnif a b => DUnif a b
    | DCont f args => DCont f (map ren_expr args)
    end.
  Definition ren_rhs (r : rhs) : rhs :=
    match r with
    | RChoice alts => RChoice (map (fun pe => (ren_expr (fst pe), ren_expr (snd pe))) alts)
    | RDraw d => RDraw (ren_draw d)
    end.
  Definition ren_ga (g : gassign) : gassign :=
    {| ga_var := rho (ga_var g); ga_cond := ren_cond (ga_cond g);
       ga_default := rho (ga_default g); ga_rhs := ren_rhs (ga_rhs g) |}.
  Definition rename_fp (fp : flatprog) : flatprog :=
    {| fp_init := map ren_ga (fp_init fp); fp_body := map ren_ga (fp_body fp) |}.

  (* s' (over the renamed names) and s (over the original names) are the same state *)
  Definition srel (s' s : state) : Prop := forall x, s' (rho x) = s x.
  Definition frel (g' g : state -> Qc) : Prop := forall t' t, srel t' t -> g' t' = g t.

  Section Related.
    Variables s' s : state.
    Hypothesis rel : srel s' s.

    Lemma eval_ren e : eval (ren_expr e) s' = eval e s.
    Proof.
      induction e as [q|x|a IHa b IHb|a IHa b IHb|a IHa k]; cbn [ren_expr eval];
        try rewrite IHa; try rewrite IHb; auto.
    Qed.

    Lemma holds_ren c : holds (ren_cond c) s' = holds c s.
    Proof.
      induction c as [| |a o b|c IH|c1 IH1 c2 IH2|c1 IH1 c2 IH2]; cbn [ren_cond holds];
        try rewrite IH; try rewrite IH1; try rewrite IH2; try reflexivity.
      rewrite !eval_ren. reflexivity.
    Qed.

    Lemma map_eval_ren l : map (fun e => eval e s') (map ren_expr l) = map (fun e => eval e s) l.
    Proof. rewrite map_map. apply map_ext, eval_ren. Qed.

    Lemma sample_ren r : sample law (ren_rhs r) s' = sample law r s.
    Proof.
      destruct r as [alts|d]; cbn [ren_rhs sample].
      - rewrite map_map. apply map_ext. intros [p e]. cbn [fst snd].
        rewrite !eval_ren. reflexivity.
      - destruct d as [p|ps|a b|f args]; cbn [ren_draw draw_law].
        + rewrite eval_ren. reflexivity.
        + rewrite map_eval_ren. reflexivity.
        + reflexivity.
        + rewrite map_eval_ren. reflexivity.
    Qed.

    Lemma srel_upd x v : srel (upd s' (rho x) v) (upd s x v).
    Proof.
      intros y. destruct (var_eqb y x) eqn:E.
      - apply var_eqb_eq in E. subst y. rewrite !upd_same. reflexivity.
      - apply var_eqb_neq in E. rewrite !upd_other; [apply rel | exact E | intros E'; apply E, rho_inj, E'].
    Qed.
  End Related.

  Lemma exec_ga_ren g0 s' s g' g : srel s' s -> frel g' g ->
    E (exec_ga law (ren_ga g0) s') g' = E (exec_ga law g0 s) g.
  Proof.
    intros H Hg. apply E_exec_ga_rel; cbn [ren_ga ga_var ga_cond ga_default ga_rhs].
    - apply holds_ren, H.
    - apply sample_ren, H.
    - apply H.
    - intros v. apply Hg, srel_upd, H.
  Qed.

  Lemma exec_gas_ren l : forall s' s g' g, srel s' s -> frel g' g ->
    E (exec_gas law (map ren_ga l) s') g' = E (exec_gas law l s) g.
  Proof.
    induction l as [|g0 l IH]; intros s' s g' g H Hg; cbn [map exec_gas].
    - rewrite !E_ret. apply Hg, H.
    - rewrite !E_bind. apply exec_ga_ren; [exact H|].
      intros t' t Ht. apply IH; assumption.
  Qed.

  Theorem frun_alpha_invariant fp n : forall s' s g' g, srel s' s -> frel g' g ->
    E (frun law (rename_fp fp) n s') g' = E (frun law fp n s) g.
  Proof.
    induction n as [|n IH]; intros s' s g' g H Hg; cbn [frun].
    - unfold rename_fp; cbn [fp_init]. apply exec_gas_ren; assumption.
    - rewrite !E_bind. apply IH; [exact H|].
      intros t' t Ht. unfold fstep, rename_fp; cbn [fp_body]. apply exec_gas_ren; assumption.
  Qed.

  (* start state and observable pulled back along rho; the observable only has to respect
     pointwise equality of states (every moment / probability does) *)
  Definition extensional (g : state -> Qc) : Prop :=
    forall s1 s2, (forall x, s1 x = s2 x) -> g s1 = g s2.

  Corollary frun_alpha_pullback fp n s' g : extensional g ->
    E (frun law (rename_fp fp) n s') (fun t => g (fun x => t (rho x)))
    = E (frun law fp n (fun x => s' (rho x))) g.
  Proof.
    intros Hg. apply frun_alpha_invariant.
    - intros x; reflexivity.
    - intros t' t Ht. apply Hg. exact Ht.
  Qed.

  Corollary exec_gas_alpha_pullback l s' g : extensional g ->
    E (exec_gas law (map ren_ga l) s') (fun t => g (fun x => t (rho x)))
    = E (exec_gas law l (fun x => s' (rho x))) g.
  Proof.
    intros Hg. apply exec_gas_ren.
    - intros x; reflexivity.
    - intros t' t Ht. apply Hg. exact Ht.
  Qed.
End Alpha.
