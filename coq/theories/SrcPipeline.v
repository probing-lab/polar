(* End-to-end theorem on SOURCE programs: one executable test
   [check_pipeline_src p T ms A v F sp] over the source program, claimed types, Polar's final
   linear system, initial values and closed forms; acceptance implies that the closed forms
   are the exact moments of the SOURCE program under the reference semantics at every n. *)
From Coq Require Import List String QArith Qcanon ZArith Bool Ring Arith Lia.
From Polar Require Import Qcx CRing ExpPoly ClosedForm Dist Syntax Sem Types Poly Pipeline Wp SrcWp.
Import ListNotations.
Local Open Scope Qc_scope.

Section SrcPipe.
  Variable law : string -> list Qc -> dist Qc.
  Variable cmom : string -> list Qc -> nat -> Qc.

  Definition moments_src (p : prog) (ms : list mono) (n : nat) (s0 : state) : list Qc :=
    map (fun m => E (run law p n s0) (eval_mono m)) ms.

  Definition check_types_src (p : prog) (T : tenv) : bool :=
    match init_gas (p_init p) with
    | Some l => check_init T l && check_block_src T (p_body p)
    | None => false
    end.

  Definition init_ok_src (p : prog) (T : tenv) (s0 : state) : Prop :=
    match init_gas (p_init p) with
    | Some l => typed (declared (map ga_var l) T) s0
    | None => False
    end.

  Lemma check_types_src_inv p T : check_types_src p T = true ->
    exists l, init_gas (p_init p) = Some l /\ check_init T l = true /\ check_block_src T (p_body p) = true.
  Proof.
    unfold check_types_src. destruct (init_gas (p_init p)) as [l|]; [|discriminate].
    intros H. apply andb_true_iff in H. exists l. split; [reflexivity | exact H].
  Qed.

  Lemma run_typed p T : check_types_src p T = true ->
    forall s0, init_ok_src p T s0 -> forall n s, supp (run law p n s0) s -> typed T s.
  Proof.
    intros H s0 H0. destruct (check_types_src_inv p T H) as (l & El & Hi & Hb).
    unfold init_ok_src in H0. rewrite El in H0.
    induction n as [|n IH]; cbn [run]; intros s Hs.
    - rewrite (init_gas_exec law _ _ s0 El) in Hs. exact (check_init_sound law T l s0 s Hi H0 Hs).
    - apply supp_bind in Hs. destruct Hs as [s1 [H1 H2]]. specialize (IH s1 H1).
      unfold iter in H2. destruct (holds (p_guard p) s1).
      + exact (proj1 (proj2 (check_src_sound law T)) (p_body p) Hb s1 IH s H2).
      + apply supp_ret in H2; subst; exact IH.
  Qed.

  Definition check_row_src (T : tenv) (p : prog) (ms : list mono) (m : mono) (r : list Qc) : bool :=
    match wp_iter cmom T p [(1, m)] with
    | Some q => pequiv T q (row_poly ms r)
    | None => false
    end.
  Definition check_system_src (p : prog) (T : tenv) (ms : list mono) (A : list (list Qc)) : bool :=
    Nat.eqb (List.length A) (List.length ms)
    && forallb (fun mr => check_row_src T p ms (fst mr) (snd mr)) (combine ms A).

  Definition check_init_vals_src (p : prog) (ms : list mono) (v : list Qc) : bool :=
    match init_gas (p_init p) with
    | Some l => check_init_vals cmom l ms v
    | None => false
    end.

  Lemma check_init_vals_src_sound p ms v : cmom_ok law cmom -> check_init_vals_src p ms v = true ->
    forall s0, moments_of (run law p 0 s0) ms = v.
  Proof.
    unfold check_init_vals_src. intros Hc H s0.
    destruct (init_gas (p_init p)) as [l|] eqn:El; [|discriminate].
    cbn [run]. rewrite (init_gas_exec law _ _ s0 El). exact (check_init_vals_exact law cmom l ms v Hc H s0).
  Qed.

  Lemma check_system_src_sound p T ms A : cmom_ok law cmom ->
    check_block_src T (p_body p) = true -> check_system_src p T ms A = true ->
    exact_on (typed T) (iter law p) ms A.
  Proof.
    intros Hc Hb H. apply (system_exact (wp_iter cmom T p) (iter law p) T ms A); [|exact H].
    intros f q s HT. apply (wp_iter_exact law cmom T p f q s Hc Hb HT).
  Qed.

  Definition check_pipeline_src (p : prog) (T : tenv) (ms : list mono) (A : list (list Qc)) (v : list Qc)
             (F : list (epoly Qc_cring)) (sp : list (list Qc)) : bool :=
    check_types_src p T && check_system_src p T ms A && check_init_vals_src p ms v
    && check_solution (R := Qc_cring) A v F sp.

  Theorem check_pipeline_src_sound p T ms A v F sp :
    cmom_ok law cmom -> check_pipeline_src p T ms A v F sp = true ->
    forall s0, init_ok_src p T s0 ->
    forall n, pw_eval (R := Qc_cring) F sp n = moments_src p ms n s0.
  Proof.
    intros Hc H s0 H0. unfold check_pipeline_src in H.
    apply andb_true_iff in H as [H H4].
    apply andb_true_iff in H as [H H3].
    apply andb_true_iff in H as [H1 H2].
    destruct (check_types_src_inv p T H1) as (l & _ & _ & Hb).
    apply (closed_form_chain (typed T) (iter law p) ms A (fun n => run law p n s0) F sp
             (check_system_src_sound p T ms A Hc Hb H2) (fun n => eq_refl) (run_typed p T H1 s0 H0)).
    rewrite (check_init_vals_src_sound p ms v Hc H3 s0). exact H4.
  Qed.
End SrcPipe.
