(* C12 — from the source program to what the simulator runs, and the main theorem.

   inputparser/structure_transformer.py turns a source program into the structure the
   simulator executes:
     assign (one variable)      -> one Assignment (condition TrueCond, default = variable)
     _assign_simult             -> _t<k> = rhs_1; ...; _t<k+m-1> = rhs_m; x_1 = _t<k>; ...; x_m = _t<k+m-1>
                                   (get_unique_var(name="t"): "_t" + str(counter))
     if_statem                  -> IfStatem(conditions, branches, else_branch)
     statems                    -> flattened list
   [parse_stmt/parse_block/parse_branches/parse_prog] transcribe that.  The theorem
   [simulator_transcription_is_S] says: for every source program that does not itself use
   a name "_t…" and whose probabilistic choices have total weight 1, the path-enumerated
   law of the simulator transcription on the parsed program equals Sem.run on the source
   program, for every observable that does not look at the temporaries, every n, every
   initial state. *)
From Coq Require Import List String QArith Qcanon ZArith Bool Lia Ascii Field.
From Coq Require Import DecimalString DecimalNat Decimal.
From Polar Require Import Qcx Dist Syntax Sem Simulator.
Import ListNotations.
Local Open Scope Qc_scope.

Definition tmp (k : nat) : var := ("_t" ++ NilEmpty.string_of_uint (Nat.to_uint k))%string.
Definition is_tmp (x : var) : bool := String.prefix "_t" x.

Lemma is_tmp_tmp k : is_tmp (tmp k) = true.
Proof. unfold is_tmp, tmp. cbn. destruct (NilEmpty.string_of_uint (Nat.to_uint k)); reflexivity. Qed.

Lemma tmp_inj j k : tmp j = tmp k -> j = k.
Proof.
  unfold tmp. intros H. cbn [append] in H. inversion H as [H1].
  assert (Hu : Nat.to_uint j = Nat.to_uint k).
  { pose proof (NilEmpty.usu (Nat.to_uint j)) as A. pose proof (NilEmpty.usu (Nat.to_uint k)) as B.
    rewrite H1 in A. rewrite A in B. inversion B. reflexivity. }
  rewrite <- (Unsigned.of_to j), <- (Unsigned.of_to k), Hu. reflexivity.
Qed.

Lemma notmp_neq_tmp x k : is_tmp x = false -> var_eqb x (tmp k) = false.
Proof. intros H. apply var_eqb_neq. intros ->. rewrite is_tmp_tmp in H. discriminate. Qed.

Definition gplain (x : var) (r : rhs) : gassign :=
  {| ga_var := x; ga_cond := CTrue; ga_default := x; ga_rhs := r |}.

Fixpoint assigns1 (l : list (var * rhs)) (k : nat) : pblock :=
  match l with
  | [] => PNil
  | (_, r) :: l' => PCons (PAssign (gplain (tmp k) r)) (assigns1 l' (S k))
  end.
Fixpoint assigns2 (l : list (var * rhs)) (k : nat) : pblock :=
  match l with
  | [] => PNil
  | (x, _) :: l' => PCons (PAssign (gplain x (RDet (EVar (tmp k))))) (assigns2 l' (S k))
  end.

Fixpoint parse_stmt (st : stmt) (k : nat) {struct st} : pblock * nat :=
  match st with
  | SAssign x r => (PCons (PAssign (gplain x r)) PNil, k)
  | SSimult l => (pblock_app (assigns1 l k) (assigns2 l k), (k + List.length l)%nat)
  | SIf bs els =>
      let (pbs, k1) := parse_branches bs k in
      let (pels, k2) := parse_block els k1 in
      (PCons (PIf pbs pels) PNil, k2)
  end
with parse_block (b : block) (k : nat) {struct b} : pblock * nat :=
  match b with
  | BNil => (PNil, k)
  | BCons st b' =>
      let (p1, k1) := parse_stmt st k in
      let (p2, k2) := parse_block b' k1 in
      (pblock_app p1 p2, k2)
  end
with parse_branches (bs : branches) (k : nat) {struct bs} : pbranches * nat :=
  match bs with
  | BrNil => (PBrNil, k)
  | BrCons c b bs' =>
      let (pb, k1) := parse_block b k in
      let (pbs, k2) := parse_branches bs' k1 in
      (PBrCons c pb pbs, k2)
  end.

Definition parse_prog (p : prog) (k : nat) : pprog :=
  let (pi, k1) := parse_block (p_init p) k in
  let (pb, _) := parse_block (p_body p) k1 in
  {| pp_init := pi; pp_guard := p_guard p; pp_body := pb |}.

(* the parsed blocks, with the counter read off the preceding parse *)
Lemma parse_stmt_if bs els k :
  fst (parse_stmt (SIf bs els) k) =
  PCons (PIf (fst (parse_branches bs k)) (fst (parse_block els (snd (parse_branches bs k))))) PNil.
Proof. cbn [parse_stmt]. destruct (parse_branches bs k) as [pbs k1]. cbn [fst snd]. destruct (parse_block els k1). reflexivity. Qed.
Lemma parse_block_cons st b k :
  fst (parse_block (BCons st b) k) = pblock_app (fst (parse_stmt st k)) (fst (parse_block b (snd (parse_stmt st k)))).
Proof. cbn [parse_block]. destruct (parse_stmt st k) as [p1 k1]. cbn [fst snd]. destruct (parse_block b k1). reflexivity. Qed.
Lemma parse_branches_cons c b bs k :
  fst (parse_branches (BrCons c b bs) k) =
  PBrCons c (fst (parse_block b k)) (fst (parse_branches bs (snd (parse_block b k)))).
Proof. cbn [parse_branches]. destruct (parse_block b k) as [pb k1]. cbn [fst snd]. destruct (parse_branches bs k1). reflexivity. Qed.
Lemma parse_prog_eq p k :
  parse_prog p k = {| pp_init := fst (parse_block (p_init p) k); pp_guard := p_guard p;
                      pp_body := fst (parse_block (p_body p) (snd (parse_block (p_init p) k))) |}.
Proof. unfold parse_prog. destruct (parse_block (p_init p) k) as [pi k1]. cbn [fst snd]. destruct (parse_block (p_body p) k1). reflexivity. Qed.

(* random.choices(values, weights=w) selects index i with probability w_i / sum(w) *)
Definition normalise (d : dist Qc) : dist Qc := map (fun p => (fst p / mass d, snd p)) d.

Lemma normalise_unit d : mass d = 1 -> normalise d = d.
Proof. exact (unit_mass_normal d). Qed.

(* the total-weight hypothesis is met by construction for the language's sugar *)
Section UnitMass.
  Variable law : string -> list Qc -> dist Qc.

  Lemma bern_unit_mass p s : mass (sample law (RDraw (DBern p)) s) = 1.
  Proof. unfold mass. cbn [sample draw_law E]. ring. Qed.

  Lemma det_unit_mass e s : mass (sample law (RDet e) s) = 1.
  Proof. rewrite sample_det. exact (mass_ret (eval e s)). Qed.

  (* x = e1 {p1} ... em {pm} e  : the parser appends the probability  1-p1-...-pm *)
  Definition implicit_last (ps : list expr) : expr := fold_left ESub ps (EConst 1).

  Lemma eval_fold_sub ps : forall acc s, eval (fold_left ESub ps acc) s = eval acc s - fold_right Qcplus 0 (map (fun p => eval p s) ps).
  Proof.
    induction ps as [|p ps IH]; intros acc s; cbn [fold_left map fold_right].
    - ring.
    - rewrite IH. unfold ESub, ENeg. cbn [eval]. change (mkq (-1) 1) with (- (1)). ring.
  Qed.

  Lemma mass_choice_app alts1 alts2 s :
    mass (sample law (RChoice (alts1 ++ alts2)) s) = mass (sample law (RChoice alts1) s) + mass (sample law (RChoice alts2) s).
  Proof. unfold mass. cbn [sample]. rewrite map_app, E_app. reflexivity. Qed.

  Lemma mass_choice_probs ps : forall es s, List.length es = List.length ps ->
    mass (sample law (RChoice (combine ps es)) s) = fold_right Qcplus 0 (map (fun p => eval p s) ps).
  Proof.
    induction ps as [|p ps IH]; intros es s Hl; [reflexivity|].
    destruct es as [|e es]; [discriminate|]. cbn [combine map fold_right].
    unfold mass in *. cbn [sample map fst snd E]. cbn [sample] in IH. rewrite IH by (cbn in Hl; lia). ring.
  Qed.

  Theorem implicit_last_unit_mass ps es e s : List.length es = List.length ps ->
    mass (sample law (RChoice (combine ps es ++ [(implicit_last ps, e)])) s) = 1.
  Proof.
    intros Hl. rewrite mass_choice_app, (mass_choice_probs ps es s Hl).
    unfold mass. cbn [sample map fst snd E]. unfold implicit_last. rewrite eval_fold_sub. cbn [eval]. ring.
  Qed.
End UnitMass.

Section WithLaw.
  Variable law : string -> list Qc -> dist Qc.

  Definition sim_sample (r : rhs) (s : state) : dist Qc :=
    match r with
    | RChoice _ => normalise (sample law r s)        (* PolyAssignment.evaluate_right_side: random.choices(polys, weights=probs) *)
    | RDraw (DCat _) => normalise (sample law r s)   (* Categorical.sample: random.choices(range(len(p)), weights=p) *)
    | RDraw (DUnif _ _) => sample law r s            (* DiscreteUniform.sample: random.choice(values) *)
    | RDraw (DBern _) => sample law r s              (* Bernoulli.sample: bernoulli.rvs(p): 1 w.p. p, 0 w.p. 1-p *)
    | RDraw (DCont _ _) => sample law r s            (* <family>.rvs(...): the law parameter *)
    end.

  Lemma sim_sample_unit r s : mass (sample law r s) = 1 -> sim_sample r s = sample law r s.
  Proof.
    intros H. destruct r as [alts|d]; [exact (normalise_unit _ H)|].
    destruct d; try reflexivity. exact (normalise_unit _ H).
  Qed.

  (* well-formed source programs: no name "_t…", total weight 1 *)
  Fixpoint expr_notmp (e : expr) : Prop :=
    match e with
    | EConst _ => True
    | EVar x => is_tmp x = false
    | EAdd a b | EMul a b => expr_notmp a /\ expr_notmp b
    | EPow a _ => expr_notmp a
    end.
  Fixpoint cond_notmp (c : cond) : Prop :=
    match c with
    | CTrue | CFalse => True
    | CAtom a _ b => expr_notmp a /\ expr_notmp b
    | CNot c => cond_notmp c
    | CAnd c1 c2 | COr c1 c2 => cond_notmp c1 /\ cond_notmp c2
    end.
  Definition draw_notmp (d : draw) : Prop :=
    match d with
    | DBern p => expr_notmp p
    | DCat ps => Forall expr_notmp ps
    | DUnif _ _ => True
    | DCont _ args => Forall expr_notmp args
    end.
  Definition rhs_notmp (r : rhs) : Prop :=
    match r with
    | RChoice alts => Forall (fun pe => expr_notmp (fst pe) /\ expr_notmp (snd pe)) alts
    | RDraw d => draw_notmp d
    end.
  Definition wf_rhs (r : rhs) : Prop := rhs_notmp r /\ forall s, mass (sample law r s) = 1.

  Fixpoint wf_stmt (st : stmt) : Prop :=
    match st with
    | SAssign x r => is_tmp x = false /\ wf_rhs r
    | SSimult l => Forall (fun xr => is_tmp (fst xr) = false /\ wf_rhs (snd xr)) l
    | SIf bs els => wf_branches bs /\ wf_block els
    end
  with wf_block (b : block) : Prop :=
    match b with BNil => True | BCons st b' => wf_stmt st /\ wf_block b' end
  with wf_branches (bs : branches) : Prop :=
    match bs with BrNil => True | BrCons c b bs' => cond_notmp c /\ wf_block b /\ wf_branches bs' end.

  Definition wf_prog (p : prog) : Prop := wf_block (p_init p) /\ cond_notmp (p_guard p) /\ wf_block (p_body p).

  (* states that agree off the temporaries *)
  Definition rel (s s' : state) : Prop := forall x, is_tmp x = false -> s x = s' x.
  Definition respects (f : state -> Qc) : Prop := forall s s', rel s s' -> f s = f s'.

  Lemma rel_refl s : rel s s.
  Proof. intros x _. reflexivity. Qed.
  Lemma rel_upd s s' x v : rel s s' -> rel (upd s x v) (upd s' x v).
  Proof. intros H y Hy. unfold upd. destruct (var_eqb y x); [reflexivity | apply H; exact Hy]. Qed.
  Lemma rel_upd_tmp s s' k v : rel s s' -> rel s (upd s' (tmp k) v).
  Proof. intros H y Hy. unfold upd. rewrite (notmp_neq_tmp y k Hy). apply H; exact Hy. Qed.

  Lemma eval_rel e s s' : expr_notmp e -> rel s s' -> eval e s = eval e s'.
  Proof.
    intros He Hr. induction e as [q|x|a IHa b IHb|a IHa b IHb|a IHa k]; cbn [eval expr_notmp] in *.
    - reflexivity.
    - apply Hr; exact He.
    - destruct He as [Ha Hb]. rewrite IHa, IHb by assumption. reflexivity.
    - destruct He as [Ha Hb]. rewrite IHa, IHb by assumption. reflexivity.
    - rewrite IHa by assumption. reflexivity.
  Qed.

  Lemma holds_rel c s s' : cond_notmp c -> rel s s' -> holds c s = holds c s'.
  Proof.
    intros Hc Hr. induction c as [| |a o b|c IH|c1 IH1 c2 IH2|c1 IH1 c2 IH2]; cbn [holds cond_notmp] in *.
    - reflexivity.
    - reflexivity.
    - destruct Hc as [Ha Hb]. rewrite (eval_rel a s s' Ha Hr), (eval_rel b s s' Hb Hr). reflexivity.
    - rewrite IH by assumption. reflexivity.
    - destruct Hc as [H1 H2]. rewrite IH1, IH2 by assumption. reflexivity.
    - destruct Hc as [H1 H2]. rewrite IH1, IH2 by assumption. reflexivity.
  Qed.

  Lemma map_eval_rel es s s' : Forall expr_notmp es -> rel s s' ->
    map (fun e => eval e s) es = map (fun e => eval e s') es.
  Proof.
    intros H Hr. induction H as [|e es He _ IH]; [reflexivity|]. cbn [map]. rewrite IH, (eval_rel e s s' He Hr). reflexivity.
  Qed.

  Lemma sample_rel r s s' : rhs_notmp r -> rel s s' -> sample law r s = sample law r s'.
  Proof.
    intros H Hr. destruct r as [alts|d]; cbn [sample rhs_notmp] in *.
    - induction H as [|[p e] alts [Hp He] _ IH]; [reflexivity|]. cbn [map fst snd] in *.
      rewrite IH, (eval_rel p s s' Hp Hr), (eval_rel e s s' He Hr). reflexivity.
    - destruct d as [p|ps|a b|f args]; cbn [draw_law draw_notmp] in *.
      + rewrite (eval_rel p s s' H Hr). reflexivity.
      + rewrite (map_eval_rel ps s s' H Hr). reflexivity.
      + reflexivity.
      + rewrite (map_eval_rel args s s' H Hr). reflexivity.
  Qed.

  Notation pexec_block' := (pexec_block sim_sample).
  Notation pexec_stmt' := (pexec_stmt sim_sample).

  Lemma pexec_block_app b1 : forall b2 s f,
    E (pexec_block' (pblock_app b1 b2) s) f = E (pexec_block' b1 s) (fun a => E (pexec_block' b2 a) f).
  Proof.
    induction b1 as [|st b1 IH]; intros b2 s f.
    - cbn [pblock_app pexec_block]. rewrite E_ret. reflexivity.
    - cbn [pblock_app pexec_block]. rewrite !E_bind. apply E_ext. intros a. apply IH.
  Qed.

  Lemma pexec_single st s f : E (pexec_block' (PCons st PNil) s) f = E (pexec_stmt' st s) f.
  Proof.
    change (pexec_block' (PCons st PNil) s) with (bind (pexec_stmt' st s) (pexec_block' PNil)).
    rewrite E_bind. apply E_ext. intros a. apply E_ret.
  Qed.

  (* a plain Assignment (condition TrueCond) *)
  Lemma pexec_gplain x r s f :
    E (pexec_ga sim_sample (gplain x r) s) f = E (sim_sample r s) (fun v => f (upd s x v)).
  Proof.
    unfold pexec_ga. cbn [gplain ga_cond ga_rhs ga_var holds].
    rewrite E_bind. apply E_ext. intros v. apply E_ret.
  Qed.

  (* ... whose right side is well-formed: the source's draw, in any state that agrees off the temporaries *)
  Lemma gplain_sim x r s s' F : wf_rhs r -> rel s s' ->
    E (pexec_ga sim_sample (gplain x r) s') F = E (sample law r s) (fun v => F (upd s' x v)).
  Proof. intros [Hnt Hm] Hr. rewrite pexec_gplain, (sim_sample_unit r s' (Hm s')), (sample_rel r s s' Hnt Hr). reflexivity. Qed.

  Definition dmap {A B} (g : A -> B) (d : dist A) : dist B := map (fun p => (fst p, g (snd p))) d.
  Lemma E_dmap {A B} (g : A -> B) (d : dist A) f : E (dmap g d) f = E d (fun a => f (g a)).
  Proof. unfold dmap. induction d as [|[w a] d IH]; [reflexivity|]. cbn [map E fst snd]. rewrite IH. reflexivity. Qed.

  (* the joint law of the values drawn for the right-hand sides, all in the OLD state *)
  Fixpoint values_law (l : list (var * rhs)) (s : state) : dist (list Qc) :=
    match l with
    | [] => ret []
    | (_, r) :: l' => bind (sample law r s) (fun v => dmap (cons v) (values_law l' s))
    end.
  Fixpoint write_vars (xs : list var) (vs : list Qc) (t : state) : state :=
    match xs, vs with
    | x :: xs', v :: vs' => write_vars xs' vs' (upd t x v)
    | _, _ => t
    end.
  Fixpoint write_tmps (k : nat) (vs : list Qc) (a : state) : state :=
    match vs with [] => a | v :: vs' => write_tmps (S k) vs' (upd a (tmp k) v) end.
  Fixpoint copy_back (l : list (var * rhs)) (k : nat) (a : state) : state :=
    match l with [] => a | (x, _) :: l' => copy_back l' (S k) (upd a x (a (tmp k))) end.

  Lemma values_law_length l s : forall w vs, In (w, vs) (values_law l s) -> List.length vs = List.length l.
  Proof.
    induction l as [|[x r] l IH]; intros w vs Hin.
    - destruct Hin as [H|[]]. inversion H. reflexivity.
    - cbn [values_law] in Hin.
      destruct (supp_bind _ _ vs (ex_intro _ w Hin)) as [v [_ [w' Hv]]].
      unfold dmap in Hv. apply in_map_iff in Hv. destruct Hv as [[w0 vs0] [Heq Hin0]].
      cbn [fst snd] in Heq. inversion Heq; subst. cbn [List.length]. f_equal. exact (IH _ _ Hin0).
  Qed.

  Lemma exec_simult_values l s : forall t f,
    E (exec_simult law l s t) f = E (values_law l s) (fun vs => f (write_vars (map fst l) vs t)).
  Proof.
    induction l as [|[x r] l IH]; intros t f.
    - cbn. reflexivity.
    - cbn [exec_simult values_law map fst]. rewrite !E_bind. apply E_ext. intros v.
      rewrite E_dmap, IH. reflexivity.
  Qed.

  Lemma assigns1_values l : forall k s s' rest F,
    Forall (fun xr => is_tmp (fst xr) = false /\ wf_rhs (snd xr)) l -> rel s s' ->
    E (pexec_block' (pblock_app (assigns1 l k) rest) s') F =
    E (values_law l s) (fun vs => E (pexec_block' rest (write_tmps k vs s')) F).
  Proof.
    induction l as [|[x r] l IH]; intros k s s' rest F Hwf Hr.
    - cbn [assigns1 pblock_app values_law]. rewrite E_ret. reflexivity.
    - inversion Hwf as [|? ? [_ [Hnt Hm]] Hwf']; subst. cbn [snd] in *.
      cbn [assigns1 pblock_app pexec_block values_law].
      rewrite E_bind, (gplain_sim _ r s s' _ (conj Hnt Hm) Hr), E_bind.
      apply E_ext. intros v. rewrite E_dmap.
      rewrite (IH (S k) s (upd s' (tmp k) v) rest F Hwf' (rel_upd_tmp _ _ _ _ Hr)). reflexivity.
  Qed.

  Lemma assigns2_copy l : forall k a F, E (pexec_block' (assigns2 l k) a) F = F (copy_back l k a).
  Proof.
    induction l as [|[x r] l IH]; intros k a F.
    - cbn [assigns2 pexec_block copy_back]. apply E_ret.
    - cbn [assigns2 pexec_block copy_back].
      rewrite E_bind, pexec_gplain, (sim_sample_unit _ _ (det_unit_mass law _ _)), sample_det, E_ret. apply IH.
  Qed.

  Lemma write_tmps_other vs : forall k a y, (forall j, y <> tmp (k + j)) -> write_tmps k vs a y = a y.
  Proof.
    induction vs as [|v vs IH]; intros k a y Hy; [reflexivity|].
    cbn [write_tmps]. rewrite IH.
    - apply upd_other. specialize (Hy 0%nat). rewrite Nat.add_0_r in Hy. exact Hy.
    - intros j. replace (S k + j)%nat with (k + S j)%nat by lia. apply Hy.
  Qed.

  Lemma write_tmps_nth vs : forall k a i, (i < List.length vs)%nat -> write_tmps k vs a (tmp (k + i)) = nth i vs 0.
  Proof.
    induction vs as [|v vs IH]; intros k a i Hi; [cbn in Hi; lia|].
    cbn [write_tmps]. destruct i as [|i].
    - rewrite Nat.add_0_r. rewrite write_tmps_other.
      + apply upd_same.
      + intros j E. apply tmp_inj in E. lia.
    - replace (k + S i)%nat with (S k + i)%nat by lia. rewrite IH; [reflexivity | cbn in Hi; lia].
  Qed.

  Lemma copy_back_rel l : forall k vs t A,
    List.length vs = List.length l -> Forall (fun xr => is_tmp (fst xr) = false) l ->
    rel t A -> (forall i, (i < List.length l)%nat -> A (tmp (k + i)) = nth i vs 0) ->
    rel (write_vars (map fst l) vs t) (copy_back l k A).
  Proof.
    induction l as [|[x r] l IH]; intros k vs t A Hlen Hnt Hr HA.
    - cbn. destruct vs; exact Hr.
    - destruct vs as [|v vs]; [discriminate|]. inversion Hnt as [|? ? Hx Hnt']; subst. cbn [fst] in Hx.
      cbn [map fst write_vars copy_back].
      assert (Hv : A (tmp k) = v). { specialize (HA 0%nat). rewrite Nat.add_0_r in HA. apply HA. cbn. lia. }
      rewrite Hv. apply IH.
      + cbn in Hlen. lia.
      + exact Hnt'.
      + apply rel_upd. exact Hr.
      + intros i Hi. unfold upd. rewrite var_eqb_sym, (notmp_neq_tmp x (S k + i) Hx).
        replace (S k + i)%nat with (k + S i)%nat by lia. rewrite HA; [reflexivity | cbn; lia].
  Qed.

  Lemma simult_sim l k s s' f :
    Forall (fun xr => is_tmp (fst xr) = false /\ wf_rhs (snd xr)) l -> rel s s' -> respects f ->
    E (pexec_block' (pblock_app (assigns1 l k) (assigns2 l k)) s') f = E (exec_simult law l s s) f.
  Proof.
    intros Hwf Hr Hf. rewrite (assigns1_values l k s s' _ f Hwf Hr), exec_simult_values.
    apply E_ext_in. intros w vs Hin. rewrite assigns2_copy. symmetry. apply Hf.
    apply copy_back_rel.
    - exact (values_law_length _ _ _ _ Hin).
    - exact (Forall_impl _ (fun xr H => proj1 H) Hwf).
    - intros y Hy. rewrite write_tmps_other; [apply Hr; exact Hy|].
      intros j ->. rewrite is_tmp_tmp in Hy. discriminate.
    - intros i Hi. apply write_tmps_nth. rewrite (values_law_length _ _ _ _ Hin). exact Hi.
  Qed.

  (* [P], run on the parsed program, simulates [D], run on the source: from states that agree off
     the temporaries they have the same law under every observable that ignores temporaries *)
  Definition sim_ok (P D : state -> dist state) : Prop :=
    forall s s' f, rel s s' -> respects f -> E (P s') f = E (D s) f.

  Lemma sim_ok_respects P D f : sim_ok P D -> respects f -> respects (fun a => E (P a) f).
  Proof.
    intros H Hf a a' Hr. rewrite (H a a f (rel_refl a) Hf), (H a a' f Hr Hf). reflexivity.
  Qed.

  Lemma sim_ok_seq P1 D1 P2 D2 : sim_ok P1 D1 -> sim_ok P2 D2 ->
    forall s s' f, rel s s' -> respects f -> E (P1 s') (fun a => E (P2 a) f) = E (D1 s) (fun a => E (D2 a) f).
  Proof.
    intros H1 H2 s s' f Hr Hf. rewrite (H1 s s' _ Hr (sim_ok_respects P2 D2 f H2 Hf)).
    apply E_ext. intros a. exact (H2 a a f (rel_refl a) Hf).
  Qed.

  (* statements and blocks are simulated by their parsed blocks, at every counter; for an if/elif
     chain followed by any simulated else part, the block the simulator selects in the parsed chain
     simulates the first source branch whose condition holds, or else that part *)
  Lemma parse_sim :
    (forall st, wf_stmt st -> forall k, sim_ok (pexec_block' (fst (parse_stmt st k))) (exec_stmt law st)) /\
    (forall b, wf_block b -> forall k, sim_ok (pexec_block' (fst (parse_block b k))) (exec_block law b)) /\
    (forall bs, wf_branches bs -> forall k pels dels, sim_ok (pexec_block' pels) dels ->
       sim_ok (fun a => pexec_block' (selected (fst (parse_branches bs k)) pels a) a)
              (fun a => match exec_branches law bs a with Some d => d | None => dels a end)).
  Proof.
    apply stmt_block_branches_ind.
    - intros x r [Hx Hwf] k s s' f Hr Hf. cbn [parse_stmt fst].
      rewrite pexec_single, E_assign. cbn [pexec_stmt]. rewrite (gplain_sim x r s s' f Hwf Hr).
      apply E_ext. intros v. symmetry. apply Hf, rel_upd, Hr.
    - intros l Hwf k s s' f Hr Hf. cbn [parse_stmt fst exec_stmt]. apply simult_sim; assumption.
    - intros bs IHbs els IHels [Hwb Hwe] k s s' f Hr Hf.
      rewrite parse_stmt_if, exec_stmt_if, pexec_single, pexec_if_first_match.
      exact (IHbs Hwb k _ _ (IHels Hwe _) s s' f Hr Hf).
    - intros _ k s s' f Hr Hf. cbn [parse_block fst pexec_block exec_block]. rewrite !E_ret. symmetry. apply Hf. exact Hr.
    - intros st IHst b IHb [Hws Hwb] k s s' f Hr Hf.
      rewrite parse_block_cons, pexec_block_app, exec_block_cons, E_bind.
      exact (sim_ok_seq _ _ _ _ (IHst Hws k) (IHb Hwb _) s s' f Hr Hf).
    - intros _ k pels dels Hok. exact Hok.
    - intros c b IHb bs IHbs [Hc [Hwb Hwbs]] k pels dels Hok s s' f Hr Hf.
      rewrite parse_branches_cons, exec_branches_cons. unfold selected. cbn [first_match].
      rewrite <- (holds_rel c s s' Hc Hr). destruct (holds c s).
      + exact (IHb Hwb k s s' f Hr Hf).
      + exact (IHbs Hwbs _ pels dels Hok s s' f Hr Hf).
  Qed.

  Lemma piter_sim p k : wf_prog p -> sim_ok (piter sim_sample (parse_prog p k)) (iter law p).
  Proof.
    intros [_ [Hg Hb]] s s' f Hr Hf. unfold piter, iter. rewrite parse_prog_eq. cbn [pp_guard pp_body].
    rewrite <- (holds_rel _ s s' Hg Hr). destruct (holds (p_guard p) s).
    - exact (proj1 (proj2 parse_sim) _ Hb _ s s' f Hr Hf).
    - rewrite !E_ret. symmetry. apply Hf. exact Hr.
  Qed.

  Lemma prun_sim p k n : wf_prog p -> sim_ok (prun sim_sample (parse_prog p k) n) (run law p n).
  Proof.
    intros Hwf. induction n as [|n IH]; intros s s' f Hr Hf.
    - cbn [prun run]. rewrite parse_prog_eq. exact (proj1 (proj2 parse_sim) _ (proj1 Hwf) k s s' f Hr Hf).
    - cbn [prun run]. rewrite !E_bind. exact (sim_ok_seq _ _ _ _ IH (piter_sim p k Hwf) s s' f Hr Hf).
  Qed.

  Theorem simulator_transcription_is_S (p : prog) (k n : nat) (s0 : state) (f : state -> Qc) :
    wf_prog p -> respects f ->
    E (law_of (enum_run sim_sample (parse_prog p k) n s0)) f = E (run law p n s0) f.
  Proof.
    intros Hwf Hf. rewrite enum_run_law. exact (prun_sim p k n Hwf s0 s0 f (rel_refl s0) Hf).
  Qed.

  (* frozen-state lemma of the reference semantics *)
  Lemma iter_frozen p s : holds (p_guard p) s = false -> iter law p s = ret s.
  Proof. unfold iter. intros ->. reflexivity. Qed.
End WithLaw.

(* observables: monomials over source variables *)
Fixpoint mono_notmp (m : mono) : Prop :=
  match m with [] => True | (x, _) :: m' => is_tmp x = false /\ mono_notmp m' end.
Lemma eval_mono_respects m : mono_notmp m -> respects (eval_mono m).
Proof.
  intros H s s' Hr. induction m as [|[x k] m IH]; [reflexivity|].
  destruct H as [Hx Hm]. cbn [eval_mono]. rewrite (Hr x Hx), (IH Hm). reflexivity.
Qed.

Lemma cop_refl (x : Qc) : cop_holds Cge x x = true /\ cop_holds Cle x x = true.
Proof.
  unfold cop_holds, Qc_leb. assert (H : (x ?= x) = Eq) by (apply Qceq_alt; reflexivity). rewrite H. split; reflexivity.
Qed.
