(* C13 — algebra behind FunctionalAssignment.get_trig_moment / get_exp_moment.
   Everything here is over an arbitrary commutative ring [R : cring] (so in particular over
   the complex numbers, over Q(i)[z, 1/z], ...): powers, the integer embedding, finite sums,
   the binomial theorem, the product-to-sum identity, finite integer-supported laws with their
   characteristic / moment generating functions as FORMAL exponential sums (lists of
   (coefficient, frequency)) with formal t-derivatives, the "Python runtime" used by the
   generated file gen/FuncGen.v (string-keyed dicts, the dispatch result type). *)
From Coq Require Import List ZArith Lia Arith Bool String Ring Ring_theory InitialRing.
From Polar Require Import CRing Stats.
Import ListNotations.

(* func_powers : Dict[str, int] with non-negative powers *)
Definition fdict := list (string * nat).
Fixpoint fmem (k : string) (d : fdict) : bool :=
  match d with [] => false | (k', _) :: d' => if String.eqb k k' then true else fmem k d' end.
Fixpoint fget (k : string) (d : fdict) : nat :=
  match d with [] => O | (k', v) :: d' => if String.eqb k k' then v else fget k d' end.
(* func_powers[k] if k in func_powers else 0 *)
Definition fget_default (k : string) (d : fdict) : nat := if fmem k d then fget k d else O.

Lemma fget_default_eq k d : fget_default k d = fget k d.
Proof.
  unfold fget_default. induction d as [|[k' v] d IH]; [reflexivity|]. cbn [fmem fget].
  destruct (String.eqb k k'); [reflexivity | exact IH].
Qed.

(* what get_func_moment does with a request *)
Inductive dispatch : Type :=
| DRaise (msg : string)          (* raise FunctionalAssignmentException(msg) *)
| DTrig                          (* return cls.get_trig_moment(dist, func_powers) *)
| DExp.                          (* return cls.get_exp_moment(dist, func_powers) *)
Definition is_raise (d : dispatch) : bool := match d with DRaise _ => true | _ => false end.

Section FuncRing.
  Variable R : cring.
  Add Ring Rr : (rth R).
  Local Open Scope cr_scope.

  Fixpoint rpow (x : R) (n : nat) : R := match n with O => r1 | S n => x * rpow x n end.
  Definition zr (z : Z) : R := gen_phiZ (@r0 R) r1 radd rmul ropp z.

  Let zmorph := gen_phiZ_morph (@Eqsth R) (Eq_ext _ _ _) (rth R).
  Lemma zr_add x y : zr (x + y) = zr x + zr y. Proof. exact (morph_add zmorph x y). Qed.
  Lemma zr_mul x y : zr (x * y) = zr x * zr y. Proof. exact (morph_mul zmorph x y). Qed.
  Lemma zr_opp x : zr (- x) = - zr x. Proof. exact (morph_opp zmorph x). Qed.
  Lemma zr_sub x y : zr (x - y) = zr x - zr y. Proof. exact (morph_sub zmorph x y). Qed.
  Lemma zr_0 : zr 0 = r0. Proof. exact (morph0 zmorph). Qed.
  Lemma zr_1 : zr 1 = r1. Proof. exact (morph1 zmorph). Qed.
  Lemma zr_m1 : zr (-1) = - r1. Proof. change (-1)%Z with (- (1))%Z. rewrite zr_opp, zr_1. reflexivity. Qed.

  Lemma rpow_S x n : rpow x (S n) = x * rpow x n. Proof. reflexivity. Qed.
  Lemma rpow_add x n m : rpow x (n + m) = rpow x n * rpow x m.
  Proof. induction n as [|n IH]; cbn [rpow Nat.add]; [ring | rewrite IH; ring]. Qed.
  Lemma rpow_mul_base x y n : rpow (x * y) n = rpow x n * rpow y n.
  Proof. induction n as [|n IH]; cbn [rpow]; [ring | rewrite IH; ring]. Qed.
  Lemma rpow_1 n : rpow r1 n = r1.
  Proof. induction n as [|n IH]; cbn [rpow]; [reflexivity | rewrite IH; ring]. Qed.
  Lemma rpow_opp x n : rpow (- x) n = rpow (- r1) n * rpow x n.
  Proof. rewrite <- rpow_mul_base. f_equal. ring. Qed.
  Lemma zr_pow a n : zr (a ^ Z.of_nat n) = rpow (zr a) n.
  Proof.
    induction n as [|n IH]; [exact zr_1|].
    rewrite Nat2Z.inj_succ, Z.pow_succ_r by lia. rewrite zr_mul, IH. reflexivity.
  Qed.

  Definition rsum {A} (l : list A) (f : A -> R) : R := fold_right (fun a acc => f a + acc) r0 l.
  Lemma rsum_nil {A} (f : A -> R) : rsum [] f = r0. Proof. reflexivity. Qed.
  Lemma rsum_cons {A} x (l : list A) f : rsum (x :: l) f = f x + rsum l f. Proof. reflexivity. Qed.
  Lemma rsum_app {A} (l1 l2 : list A) f : rsum (l1 ++ l2) f = rsum l1 f + rsum l2 f.
  Proof. induction l1 as [|x l1 IH]; cbn [app]; rewrite ?rsum_cons, ?rsum_nil; [ring | rewrite IH; ring]. Qed.
  Lemma rsum_ext {A} (l : list A) f g : (forall x, In x l -> f x = g x) -> rsum l f = rsum l g.
  Proof.
    induction l as [|x l IH]; intros H; [reflexivity|]. rewrite !rsum_cons.
    rewrite H by (left; reflexivity). rewrite IH; [reflexivity|]. intros y Hy. apply H. right. exact Hy.
  Qed.
  Lemma rsum_add {A} (l : list A) f g : rsum l (fun x => f x + g x) = rsum l f + rsum l g.
  Proof. induction l as [|x l IH]; rewrite ?rsum_nil, ?rsum_cons; [ring | rewrite IH; ring]. Qed.
  Lemma rsum_scal {A} (l : list A) c f : rsum l (fun x => c * f x) = c * rsum l f.
  Proof. induction l as [|x l IH]; rewrite ?rsum_nil, ?rsum_cons; [ring | rewrite IH; ring]. Qed.
  Lemma rsum_scal_r {A} (l : list A) c f : rsum l (fun x => f x * c) = rsum l f * c.
  Proof. induction l as [|x l IH]; rewrite ?rsum_nil, ?rsum_cons; [ring | rewrite IH; ring]. Qed.
  Lemma rsum_zero {A} (l : list A) : rsum l (fun _ => r0) = r0.
  Proof. induction l as [|x l IH]; rewrite ?rsum_nil, ?rsum_cons; [ring | rewrite IH; ring]. Qed.
  Lemma rsum_map {A B} (h : A -> B) (l : list A) f : rsum (map h l) f = rsum l (fun x => f (h x)).
  Proof. induction l as [|x l IH]; cbn [map]; rewrite ?rsum_nil, ?rsum_cons; [reflexivity | rewrite IH; reflexivity]. Qed.
  Lemma rsum_swap {A B} (l1 : list A) (l2 : list B) (f : A -> B -> R) :
    rsum l1 (fun x => rsum l2 (fun y => f x y)) = rsum l2 (fun y => rsum l1 (fun x => f x y)).
  Proof.
    induction l1 as [|x l1 IH].
    - rewrite rsum_nil. symmetry. apply rsum_zero.
    - rewrite rsum_cons, IH. rewrite <- rsum_add. apply rsum_ext. intros y _. rewrite rsum_cons. reflexivity.
  Qed.
  Lemma rsum_mul {A B} (l1 : list A) (l2 : list B) f g :
    rsum l1 f * rsum l2 g = rsum l1 (fun x => rsum l2 (fun y => f x * g y)).
  Proof.
    rewrite <- rsum_scal_r. apply rsum_ext. intros x _. rewrite <- rsum_scal. reflexivity.
  Qed.
  (* accumulation loops  result = step result x  whose step adds a term, singly and nested *)
  Lemma fold_left_step {A} (step : R -> A -> R) (G : A -> R) l init :
    (forall acc x, step acc x = acc + G x) -> fold_left step l init = init + rsum l G.
  Proof.
    intros H. revert init. induction l as [|x l IH]; intros init; cbn [fold_left].
    - rewrite rsum_nil. ring.
    - rewrite IH, H, rsum_cons. ring.
  Qed.
  Lemma fold_left_step2 {A B} (step : R -> A -> B -> R) (G : A -> B -> R) l1 l2 init :
    (forall acc x y, step acc x y = acc + G x y) ->
    fold_left (fun acc x => fold_left (fun acc y => step acc x y) l2 acc) l1 init
    = init + rsum l1 (fun x => rsum l2 (G x)).
  Proof. intros H. apply fold_left_step. intros acc x. apply fold_left_step. intros acc' y. apply H. Qed.
  Lemma fold_left_radd {A} (l : list A) (f : A -> R) init :
    fold_left (fun acc x => acc + f x) l init = init + rsum l f.
  Proof. apply fold_left_step. reflexivity. Qed.
  Lemma rsum_seq_first m (f : nat -> R) :
    rsum (seq 0 (S m)) f = f O + rsum (seq 0 m) (fun j => f (S j)).
  Proof. cbn [seq]. rewrite rsum_cons. rewrite <- seq_shift, rsum_map. reflexivity. Qed.
  Lemma rsum_seq_last m (f : nat -> R) : rsum (seq 0 (S m)) f = rsum (seq 0 m) f + f m.
  Proof. rewrite seq_S, rsum_app, rsum_cons, rsum_nil. cbn [Nat.add]. ring. Qed.

  Definition br (n k : nat) : R := zr (binom n k).
  Lemma br_S n k : br (S n) (S k) = br n k + br n (S k).
  Proof. unfold br. rewrite binom_S, zr_add. reflexivity. Qed.
  Lemma br_0_r n : br n 0 = r1. Proof. unfold br. rewrite binom_0_r. exact zr_1. Qed.
  Lemma br_gt n k : (n < k)%nat -> br n k = r0.
  Proof. intros H. unfold br. rewrite binom_gt by exact H. exact zr_0. Qed.

  (* Pascal's rule for the j+1-st term of the expansion of (x + y)^(n+1); at j >= n the last term vanishes *)
  Lemma binterm_S x y n j :
    br (S n) (S j) * rpow x (S j) * rpow y (S n - S j)
    = x * (br n j * rpow x j * rpow y (n - j)) + y * (br n (S j) * rpow x (S j) * rpow y (n - S j)).
  Proof.
    rewrite br_S. cbn [Nat.sub]. destruct (le_lt_dec n j) as [H|H].
    - rewrite (br_gt n (S j)) by lia. cbn [rpow]. ring.
    - replace (n - j)%nat with (S (n - S j)) by lia. cbn [rpow]. ring.
  Qed.

  Theorem binomial_theorem_ring x y n :
    rpow (x + y) n = rsum (seq 0 (S n)) (fun j => br n j * rpow x j * rpow y (n - j)).
  Proof.
    induction n as [|n IH].
    - cbn [seq]. rewrite rsum_cons, rsum_nil, br_0_r. cbn [rpow Nat.sub]. ring.
    - rewrite rpow_S, IH, (rsum_seq_first (S n)).
      rewrite (rsum_ext (seq 0 (S n)) _ _ (fun j _ => binterm_S x y n j)), rsum_add, !rsum_scal.
      (* the y-sum has one term more than the sum of the induction hypothesis without its first: j = n, where C(n, n+1) = 0 *)
      rewrite (rsum_seq_last n (fun j => br n (S j) * rpow x (S j) * rpow y (n - S j))), (br_gt n (S n)) by lia.
      rewrite (rsum_seq_first n (fun j => br n j * rpow x j * rpow y (n - j))).
      rewrite !br_0_r, !Nat.sub_0_r. cbn [rpow]. ring.
  Qed.

  Corollary binomial_theorem_minus x y n :
    rpow (x - y) n
    = rsum (seq 0 (S n)) (fun j => br n j * rpow (- r1) (n - j) * rpow x j * rpow y (n - j)).
  Proof.
    replace (x - y) with (x + - y) by ring. rewrite binomial_theorem_ring.
    apply rsum_ext. intros j _. rewrite (rpow_opp y). ring.
  Qed.

  (* the product-to-sum identity, as a pure ring identity (no hypothesis on z, zb):
     (z - zb)^b (z + zb)^c = sum_{k1<=c} sum_{k2<=b} C(c,k1) C(b,k2) (-1)^(b-k2) z^(k1+k2) zb^((b+c)-(k1+k2)) *)
  Theorem prod_to_sum_ring (z zb : R) (b c : nat) :
    rpow (z - zb) b * rpow (z + zb) c
    = rsum (seq 0 (S c)) (fun k1 => rsum (seq 0 (S b)) (fun k2 =>
        br c k1 * br b k2 * rpow (- r1) (b - k2) * (rpow z (k1 + k2) * rpow zb ((b + c) - (k1 + k2))))).
  Proof.
    rewrite binomial_theorem_minus, binomial_theorem_ring.
    rewrite rsum_mul. rewrite rsum_swap. apply rsum_ext. intros k1 H1. apply rsum_ext. intros k2 H2.
    apply in_seq in H1. apply in_seq in H2.
    replace ((b + c) - (k1 + k2))%nat with ((b - k2) + (c - k1))%nat by lia.
    rewrite !rpow_add. ring.
  Qed.

  (* Exponentials of integer multiples: a homomorphism e from (Z,+) to (R,x);
     e m stands for exp(i m) (trigonometric case) or exp(m) (exponential case). *)
  Section Hom.
    Variable e : Z -> R.
    Hypothesis e_0 : e 0%Z = r1.
    Hypothesis e_add : forall m n, e (m + n)%Z = e m * e n.

    Lemma e_inv m : e m * e (- m)%Z = r1.
    Proof. rewrite <- e_add. replace (m + - m)%Z with 0%Z by lia. exact e_0. Qed.
    Lemma e_natmul k v : e (Z.of_nat k * v)%Z = rpow (e v) k.
    Proof.
      induction k as [|k IH]; [exact e_0|].
      replace (Z.of_nat (S k) * v)%Z with (v + Z.of_nat k * v)%Z by lia.
      rewrite e_add, IH. reflexivity.
    Qed.
    Lemma e_diff k l v : e ((Z.of_nat k - Z.of_nat l) * v)%Z = rpow (e v) k * rpow (e (- v)%Z) l.
    Proof.
      replace ((Z.of_nat k - Z.of_nat l) * v)%Z with (Z.of_nat k * v + Z.of_nat l * (- v))%Z by lia.
      rewrite e_add, !e_natmul. reflexivity.
    Qed.
    Lemma e_pow_mul c v : e (Z.of_nat c * v)%Z = rpow (e v) c.
    Proof. exact (e_natmul c v). Qed.
  End Hom.

  (* Formal exponential sums  t |-> sum_j c_j E^(u t v_j)  and their t-derivatives.
     u is the unit in the exponent: the imaginary unit for a characteristic function,
     1 for a moment generating function.  d/dt (c E^(u t v)) = (c u v) E^(u t v). *)
  Definition esum := list (R * Z).
  Definition ederiv (u : R) (s : esum) : esum := map (fun cv => (fst cv * (u * zr (snd cv)), snd cv)) s.
  Fixpoint ederivn (u : R) (a : nat) (s : esum) : esum :=
    match a with O => s | S a' => ederiv u (ederivn u a' s) end.
  (* value at the integer point t = m, e m standing for E^(u m) *)
  Definition eeval (e : Z -> R) (s : esum) (m : Z) : R := rsum s (fun cv => fst cv * e (m * snd cv)%Z).

  (* coefficient c becomes c (u v)^a *)
  Lemma ederivn_map u a s :
    ederivn u a s = map (fun cv => (fst cv * rpow (u * zr (snd cv)) a, snd cv)) s.
  Proof.
    induction a as [|a IH]; cbn [ederivn].
    - rewrite <- (map_id s) at 1. apply map_ext. intros [c v]. cbn [fst snd rpow]. f_equal. ring.
    - rewrite IH. unfold ederiv. rewrite map_map. apply map_ext. intros [c v]. cbn [fst snd rpow].
      f_equal. ring.
  Qed.
  Lemma eeval_ederivn e u a s m :
    eeval e (ederivn u a s) m = rsum s (fun cv => fst cv * rpow (u * zr (snd cv)) a * e (m * snd cv)%Z).
  Proof. rewrite ederivn_map. unfold eeval. rewrite rsum_map. reflexivity. Qed.

  (* Finite integer-supported laws: a law is a list of (probability, integer value); as a formal
     exponential sum it IS its characteristic function  t |-> sum_j p_j E^(i t v_j)  (and its mgf with u = 1). *)
  Definition zlaw := list (R * Z).
  (* the defining expectation  E[g(X)] = sum_j p_j g(v_j) *)
  Definition Ez (L : zlaw) (g : Z -> R) : R := rsum L (fun pv => fst pv * g (snd pv)).
  (* dist.cf(m) / dist.mgf(m) and diff(dist.cf(t), t, a).xreplace({t: m}) *)
  Definition tf_of (e : Z -> R) (L : zlaw) (m : Z) : R := eeval e L m.
  Definition dtf_of (e : Z -> R) (u : R) (L : zlaw) (a : nat) (m : Z) : R := eeval e (ederivn u a L) m.

  Lemma Ez_ext L g h : (forall v, g v = h v) -> Ez L g = Ez L h.
  Proof. intros H. apply rsum_ext. intros pv _. rewrite H. reflexivity. Qed.
  Lemma Ez_scal L c g : Ez L (fun v => c * g v) = c * Ez L g.
  Proof. unfold Ez. rewrite <- rsum_scal. apply rsum_ext. intros pv _. ring. Qed.
  Lemma Ez_rsum {A} L (l : list A) (f : A -> Z -> R) :
    Ez L (fun v => rsum l (fun k => f k v)) = rsum l (fun k => Ez L (f k)).
  Proof. unfold Ez. rewrite rsum_swap. apply rsum_ext. intros pv _. symmetry. apply rsum_scal. Qed.

  Lemma dtf_of_0 e u L m : dtf_of e u L 0 m = tf_of e L m. Proof. reflexivity. Qed.
  (* `dist.cf(m) if a == 0 else diff(dist.cf(t), t, a).xreplace({t: m})` *)
  Lemma dtf_of_if e u L a m : (if (a =? 0)%nat then tf_of e L m else dtf_of e u L a m) = dtf_of e u L a m.
  Proof. destruct (Nat.eqb_spec a 0) as [->|_]; reflexivity. Qed.
  Lemma dtf_of_eq e u L a m :
    dtf_of e u L a m = Ez L (fun v => rpow (u * zr v) a * e (m * v)%Z).
  Proof. unfold dtf_of, Ez. rewrite eeval_ederivn. apply rsum_ext. intros pv _. ring. Qed.

End FuncRing.

Arguments rpow {R} _ _.
Arguments zr {R} _.
Arguments rsum {R A} _ _.
Arguments br {R} _ _.
Arguments Ez {R} _ _.
Arguments tf_of {R} _ _ _.
Arguments dtf_of {R} _ _ _ _ _.
Arguments eeval {R} _ _ _.
Arguments ederivn {R} _ _ _.
Arguments ederiv {R} _ _.
