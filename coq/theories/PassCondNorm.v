(* C02, pass ConditionsNormalizer (program/transformer/conditions_normalizer.py,
   Atom/And/Or/Not.get_normalized in program/condition/*.py, utils/conditions.get_valid_values).

   Given the inferred finite types T, a reduced atom  x cop c  over a finitely typed x is
   replaced by  False  /  x == v  /  ((x == v1 \/ x == v2) \/ ...)  for the values v of T(x)
   with  v cop c ; And/Or/Not recurse, true/false stay.  The Bernoulli abstraction of atoms
   over variables WITHOUT a finite type (_try_abstract_failed_condition) is OUT of the model:
   [cn_cond] returns None there, as it does for a non-reduced atom (Polar raises
   NormalizingException).

   Theorems: on typed states the normalised condition has the same truth value; the truth
   value of an Or-chain does not depend on the order of its values (Python set pop order);
   for a flat program whose types are validated (Types.check_types) the normalised program
   has the same law at every iteration, for EVERY function of the state. *)
From Coq Require Import List String QArith Qcanon ZArith Bool Permutation.
From Polar Require Import Qcx Dist Syntax Sem Types PassGuard.
Import ListNotations.
Local Open Scope Qc_scope.

Definition eq_atom (x : var) (v : Qc) : cond := CAtom (EVar x) Ceq (EConst v).

(* result = Atom(x == pop()); for v in rest: result = Or(result, Atom(x == v)) *)
Definition or_chain (x : var) (vs : list Qc) : cond :=
  match vs with
  | [] => CFalse
  | v :: vs' => fold_left (fun acc w => COr acc (eq_atom x w)) vs' (eq_atom x v)
  end.

(* utils/conditions.get_valid_values: {v in possible_values | v cop c} *)
Definition valid_values (vs : list Qc) (o : cop) (c : Qc) : list Qc :=
  filter (fun v => cop_holds o v c) vs.

Definition is_int (q : Qc) : bool := Pos.eqb (qden q) 1.

(* Atom.get_normalized; is_reduced = poly1.is_Symbol and poly2.is_Integer *)
Definition cn_atom (T : tenv) (a : expr) (o : cop) (b : expr) : option cond :=
  match a, b with
  | EVar x, EConst c =>
      if is_int c then
        match tlookup T x with
        | Some vs => Some (or_chain x (valid_values vs o c))
        | None => None            (* failed atom -> Bernoulli abstraction: not modelled *)
        end
      else None                   (* not reduced: NormalizingException *)
  | _, _ => None                  (* not reduced: NormalizingException *)
  end.

Fixpoint cn_cond (T : tenv) (c : cond) : option cond :=
  match c with
  | CTrue => Some CTrue
  | CFalse => Some CFalse
  | CAtom a o b => cn_atom T a o b
  | CNot c1 => match cn_cond T c1 with Some d => Some (CNot d) | None => None end
  | CAnd c1 c2 =>
      match cn_cond T c1, cn_cond T c2 with Some d1, Some d2 => Some (CAnd d1 d2) | _, _ => None end
  | COr c1 c2 =>
      match cn_cond T c1, cn_cond T c2 with Some d1, Some d2 => Some (COr d1 d2) | _, _ => None end
  end.

Definition cn_ga (T : tenv) (g : gassign) : option gassign :=
  match cn_cond T (ga_cond g) with
  | Some c => Some {| ga_var := ga_var g; ga_cond := c; ga_default := ga_default g; ga_rhs := ga_rhs g |}
  | None => None
  end.

Fixpoint cn_gas (T : tenv) (l : list gassign) : option (list gassign) :=
  match l with
  | [] => Some []
  | g :: l' =>
      match cn_ga T g, cn_gas T l' with Some g', Some l'' => Some (g' :: l'') | _, _ => None end
  end.

(* ConditionsNormalizer.execute: initial block, then loop body *)
Definition cn_pass (T : tenv) (fp : flatprog) : option flatprog :=
  match cn_gas T (fp_init fp), cn_gas T (fp_body fp) with
  | Some i, Some b => Some {| fp_init := i; fp_body := b |}
  | _, _ => None
  end.

Lemma holds_chain_acc x s vs acc :
  holds (fold_left (fun a w => COr a (eq_atom x w)) vs acc) s = holds acc s || mem (s x) vs.
Proof.
  revert acc; induction vs as [|v vs IH]; intros acc; cbn [fold_left mem].
  - rewrite orb_false_r; reflexivity.
  - rewrite IH. cbn [holds eq_atom eval cop_holds]. rewrite orb_assoc. reflexivity.
Qed.

Theorem holds_or_chain x vs s : holds (or_chain x vs) s = mem (s x) vs.
Proof.
  destruct vs as [|v vs]; [reflexivity|].
  unfold or_chain. rewrite holds_chain_acc. reflexivity.
Qed.

(* the indicator of an Or-chain depends on the SET of its values only: Python's set pop /
   iteration order is semantically irrelevant *)
Theorem or_chain_order_irrelevant x vs vs' :
  (forall v, In v vs <-> In v vs') -> forall s, holds (or_chain x vs) s = holds (or_chain x vs') s.
Proof.
  intros H s. rewrite !holds_or_chain. apply eq_true_iff_eq.
  split; intros Hm; apply mem_complete, H, mem_In, Hm.
Qed.

Corollary or_chain_perm x vs vs' :
  Permutation vs vs' -> forall s, holds (or_chain x vs) s = holds (or_chain x vs') s.
Proof.
  intros P. apply or_chain_order_irrelevant. intros v.
  split; apply Permutation_in; [exact P | apply Permutation_sym, P].
Qed.

Lemma mem_valid_values q vs o c : In q vs -> mem q (valid_values vs o c) = cop_holds o q c.
Proof.
  intros Hin. apply eq_true_iff_eq. unfold valid_values. split.
  - intros Hm. apply mem_In, filter_In in Hm. exact (proj2 Hm).
  - intros Hc. apply mem_complete, filter_In. split; assumption.
Qed.

Lemma cn_cond_some_ind T (P : cond -> cond -> Prop) :
  P CTrue CTrue -> P CFalse CFalse ->
  (forall x o q vs, is_int q = true -> tlookup T x = Some vs ->
     P (CAtom (EVar x) o (EConst q)) (or_chain x (valid_values vs o q))) ->
  (forall c d, P c d -> P (CNot c) (CNot d)) ->
  (forall c1 d1 c2 d2, P c1 d1 -> P c2 d2 -> P (CAnd c1 c2) (CAnd d1 d2)) ->
  (forall c1 d1 c2 d2, P c1 d1 -> P c2 d2 -> P (COr c1 c2) (COr d1 d2)) ->
  forall c c', cn_cond T c = Some c' -> P c c'.
Proof.
  intros Ht Hf Ha Hn Hand Hor.
  induction c as [| |a o b|c1 IH|c1 IH1 c2 IH2|c1 IH1 c2 IH2]; cbn [cn_cond]; intros c' H.
  - injection H as <-. exact Ht.
  - injection H as <-. exact Hf.
  - unfold cn_atom in H. destruct a as [|x| | |]; try discriminate. destruct b as [q| | | |]; try discriminate.
    destruct (is_int q) eqn:Ei; [|discriminate].
    destruct (tlookup T x) as [vs|] eqn:Ex; [|discriminate]. injection H as <-. apply Ha; assumption.
  - destruct (cn_cond T c1) as [d|]; [|discriminate]. injection H as <-. apply Hn, IH. reflexivity.
  - destruct (cn_cond T c1) as [d1|]; [|discriminate]. destruct (cn_cond T c2) as [d2|]; [|discriminate].
    injection H as <-. apply Hand; [apply IH1 | apply IH2]; reflexivity.
  - destruct (cn_cond T c1) as [d1|]; [|discriminate]. destruct (cn_cond T c2) as [d2|]; [|discriminate].
    injection H as <-. apply Hor; [apply IH1 | apply IH2]; reflexivity.
Qed.

Theorem cn_cond_sound T c c' s : typed T s -> cn_cond T c = Some c' -> holds c' s = holds c s.
Proof.
  intros HT. revert c c'. apply (cn_cond_some_ind T (fun c c' => holds c' s = holds c s)); cbn [holds].
  - reflexivity.
  - reflexivity.
  - intros x o q vs _ Ex. rewrite holds_or_chain. apply mem_valid_values, (HT x vs Ex).
  - intros c d ->. reflexivity.
  - intros c1 d1 c2 d2 -> ->. reflexivity.
  - intros c1 d1 c2 d2 -> ->. reflexivity.
Qed.

(* normalising an already normalised condition changes nothing semantically and the result
   is again normal (Polar normalises shared And/Or/Not objects once per sharing assignment) *)
Fixpoint is_normal (c : cond) : bool :=
  match c with
  | CTrue | CFalse => true
  | CAtom (EVar _) Ceq (EConst _) => true
  | CAtom _ _ _ => false
  | CNot c1 => is_normal c1
  | CAnd c1 c2 | COr c1 c2 => is_normal c1 && is_normal c2
  end.

Lemma or_chain_acc_normal x vs acc :
  is_normal acc = true -> is_normal (fold_left (fun a w => COr a (eq_atom x w)) vs acc) = true.
Proof.
  revert acc; induction vs as [|v vs IH]; intros acc H; cbn [fold_left]; [exact H|].
  apply IH. cbn [is_normal eq_atom]. rewrite H. reflexivity.
Qed.

Theorem cn_cond_normal T c c' : cn_cond T c = Some c' -> is_normal c' = true.
Proof.
  revert c c'. apply (cn_cond_some_ind T (fun _ c' => is_normal c' = true)); cbn [is_normal].
  - reflexivity.
  - reflexivity.
  - intros x o q vs _ _. unfold or_chain. destruct (valid_values vs o q) as [|v l]; [reflexivity|].
    apply or_chain_acc_normal. reflexivity.
  - intros _ d H. exact H.
  - intros _ d1 _ d2 -> ->. reflexivity.
  - intros _ d1 _ d2 -> ->. reflexivity.
Qed.

Lemma cn_gas_Forall2 T l l' : cn_gas T l = Some l' -> Forall2 (fun g g' => cn_ga T g = Some g') l l'.
Proof.
  revert l'; induction l as [|g l IH]; cbn [cn_gas]; intros l' H.
  - injection H as <-. constructor.
  - destruct (cn_ga T g) as [g'|] eqn:Eg; [|discriminate].
    destruct (cn_gas T l) as [l''|]; [|discriminate]. injection H as <-.
    constructor; [exact Eg | apply IH; reflexivity].
Qed.

Lemma cn_pass_some T fp fp' : cn_pass T fp = Some fp' ->
  cn_gas T (fp_init fp) = Some (fp_init fp') /\ cn_gas T (fp_body fp) = Some (fp_body fp').
Proof.
  unfold cn_pass. destruct (cn_gas T (fp_init fp)) as [i|]; [|discriminate].
  destruct (cn_gas T (fp_body fp)) as [b|]; [|discriminate]. intros [= <-]. split; reflexivity.
Qed.

Section CondNorm.
  Variable law : string -> list Qc -> dist Qc.

  Lemma cn_ga_exec T g g' s : typed T s -> cn_ga T g = Some g' -> exec_ga law g' s = exec_ga law g s.
  Proof.
    unfold cn_ga. intros HT H. destruct (cn_cond T (ga_cond g)) as [c|] eqn:Ec; [|discriminate].
    injection H as <-. unfold exec_ga. cbn [ga_cond ga_var ga_default ga_rhs].
    rewrite (cn_cond_sound T _ _ s HT Ec). reflexivity.
  Qed.

  Lemma cn_ga_check T g g' : cn_ga T g = Some g' -> check_ga T g = true -> ga_var g' = ga_var g.
  Proof.
    unfold cn_ga. destruct (cn_cond T (ga_cond g)); intros H _; [injection H as <-; reflexivity | discriminate].
  Qed.

  (* a block whose intermediate states stay typed (validated types) *)
  Lemma cn_gas_exec T l l' :
    cn_gas T l = Some l' -> forallb (check_ga T) l = true ->
    forall s, typed T s -> exec_gas law l' s = exec_gas law l s.
  Proof.
    intros H. apply cn_gas_Forall2 in H.
    induction H as [|g g' l l' Eg _ IH]; cbn [forallb exec_gas]; intros Hc s HT; [reflexivity|].
    apply andb_true_iff in Hc as [Hg Hl]. rewrite (cn_ga_exec T g g' s HT Eg).
    apply bind_ext_in. intros w s1 Hin.
    apply (IH Hl s1), (check_ga_sound law T g s Hg HT). exists w; exact Hin.
  Qed.

  (* the initial block: validated types force its conditions to be literally true *)
  Lemma init_env_true D L l L' : init_env D L l = Some L' -> forall g, In g l -> ga_cond g = CTrue.
  Proof.
    revert L; induction l as [|g l IH]; cbn [init_env]; intros L H g0 Hin; [destruct Hin|].
    destruct (ga_cond g) eqn:Ec; try discriminate.
    destruct Hin as [<-|Hin]; [exact Ec|].
    destruct (rhs_set all_vars (L ++ D) (ga_rhs g)); eapply IH; eauto.
  Qed.

  Lemma cn_gas_true T l l' : (forall g, In g l -> ga_cond g = CTrue) -> cn_gas T l = Some l' -> l' = l.
  Proof.
    intros Ht H. apply cn_gas_Forall2 in H. induction H as [|g g' l l' Eg _ IH]; [reflexivity|].
    rewrite IH by (intros g0 H0; apply Ht; right; exact H0). f_equal.
    pose proof (Ht g (or_introl eq_refl)) as Hg. unfold cn_ga in Eg.
    destruct g as [x c d r]. cbn [ga_cond] in Hg. subst c. injection Eg as <-. reflexivity.
  Qed.

  Lemma cn_pass_init T fp fp' :
    cn_pass T fp = Some fp' -> check_types fp T = true -> fp_init fp' = fp_init fp.
  Proof.
    intros H Hc. destruct (cn_pass_some T fp fp' H) as [Hi _].
    apply check_types_init in Hc. unfold check_init in Hc.
    destruct (init_env (declared (map ga_var (fp_init fp)) T) [] (fp_init fp)) as [L|] eqn:EL; [|discriminate].
    exact (cn_gas_true T _ _ (init_env_true _ _ _ _ EL) Hi).
  Qed.

  (* the variables assigned in the initial block are unchanged, so [init_ok] transfers; the two
     programs have literally the same weighted list of states at every iteration *)
  Theorem cn_pass_same_law T fp fp' :
    cn_pass T fp = Some fp' -> check_types fp T = true ->
    forall s0, init_ok fp T s0 ->
    forall n, frun law fp' n s0 = frun law fp n s0.
  Proof.
    intros H Hc s0 H0 n. induction n as [|n IH]; cbn [frun].
    - rewrite (cn_pass_init T fp fp' H Hc). reflexivity.
    - rewrite IH. apply bind_ext_in. intros w s Hin.
      assert (HT : typed T s) by (eapply check_types_sound; eauto; exists w; exact Hin).
      destruct (cn_pass_some T fp fp' H) as [_ Hb].
      apply (cn_gas_exec T _ _ Hb (check_types_body fp T Hc) s HT).
  Qed.

  Theorem cn_pass_preserves T fp fp' :
    cn_pass T fp = Some fp' -> check_types fp T = true ->
    forall s0, init_ok fp T s0 ->
    forall n, deq (frun law fp' n s0) (frun law fp n s0).
  Proof. intros H Hc s0 H0 n. rewrite (cn_pass_same_law T fp fp' H Hc s0 H0 n). apply deq_refl. Qed.
End CondNorm.

(* structural comparison with Polar's output (used by the correspondence check):
   conditions are compared up to the order (and multiplicity) of the values of an Or-chain
   over one variable; everything else literally *)
Fixpoint chain_vals (c : cond) : option (var * list Qc) :=
  match c with
  | CAtom (EVar x) Ceq (EConst v) => Some (x, [v])
  | COr c1 (CAtom (EVar y) Ceq (EConst v)) =>
      match chain_vals c1 with
      | Some (x, vs) => if var_eqb x y then Some (x, vs ++ [v]) else None
      | None => None
      end
  | _ => None
  end.

Fixpoint expr_eqb (a b : expr) : bool :=
  match a, b with
  | EConst p, EConst q => Qc_eqb p q
  | EVar x, EVar y => var_eqb x y
  | EAdd a1 a2, EAdd b1 b2 | EMul a1 a2, EMul b1 b2 => expr_eqb a1 b1 && expr_eqb a2 b2
  | EPow a1 k, EPow b1 j => expr_eqb a1 b1 && Nat.eqb k j
  | _, _ => false
  end.
Definition cop_eqb (a b : cop) : bool :=
  match a, b with Ceq, Ceq | Cle, Cle | Cge, Cge | Clt, Clt | Cgt, Cgt => true | _, _ => false end.

Fixpoint cond_eq_mod (c d : cond) : bool :=
  match chain_vals c, chain_vals d with
  | Some (x, vs), Some (y, ws) => var_eqb x y && subset vs ws && subset ws vs
  | _, _ =>
      match c, d with
      | CTrue, CTrue | CFalse, CFalse => true
      | CAtom a o b, CAtom a' o' b' => expr_eqb a a' && cop_eqb o o' && expr_eqb b b'
      | CNot c1, CNot d1 => cond_eq_mod c1 d1
      | CAnd c1 c2, CAnd d1 d2 | COr c1 c2, COr d1 d2 => cond_eq_mod c1 d1 && cond_eq_mod c2 d2
      | _, _ => false
      end
  end.
