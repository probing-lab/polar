(* C17 — program-level theorems: cond2arithm on whole flat programs at every n; closed forms
   validated under two settings agree (declared vs inferred types, cond2arithm on/off, solver
   choice); the dropped conditioned functional assignment; exactness-flag logic; comparators
   that tie the models to the output of the real passes. *)
From Coq Require Import List String QArith Qcanon ZArith Bool Ring Field Arith Lia.
From Polar Require Import Qcx CRing ExpPoly ClosedForm Dist Syntax Sem Types Poly Pipeline Wp PassGuard Options OptionsArith.
Import ListNotations.
Local Open Scope Qc_scope.

Section Program.
  Variable law : string -> list Qc -> dist Qc.

  Definition ndraws (l : list gassign) : nat :=
    List.length (filter (fun g => match ga_rhs g with RDraw _ => true | _ => false end) l).

  (* side conditions of the pass on a flat program: the generated names [us] are fresh (not
     typed, not mentioned by the program), enough of them; weights add up to one *)
  Definition c2a_side (T : tenv) (us : list var) (fp : flatprog) : Prop :=
    (forall u, In u us -> tlookup T u = None) /\
    (forall g, In g (fp_body fp) -> no_touch us g) /\
    (forall g, In g (fp_body fp) -> mass_one law T g) /\
    (ndraws (fp_body fp) <= List.length us)%nat.

  Lemma c2a_init_same l l' : c2a_init l = Some l' -> l' = l.
  Proof.
    unfold c2a_init. destruct (forallb _ l) eqn:Ef; [|discriminate]. intros H. injection H as <-.
    rewrite forallb_forall in Ef. rewrite <- (map_id l) at 2. apply map_ext_in. intros g Hg.
    specialize (Ef g Hg). destruct g as [x c d r]. cbn [ga_cond] in Ef.
    destruct c; try discriminate. reflexivity.
  Qed.
  Lemma c2a_fp_inv T us fp fp' :
    c2a_fp T us fp = Some fp' -> fp_init fp' = fp_init fp /\ c2a_gas T us (fp_body fp) = Some (fp_body fp').
  Proof.
    unfold c2a_fp. destruct (c2a_init (fp_init fp)) as [i|] eqn:Ei; [|discriminate].
    destruct (c2a_gas T us (fp_body fp)) as [b|]; [|discriminate].
    intros H. injection H as <-. split; [exact (c2a_init_same _ _ Ei) | reflexivity].
  Qed.

  (* after every number of iterations of the program and of its arithmetised version, test
     functions that may be exchanged have the same expectation *)
  Lemma cond2arithm_related fp fp' T us :
    check_types fp T = true -> c2a_fp T us fp = Some fp' -> c2a_side T us fp ->
    forall s0, init_ok fp T s0 ->
    forall n K K', related T us K K' -> E (frun law fp n s0) K = E (frun law fp' n s0) K'.
  Proof.
    intros HT Hc (HU & Hnt & Hm & Hlen) s0 H0.
    destruct (c2a_fp_inv T us fp fp' Hc) as [Ei Eb].
    pose proof (check_types_body fp T HT) as Hb.
    induction n as [|n IH]; intros K K' HK; cbn [frun].
    - rewrite Ei. apply E_ext_in. intros w t Hin. apply HK; [|apply agree_refl].
      exact (check_types_sound law fp T HT s0 H0 0%nat t (ex_intro _ w Hin)).
    - rewrite !E_bind. apply IH. unfold fstep.
      exact (c2a_gas_related law T us HU (fp_body fp) us (fp_body fp') Eb Hb Hnt Hm (conj (fun u H => H) Hlen) K K' HK).
  Qed.

  (* ConditionsToArithm preserves, at EVERY iteration count, the expectation of EVERY function
     of the state that does not read the generated variables *)
  Theorem cond2arithm_preserves : forall fp fp' T us,
    check_types fp T = true -> c2a_fp T us fp = Some fp' -> c2a_side T us fp ->
    forall s0, init_ok fp T s0 ->
    forall n (G : state -> Qc), insens T us G ->
      E (frun law fp n s0) G = E (frun law fp' n s0) G.
  Proof.
    intros fp fp' T us HT Hc Hs s0 H0 n G HG. exact (cond2arithm_related fp fp' T us HT Hc Hs s0 H0 n G G HG).
  Qed.

  (* monomials over non-generated variables are admissible test functions *)
  Fixpoint mono_vars (m : mono) : list var := match m with [] => [] | (x, _) :: m' => x :: mono_vars m' end.
  Lemma eval_mono_agree U m s s' : (forall x, In x (mono_vars m) -> ~ In x U) -> agree_off U s s' -> eval_mono m s = eval_mono m s'.
  Proof.
    induction m as [|[x k] m IH]; cbn [mono_vars eval_mono]; intros H Ha; [reflexivity|].
    rewrite (Ha x) by (apply H; left; reflexivity). rewrite IH; [reflexivity | | exact Ha].
    intros y Hy. apply H. right. exact Hy.
  Qed.

  Corollary cond2arithm_preserves_moments : forall fp fp' T us,
    check_types fp T = true -> c2a_fp T us fp = Some fp' -> c2a_side T us fp ->
    forall s0, init_ok fp T s0 ->
    forall m, (forall x, In x (mono_vars m) -> ~ In x us) ->
    forall n, E (frun law fp n s0) (eval_mono m) = E (frun law fp' n s0) (eval_mono m).
  Proof.
    intros fp fp' T us HT Hc Hs s0 H0 m Hm n.
    apply (cond2arithm_preserves fp fp' T us HT Hc Hs s0 H0 n).
    intros t t' _ Ha. apply (eval_mono_agree us); assumption.
  Qed.

  Variable cmom : string -> list Qc -> nat -> Qc.

  (* declared instead of inferred types: the SAME flat program analysed under two validated
     type environments (e.g. Polar's inferred types and a declared superset), each with its
     own system, initial values and closed forms, all accepted by the validators.  Then the
     two closed forms of every monomial that occurs in both systems agree at EVERY n. *)
  Theorem explicit_types_same_moments : forall fp T T' ms ms' A A' v v' F F' sp sp',
    cmom_ok law cmom ->
    check_pipeline cmom fp T ms A v F sp = true ->
    check_pipeline cmom fp T' ms' A' v' F' sp' = true ->
    forall s0, init_ok fp T s0 -> init_ok fp T' s0 ->
    forall i j m, nth_error ms i = Some m -> nth_error ms' j = Some m ->
    forall n, nth_error (pw_eval (R := Qc_cring) F sp n) i = nth_error (pw_eval (R := Qc_cring) F' sp' n) j.
  Proof.
    intros fp T T' ms ms' A A' v v' F F' sp sp' Hc H H' s0 H0 H0' i j m Hi Hj n.
    rewrite (closed_form_moment law cmom fp T ms A v F sp Hc H s0 H0 i m Hi n).
    rewrite (closed_form_moment law cmom fp T' ms' A' v' F' sp' Hc H' s0 H0' j m Hj n). reflexivity.
  Qed.

  (* cond2arithm on / off: the flat program and its arithmetised version, each analysed and
     validated on its own; the closed forms of every source monomial agree at EVERY n *)
  Theorem cond2arithm_same_closed_forms : forall fp fp' T T' us ms ms' A A' v v' F F' sp sp',
    cmom_ok law cmom ->
    check_pipeline cmom fp T ms A v F sp = true ->
    check_pipeline cmom fp' T' ms' A' v' F' sp' = true ->
    c2a_fp T us fp = Some fp' -> c2a_side T us fp ->
    forall s0, init_ok fp T s0 -> init_ok fp' T' s0 ->
    forall i j m, nth_error ms i = Some m -> nth_error ms' j = Some m ->
    (forall x, In x (mono_vars m) -> ~ In x us) ->
    forall n, nth_error (pw_eval (R := Qc_cring) F sp n) i = nth_error (pw_eval (R := Qc_cring) F' sp' n) j.
  Proof.
    intros fp fp' T T' us ms ms' A A' v v' F F' sp sp' Hc H H' Hfp Hside s0 H0 H0' i j m Hi Hj Hm n.
    rewrite (closed_form_moment law cmom fp T ms A v F sp Hc H s0 H0 i m Hi n).
    rewrite (closed_form_moment law cmom fp' T' ms' A' v' F' sp' Hc H' s0 H0' j m Hj n). f_equal.
    exact (cond2arithm_preserves_moments fp fp' T us (check_pipeline_types cmom _ _ _ _ _ _ _ H) Hfp Hside s0 H0 m Hm n).
  Qed.
End Program.

(* solver choice: two closed forms (acyclic solver / forced cyclic solver) accepted for the same system agree
   at every n, over every coefficient ring (Q, towers of quadratic extensions) *)
Definition solvers_agree := accepted_agree.

(* classes of assignments as ConditionsToArithm sees them (isinstance tests) *)
Inductive xassign :=
| XPoly (g : gassign)
| XDist (g : gassign)
| XFunc (x : var) (func : string) (arg : var) (c : cond) (d : var).

Definition xvar (a : xassign) : var :=
  match a with XPoly g | XDist g => ga_var g | XFunc x _ _ _ _ => x end.
Definition xcond (a : xassign) : cond :=
  match a with XPoly g | XDist g => ga_cond g | XFunc _ _ _ c _ => c end.

(* the loop of _conditions_to_arithm as it was before /repo 0c1450d, literally: the first test keeps
   any assignment whose arithmetised condition is 1; then ONE if for PolyAssignment, ONE if for
   DistAssignment and nothing else *)
Definition c2ax_old (T : tenv) (u : var) (a : xassign) : option (list xassign) :=
  match arith T (xcond a) with
  | None => None
  | Some p =>
      if is_one p then
        Some [match a with
              | XPoly g => XPoly (set_true g) | XDist g => XDist (set_true g)
              | XFunc x f y _ d => XFunc x f y CTrue d end]
      else match a with
           | XPoly g => match c2a_ga T u g with Some (gs, _) => Some (map XPoly gs) | None => None end
           | XDist g =>
               match c2a_ga T u g with
               | Some ([g1; g2], _) => Some [XDist g1; XPoly g2]
               | _ => None
               end
           | XFunc _ _ _ _ _ => Some []
           end
  end.
Fixpoint c2ax_old_list (T : tenv) (u : var) (l : list xassign) : option (list xassign) :=
  match l with
  | [] => Some []
  | a :: l' => match c2ax_old T u a, c2ax_old_list T u l' with Some r, Some r' => Some (r ++ r') | _, _ => None end
  end.

(* the loop since /repo 0c1450d: if Poly ... elif Dist ... else: keep the assignment unchanged *)
Definition c2ax (T : tenv) (u : var) (a : xassign) : option (list xassign) :=
  match a with
  | XFunc _ _ _ _ _ =>
      match arith T (xcond a) with
      | None => None
      | Some p => if is_one p then c2ax_old T u a else Some [a]
      end
  | _ => c2ax_old T u a
  end.
Fixpoint c2ax_list (T : tenv) (u : var) (l : list xassign) : option (list xassign) :=
  match l with
  | [] => Some []
  | a :: l' => match c2ax T u a, c2ax_list T u l' with Some r, Some r' => Some (r ++ r') | _, _ => None end
  end.

Open Scope string_scope.
(* y = Exp(x) | f == 1 : y   is silently removed from the program *)
Definition drop_T : tenv := [("f", [mkq 0 1; mkq 1 1])].
Definition drop_prog : list xassign :=
  [ XDist {| ga_var := "f"; ga_cond := CTrue; ga_default := "f"; ga_rhs := RDraw (DBern (EConst (mkq 1 2))) |};
    XFunc "y" "Exp" "x" (CAtom (EVar "f") Ceq (EConst (mkq 1 1))) "y" ].

Theorem cond2arithm_drops_functional_old_rule_refuted :
  ~ (forall T u l l', c2ax_old_list T u l = Some l' -> forall x, In x (map xvar l) -> In x (map xvar l')).
Proof.
  intros H.
  specialize (H drop_T "_u0" drop_prog _ eq_refl "y" (or_intror (or_introl eq_refl))).
  (* the old chain returns the draw of f alone *)
  vm_compute in H. destruct H as [H|[]]. discriminate H.
Qed.

(* ... whereas polynomial and draw assignments were always re-emitted *)
Theorem cond2arithm_keeps_poly_and_draws : forall T u a r,
  (match a with XFunc _ _ _ _ _ => False | _ => True end) -> c2ax_old T u a = Some r -> In (xvar a) (map xvar r).
Proof.
  intros T u a r Ha H. unfold c2ax_old in H.
  destruct (arith T (xcond a)) as [p|]; [|discriminate].
  destruct (is_one p).
  - injection H as <-. destruct a; cbn; auto.
  - (* what c2a_ga puts in the place of g assigns ga_var g *)
    destruct a as [g|g|]; [| |destruct Ha]; cbn [xvar];
      (destruct (c2a_ga T u g) as [[gs used]|] eqn:Eg; [apply c2a_ga_keeps_var in Eg | discriminate]).
    + injection H as <-. rewrite map_map. exact Eg.
    + destruct gs as [|g1 [|g2 [|]]]; try discriminate. injection H as <-. exact Eg.
Qed.

(* the repaired chain re-emits EVERY assignment, for every program *)
Theorem cond2arithm_keeps_every_assignment : forall T u a r, c2ax T u a = Some r -> In (xvar a) (map xvar r).
Proof.
  intros T u a r H. destruct a as [g|g|x f y c d].
  - apply (cond2arithm_keeps_poly_and_draws T u (XPoly g) r I H).
  - apply (cond2arithm_keeps_poly_and_draws T u (XDist g) r I H).
  - unfold c2ax in H. cbn [xcond] in H. destruct (arith T c) as [p|] eqn:Ea; [|discriminate].
    destruct (is_one p) eqn:E1.
    + unfold c2ax_old in H. cbn [xcond] in H. rewrite Ea, E1 in H. injection H as <-. cbn. auto.
    + injection H as <-. cbn. auto.
Qed.
Theorem cond2arithm_list_keeps_every_variable : forall T u l l',
  c2ax_list T u l = Some l' -> forall x, In x (map xvar l) -> In x (map xvar l').
Proof.
  intros T u; induction l as [|a l IH]; intros l' H x Hx; [destruct Hx|].
  cbn [c2ax_list] in H. destruct (c2ax T u a) as [r|] eqn:Ea; [|discriminate].
  destruct (c2ax_list T u l) as [r'|] eqn:El; [|discriminate]. injection H as <-.
  rewrite map_app. apply in_or_app. destruct Hx as [<-|Hx].
  - left. apply (cond2arithm_keeps_every_assignment T u a r Ea).
  - right. apply (IH r' eq_refl x Hx).
Qed.
(* the old witness under the repaired chain: y = Exp(x) | f == 1 : y is kept *)
Example drop_prog_kept : match c2ax_list drop_T "_u0" drop_prog with Some l => map xvar l | None => [] end = ["f"; "y"].
Proof. vm_compute. reflexivity. Qed.
Close Scope string_scope.

(* exactness flag (utils/expressions.py).
   numeric_roots: isolating intervals (lo, hi) with multiplicities; the midpoint is returned
   and the solution is flagged exact iff every interval is a point *)
Definition midpoint (iv : Qc * Qc) : Qc := (fst iv + snd iv) / (1 + 1).
Definition numeric_roots_model (ivs : list ((Qc * Qc) * nat)) : list (Qc * nat) * bool :=
  (map (fun im => (midpoint (fst im), snd im)) ivs,
   forallb (fun im => Qc_eqb (fst (fst im)) (snd (fst im))) ivs).
Lemma midpoint_point q : midpoint (q, q) = q.
Proof. unfold midpoint; cbn [fst snd]. field. discriminate. Qed.

(* flag = true: nothing was rounded — every returned number is the (only) point of its
   isolating interval, hence the root it isolates; flag = false: some interval is not a point *)
Theorem exact_flag_model : forall ivs,
  (snd (numeric_roots_model ivs) = true ->
     forall lo hi m rho, In ((lo, hi), m) ivs -> lo <= rho -> rho <= hi ->
       In (rho, m) (fst (numeric_roots_model ivs))) /\
  (snd (numeric_roots_model ivs) = false -> exists lo hi m, In ((lo, hi), m) ivs /\ lo <> hi).
Proof.
  intros ivs. unfold numeric_roots_model; cbn [fst snd]. split.
  - intros H lo hi m rho Hin Hlo Hhi. rewrite forallb_forall in H.
    pose proof (H _ Hin) as Heq. cbn [fst snd] in Heq. apply Qc_eqb_true in Heq. subst hi.
    assert (rho = lo) by (apply Qcle_antisym; assumption). subst rho.
    apply in_map_iff. exists ((lo, lo), m). split; [|exact Hin]. cbn [fst snd].
    rewrite midpoint_point. reflexivity.
  - intros H. induction ivs as [|[[lo hi] m] ivs IH]; cbn [forallb] in H; [discriminate|].
    apply andb_false_iff in H. cbn [fst snd] in H. destruct H as [H|H].
    + exists lo, hi, m. split; [left; reflexivity|]. intros ->. rewrite Qc_eqb_refl in H. discriminate.
    + destruct (IH H) as (lo' & hi' & m' & Hin & Hne). exists lo', hi', m'. split; [right; exact Hin | exact Hne].
Qed.

(* numeric_croots: every ComplexRootOf leaf of a root expression is replaced by a float and
   the result is flagged exact iff no leaf was replaced *)
Inductive rexpr :=
| RNum (q : Qc)
| RCroot (k : nat)        (* an implicit algebraic number (sympy ComplexRootOf) *)
| RFloat (k : nat)        (* its floating-point approximation *)
| RBin (op : nat) (a b : rexpr).
Fixpoint numerify (e : rexpr) : rexpr * bool :=
  match e with
  | RCroot k => (RFloat k, false)
  | RBin op a b => let '(a', ea) := numerify a in let '(b', eb) := numerify b in (RBin op a' b', ea && eb)
  | _ => (e, true)
  end.
Fixpoint has_float (e : rexpr) : bool :=
  match e with RFloat _ => true | RBin _ a b => has_float a || has_float b | _ => false end.
Fixpoint has_croot (e : rexpr) : bool :=
  match e with RCroot _ => true | RBin _ a b => has_croot a || has_croot b | _ => false end.

Theorem exact_flag_croots_model : forall e,
  has_float e = false ->
  (snd (numerify e) = true -> fst (numerify e) = e) /\
  (snd (numerify e) = negb (has_croot e)) /\
  (has_float (fst (numerify e)) = has_croot e).
Proof.
  induction e as [q|k|k|op a IHa b IHb]; cbn [numerify has_float has_croot fst snd negb]; intros Hf.
  - repeat split; reflexivity.
  - repeat split; try reflexivity. intros H; discriminate H.
  - discriminate Hf.
  - apply orb_false_iff in Hf. destruct Hf as [Ha Hb].
    destruct (IHa Ha) as (A1 & A2 & A3). destruct (IHb Hb) as (B1 & B2 & B3).
    destruct (numerify a) as [a' ea]. destruct (numerify b) as [b' eb]. cbn [fst snd] in *.
    repeat split.
    + intros H. apply andb_true_iff in H. destruct H as [H1 H2]. rewrite (A1 H1), (B1 H2). reflexivity.
    + rewrite A2, B2. destruct (has_croot a), (has_croot b); reflexivity.
    + cbn [has_float]. rewrite A3, B3. reflexivity.
Qed.

(* comparators used by the harness (ties; no theorem depends on them) *)
Definition expr_sim (a b : expr) : bool := pzero (psub (of_expr a) (of_expr b)).
Lemma expr_sim_sound a b : expr_sim a b = true -> forall s, eval a s = eval b s.
Proof. intros H s. rewrite <- !eval_of_expr. exact (pzero_psub_sound _ _ H s). Qed.

Definition cop_eqb (a b : cop) : bool :=
  match a, b with Ceq, Ceq | Cle, Cle | Cge, Cge | Clt, Clt | Cgt, Cgt => true | _, _ => false end.
Fixpoint cond_sim (a b : cond) : bool :=
  match a, b with
  | CTrue, CTrue | CFalse, CFalse => true
  | CAtom a1 o a2, CAtom b1 o' b2 => expr_sim a1 b1 && cop_eqb o o' && expr_sim a2 b2
  | CNot a1, CNot b1 => cond_sim a1 b1
  | CAnd a1 a2, CAnd b1 b2 | COr a1 a2, COr b1 b2 => cond_sim a1 b1 && cond_sim a2 b2
  | _, _ => false
  end.
Fixpoint list_sim {A} (f : A -> A -> bool) (l1 l2 : list A) : bool :=
  match l1, l2 with
  | [], [] => true
  | a :: l1', b :: l2' => f a b && list_sim f l1' l2'
  | _, _ => false
  end.
Definition draw_sim (a b : draw) : bool :=
  match a, b with
  | DBern p, DBern q => expr_sim p q
  | DCat ps, DCat qs => list_sim expr_sim ps qs
  | DUnif a1 b1, DUnif a2 b2 => Z.eqb a1 a2 && Z.eqb b1 b2
  | DCont f xs, DCont g ys => String.eqb f g && list_sim expr_sim xs ys
  | _, _ => false
  end.
Definition rhs_sim (a b : rhs) : bool :=
  match a, b with
  | RChoice l1, RChoice l2 => list_sim (fun x y => expr_sim (fst x) (fst y) && expr_sim (snd x) (snd y)) l1 l2
  | RDraw d1, RDraw d2 => draw_sim d1 d2
  | _, _ => false
  end.
(* flat assignments after ConditionsToArithm: same variable, condition true on both sides,
   right-hand sides equal as polynomials *)
Definition ga_sim (a b : gassign) : bool :=
  var_eqb (ga_var a) (ga_var b) && cond_sim (ga_cond a) (ga_cond b) && rhs_sim (ga_rhs a) (ga_rhs b)
  && match ga_cond a with CTrue => true | _ => var_eqb (ga_default a) (ga_default b) end.
Definition c2a_matches (T : tenv) (us : list var) (before after : list gassign) : bool :=
  match c2a_gas T us before with Some l => list_sim ga_sim l after | None => false end.

Fixpoint stmt_sim (a b : stmt) {struct a} : bool :=
  match a, b with
  | SAssign x r, SAssign y r' => var_eqb x y && rhs_sim r r'
  | SSimult l, SSimult l' => list_sim (fun p q => var_eqb (fst p) (fst q) && rhs_sim (snd p) (snd q)) l l'
  | SIf bs els, SIf bs' els' => branches_sim bs bs' && block_sim els els'
  | _, _ => false
  end
with block_sim (a b : block) {struct a} : bool :=
  match a, b with
  | BNil, BNil => true
  | BCons s a', BCons t b' => stmt_sim s t && block_sim a' b'
  | _, _ => false
  end
with branches_sim (a b : branches) {struct a} : bool :=
  match a, b with
  | BrNil, BrNil => true
  | BrCons c x a', BrCons d y b' => cond_sim c d && block_sim x y && branches_sim a' b'
  | _, _ => false
  end.

(* transform_categoricals over a whole block, in parse order; [cs] are the generated names.
   A choice with at least two alternatives is what the grammar calls categorical. *)
Fixpoint catx_stmt (cs : list var) (s : stmt) {struct s} : block * list var :=
  match s with
  | SAssign x (RChoice (a1 :: a2 :: alts)) =>
      (cat_expand x (hd ""%string cs) (a1 :: a2 :: alts), tl cs)
  | SIf bs els =>
      let '(bs', cs1) := catx_branches cs bs in
      let '(els', cs2) := catx_block cs1 els in
      (BCons (SIf bs' els') BNil, cs2)
  | _ => (BCons s BNil, cs)
  end
with catx_block (cs : list var) (b : block) {struct b} : block * list var :=
  match b with
  | BNil => (BNil, cs)
  | BCons s b' =>
      let '(b1, cs1) := catx_stmt cs s in
      let '(b2, cs2) := catx_block cs1 b' in
      (block_app b1 b2, cs2)
  end
with catx_branches (cs : list var) (bs : branches) {struct bs} : branches * list var :=
  match bs with
  | BrNil => (BrNil, cs)
  | BrCons c b bs' =>
      let '(b1, cs1) := catx_block cs b in
      let '(bs1, cs2) := catx_branches cs1 bs' in
      (BrCons c b1 bs1, cs2)
  end.
Definition catx_matches (cs : list var) (before after : block) : bool :=
  block_sim (fst (catx_block cs before)) after.
