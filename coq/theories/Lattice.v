(* Linear algebra on lists over a commutative ring, in "row vector x matrix" form, and the
   certificate theorems used by C16 (exponent lattices) and C07 (degree-bounded
   completeness).

   A vector is a list; a matrix is the list of its rows.  Lists denote finitely supported
   sequences: [nz v i] reads component i (0 beyond the end) and [veq] is equality of the
   denoted sequences.  [lincomb k c B] is the combination  sum_j c_j * B_j  of the rows of
   B (a vector of length k when the rows of B have length k).  The width k is used only for
   the empty combination, [zeros k]; it does not change the denoted sequence ([nz_lincomb]:
   component i is [vdot c (col i B)], with no k in it), so statements up to [veq] hold for
   every width.  They take each width as an argument of its own because the checkers mix
   widths (0 where only [vzero] looks at the result, the true width where a length matters)
   and [veq] cannot be rewritten with: a statement at one width would have to be converted
   at every use.  All certificate checkers are executable booleans; their soundness theorems
   quantify over ALL vectors. *)
From Coq Require Import List Bool Arith Lia Ring ZArith.
From Polar Require Import CRing.
Import ListNotations.

Section Mat.
  Variable R : cring.
  Add Ring Rring : (rth R).
  Local Open Scope cr_scope.
  Local Notation z0 := (@r0 R).
  Local Notation z1 := (@r1 R).

  Definition nz (v : list R) (i : nat) : R := nth i v z0.
  Definition veq (u v : list R) : Prop := forall i, nz u i = nz v i.

  Fixpoint vadd (p q : list R) : list R :=
    match p, q with
    | [], _ => q
    | _, [] => p
    | a :: p', b :: q' => (a + b) :: vadd p' q'
    end.
  Definition vscale (c : R) (p : list R) : list R := map (fun a => c * a) p.
  Definition zeros (k : nat) : list R := repeat z0 k.
  Fixpoint vdot (r x : list R) : R :=
    match r, x with a :: r', b :: x' => a * b + vdot r' x' | _, _ => z0 end.
  Fixpoint lincomb (k : nat) (c : list R) (B : list (list R)) : list R :=
    match c, B with
    | a :: c', b :: B' => vadd (vscale a b) (lincomb k c' B')
    | _, _ => zeros k
    end.
  Definition mmul (k : nat) (A B : list (list R)) : list (list R) := map (fun r => lincomb k r B) A.
  Definition col (i : nat) (B : list (list R)) : list R := map (fun b => nz b i) B.

  (* diagonal matrix d * I_k *)
  Fixpoint sident (d : R) (k : nat) : list (list R) :=
    match k with O => [] | S k => (d :: zeros k) :: map (cons z0) (sident d k) end.
  Definition ident (k : nat) := sident z1 k.

  Definition vzero (v : list R) : bool := forallb (fun x => reqb x z0) v.
  Fixpoint vec_eqb (x y : list R) : bool :=
    match x, y with
    | [], [] => true
    | a :: x', b :: y' => reqb a b && vec_eqb x' y'
    | _, _ => false
    end.
  Fixpoint mat_eqb (x y : list (list R)) : bool :=
    match x, y with
    | [], [] => true
    | a :: x', b :: y' => vec_eqb a b && mat_eqb x' y'
    | _, _ => false
    end.

  Lemma nz_nil i : nz [] i = z0.
  Proof. destruct i; reflexivity. Qed.
  Lemma nz_cons_0 a v : nz (a :: v) O = a.
  Proof. reflexivity. Qed.
  Lemma nz_cons_S a v i : nz (a :: v) (S i) = nz v i.
  Proof. reflexivity. Qed.
  Lemma nz_vadd u v i : nz (vadd u v) i = nz u i + nz v i.
  Proof.
    revert v i; induction u as [|a u IH]; intros [|b v] i.
    - cbn [vadd]. rewrite !nz_nil; ring.
    - cbn [vadd]. rewrite nz_nil; ring.
    - cbn [vadd]. rewrite nz_nil; ring.
    - cbn [vadd]. destruct i; [reflexivity|]. rewrite !nz_cons_S. apply IH.
  Qed.
  Lemma nz_vscale c u i : nz (vscale c u) i = c * nz u i.
  Proof.
    revert i; induction u as [|a u IH]; intros i.
    - cbn [vscale map]. rewrite nz_nil; ring.
    - cbn [vscale map]. destruct i; [reflexivity|]. rewrite !nz_cons_S. apply IH.
  Qed.
  Lemma nz_zeros k i : nz (zeros k) i = z0.
  Proof.
    revert i; induction k as [|k IH]; intros i; [apply nz_nil|].
    destruct i; [reflexivity|]. cbn [zeros repeat]. rewrite nz_cons_S. apply IH.
  Qed.
  Lemma nz_beyond v i : (length v <= i)%nat -> nz v i = z0.
  Proof. intros H; unfold nz; apply nth_overflow; exact H. Qed.

  Lemma veq_refl u : veq u u.
  Proof. intros i; reflexivity. Qed.
  Lemma veq_sym u v : veq u v -> veq v u.
  Proof. intros H i; symmetry; apply H. Qed.
  Lemma veq_trans u v w : veq u v -> veq v w -> veq u w.
  Proof. intros H1 H2 i; rewrite (H1 i); apply H2. Qed.
  Lemma veq_eq u v : length u = length v -> veq u v -> u = v.
  Proof.
    revert v; induction u as [|a u IH]; intros [|b v] HL HE; simpl in HL; try discriminate; [reflexivity|].
    f_equal.
    - exact (HE O).
    - apply IH; [lia|]. intros i; exact (HE (S i)).
  Qed.
  Lemma veq_tl u v : veq u v -> veq (tl u) (tl v).
  Proof.
    intros H i. specialize (H (S i)).
    destruct u, v; simpl tl; rewrite ?nz_nil in *; rewrite ?nz_cons_S in H; auto.
  Qed.
  Lemma vzero_veq v : vzero v = true -> veq v [].
  Proof.
    induction v as [|a v IH]; intros H i; [reflexivity|].
    cbn [vzero forallb] in H. apply andb_true_iff in H; destruct H as [Ha Hv].
    apply reqb_eq in Ha; subst a. rewrite nz_nil. destruct i; [reflexivity|].
    rewrite nz_cons_S, (IH Hv i). apply nz_nil.
  Qed.
  Lemma zeros_veq k : veq (zeros k) [].
  Proof. intros i; rewrite nz_zeros, nz_nil; reflexivity. Qed.
  Lemma veq_nil_all u : veq u [] -> forall i, nz u i = z0.
  Proof. intros H i; rewrite (H i); apply nz_nil. Qed.
  Lemma veq_nil_Forall u : veq u [] -> Forall (fun x => x = z0) u.
  Proof.
    induction u as [|a u IH]; intros H; constructor.
    - exact (H O).
    - apply IH. intros i. rewrite nz_nil. specialize (H (S i)). rewrite nz_nil in H. exact H.
  Qed.

  Lemma vdot_nil_r r : vdot r [] = z0.
  Proof. destruct r; reflexivity. Qed.
  (* vdot by recursion on its right argument *)
  Lemma vdot_cons_r u x xs : vdot u (x :: xs) = nz u O * x + vdot (tl u) xs.
  Proof. destruct u as [|a u]; cbn [vdot tl]; [rewrite nz_nil; cbn [vdot]; ring | reflexivity]. Qed.
  Lemma tl_vadd u v : tl (vadd u v) = vadd (tl u) (tl v).
  Proof. destruct u as [|a u], v as [|b v]; cbn [vadd tl]; try reflexivity. destruct u; reflexivity. Qed.
  Lemma vdot_vadd_l u v w : vdot (vadd u v) w = vdot u w + vdot v w.
  Proof.
    revert u v; induction w as [|x w IH]; intros u v.
    - rewrite !vdot_nil_r. ring.
    - rewrite !vdot_cons_r, nz_vadd, tl_vadd, IH. ring.
  Qed.
  Lemma vdot_vscale_l a u w : vdot (vscale a u) w = a * vdot u w.
  Proof.
    revert w; induction u as [|b u IH]; intros [|c w]; cbn [vscale map vdot]; try ring.
    fold (vscale a u). rewrite IH; ring.
  Qed.
  Lemma vdot_zeros_l k w : vdot (zeros k) w = z0.
  Proof.
    revert w; induction k as [|k IH]; intros [|c w]; cbn [zeros repeat vdot]; try reflexivity.
    fold (zeros k). rewrite IH; ring.
  Qed.
  Lemma vdot_veq_l u u' w : veq u u' -> vdot u w = vdot u' w.
  Proof.
    revert u u'; induction w as [|x w IH]; intros u u' H.
    - rewrite !vdot_nil_r; reflexivity.
    - rewrite !vdot_cons_r, (H O), (IH _ _ (veq_tl _ _ H)); reflexivity.
  Qed.
  Lemma vdot_map0 {A} e (l : list A) : vdot e (map (fun _ => z0) l) = z0.
  Proof.
    revert e; induction l as [|x l IH]; intros [|a e]; cbn [map vdot]; try reflexivity.
    rewrite IH; ring.
  Qed.
  Lemma vdot_app y1 y2 w1 w2 : length y1 = length w1 ->
    vdot (y1 ++ y2) (w1 ++ w2) = vdot y1 w1 + vdot y2 w2.
  Proof.
    revert w1; induction y1 as [|a y1 IH]; intros [|b w1] H; simpl in H; try discriminate.
    - cbn [app vdot]; ring.
    - cbn [app vdot]. rewrite IH by lia. ring.
  Qed.

  Lemma nz_lincomb k c B i : nz (lincomb k c B) i = vdot c (col i B).
  Proof.
    revert B; induction c as [|a c IH]; intros [|b B]; cbn [lincomb col map vdot]; try apply nz_zeros.
    rewrite nz_vadd, nz_vscale, IH; reflexivity.
  Qed.
  Lemma vdot_lincomb k e A w : vdot (lincomb k e A) w = vdot e (map (fun r => vdot r w) A).
  Proof.
    revert A; induction e as [|a e IH]; intros [|r A]; cbn [lincomb map vdot]; try apply vdot_zeros_l.
    rewrite vdot_vadd_l, vdot_vscale_l, IH; reflexivity.
  Qed.
  Lemma col_mmul k A B i : col i (mmul k A B) = map (fun r => vdot r (col i B)) A.
  Proof.
    unfold col, mmul. rewrite map_map. apply map_ext. intros r. apply nz_lincomb.
  Qed.
  Lemma lincomb_assoc k k' k'' e A B :
    veq (lincomb k (lincomb k' e A) B) (lincomb k e (mmul k'' A B)).
  Proof.
    intros i. rewrite !nz_lincomb, col_mmul. apply vdot_lincomb.
  Qed.
  Lemma lincomb_veq k k' c c' B : veq c c' -> veq (lincomb k c B) (lincomb k' c' B).
  Proof. intros H i. rewrite !nz_lincomb. apply vdot_veq_l; exact H. Qed.
  Lemma lincomb_nil_veq k c B : veq c [] -> veq (lincomb k c B) [].
  Proof.
    intros H. apply veq_trans with (lincomb k [] B); [apply lincomb_veq; exact H|].
    cbn [lincomb]. apply zeros_veq.
  Qed.
  Lemma lincomb_vadd k u v M :
    veq (lincomb k (vadd u v) M) (vadd (lincomb k u M) (lincomb k v M)).
  Proof. intros i. rewrite nz_vadd, !nz_lincomb. apply vdot_vadd_l. Qed.
  Lemma lincomb_app k y1 y2 M1 M2 : length y1 = length M1 ->
    veq (lincomb k (y1 ++ y2) (M1 ++ M2)) (vadd (lincomb k y1 M1) (lincomb k y2 M2)).
  Proof.
    intros H i. rewrite nz_vadd, !nz_lincomb. unfold col. rewrite map_app.
    apply vdot_app. rewrite map_length; exact H.
  Qed.
  Lemma lincomb_zero_rows k c M : (forall r, In r M -> veq r []) -> veq (lincomb k c M) [].
  Proof.
    intros H i. rewrite nz_lincomb, nz_nil.
    replace (col i M) with (map (fun _ : list R => z0) M); [apply vdot_map0|].
    unfold col. apply map_ext_in. intros r Hr. rewrite (H r Hr i). symmetry; apply nz_nil.
  Qed.

  Lemma lincomb_cons_rows {A} k (g : A -> R) (h : A -> list R) l : forall e,
    lincomb (S k) e (map (fun f => g f :: h f) l) = vdot e (map g l) :: lincomb k e (map h l).
  Proof.
    induction l as [|f l IH]; intros [|a e]; cbn [map lincomb vdot]; try reflexivity.
    rewrite IH. reflexivity.
  Qed.
  Lemma tl_lincomb k c B : tl (lincomb (S k) c B) = lincomb k c (map (@tl R) B).
  Proof.
    revert B; induction c as [|a c IH]; intros [|b B]; cbn [lincomb map]; try reflexivity.
    rewrite tl_vadd, IH. f_equal. destruct b; reflexivity.
  Qed.

  Lemma col_map_cons a (M : list (list R)) i :
    col i (map (cons a) M) = match i with O => map (fun _ => a) M | S j => col j M end.
  Proof. unfold col. rewrite map_map. destruct i; reflexivity. Qed.
  Lemma vdot_col_sident d k : forall e i, (length e <= k)%nat ->
    vdot e (col i (sident d k)) = d * nz e i.
  Proof.
    induction k as [|k IH]; intros [|a e] i HL; cbn [vdot]; rewrite ?nz_nil; try ring.
    - simpl in HL; lia.
    - simpl in HL. cbn [sident col map]. fold (col i (map (cons z0) (sident d k))).
      rewrite col_map_cons. destruct i as [|i].
      + rewrite vdot_map0, !nz_cons_0. ring.
      + rewrite IH, !nz_cons_S, nz_zeros by lia. ring.
  Qed.
  Lemma lincomb_sident kk d k e : (length e <= k)%nat ->
    veq (lincomb kk e (sident d k)) (vscale d e).
  Proof. intros H i. rewrite nz_lincomb, nz_vscale. apply vdot_col_sident; exact H. Qed.
  Lemma lincomb_ident kk k e : (length e <= k)%nat -> veq (lincomb kk e (ident k)) e.
  Proof.
    intros H i. unfold ident. rewrite (lincomb_sident kk z1 k e H i), nz_vscale. ring.
  Qed.

  Lemma length_vadd u v : length (vadd u v) = Nat.max (length u) (length v).
  Proof.
    revert v; induction u as [|a u IH]; intros [|b v]; cbn [vadd length]; try reflexivity.
    rewrite IH; reflexivity.
  Qed.
  Lemma length_vscale c u : length (vscale c u) = length u.
  Proof. apply map_length. Qed.
  Lemma length_zeros k : length (zeros k) = k.
  Proof. apply repeat_length. Qed.
  Lemma length_lincomb k c B : Forall (fun b => length b = k) B -> length (lincomb k c B) = k.
  Proof.
    revert B; induction c as [|a c IH]; intros [|b B] H; cbn [lincomb]; try apply length_zeros.
    inversion H; subst. rewrite length_vadd, length_vscale, IH by assumption. lia.
  Qed.

  Lemma vec_eqb_eq x y : vec_eqb x y = true -> x = y.
  Proof.
    revert y; induction x as [|a x IH]; intros [|b y]; simpl; intros H; try discriminate; auto.
    apply andb_true_iff in H; destruct H as [H1 H2].
    apply reqb_eq in H1; subst; f_equal; auto.
  Qed.
  Lemma mat_eqb_eq x y : mat_eqb x y = true -> x = y.
  Proof.
    revert y; induction x as [|a x IH]; intros [|b y]; simpl; intros H; try discriminate; auto.
    apply andb_true_iff in H; destruct H as [H1 H2].
    apply vec_eqb_eq in H1; subst; f_equal; auto.
  Qed.
  Lemma forallb_len_Forall k (B : list (list R)) :
    forallb (fun b => Nat.eqb (length b) k) B = true -> Forall (fun b => length b = k) B.
  Proof.
    intros H. apply Forall_forall. intros b Hb.
    rewrite forallb_forall in H. apply Nat.eqb_eq. apply H; exact Hb.
  Qed.

  Definition madd (A B : list (list R)) : list (list R) :=
    map (fun ab => vadd (fst ab) (snd ab)) (combine A B).
  Lemma vdot_col_madd e A B i : length A = length B ->
    vdot e (col i (madd A B)) = vdot e (col i A) + vdot e (col i B).
  Proof.
    revert e B; induction A as [|a A IH]; intros e [|b B] H; simpl in H; try discriminate.
    - cbn [madd combine map col]. rewrite vdot_nil_r; ring.
    - destruct e as [|x e]; [cbn [vdot]; ring|].
      cbn [madd combine map col vdot fst snd]. fold (madd A B). fold (col i (madd A B)).
      fold (col i A). fold (col i B). rewrite IH by lia. rewrite nz_vadd. ring.
  Qed.
  Lemma lincomb_madd k e A B : length A = length B ->
    veq (lincomb k e (madd A B)) (vadd (lincomb k e A) (lincomb k e B)).
  Proof. intros H i. rewrite nz_vadd, !nz_lincomb. apply vdot_col_madd; exact H. Qed.

  Lemma veq_vadd u u' v v' : veq u u' -> veq v v' -> veq (vadd u v) (vadd u' v').
  Proof. intros H1 H2 i. rewrite !nz_vadd, (H1 i), (H2 i); reflexivity. Qed.
  Lemma vadd_nil_l_veq u v : veq u [] -> veq (vadd u v) v.
  Proof. intros H i. rewrite nz_vadd, (H i), nz_nil. ring. Qed.
  Lemma vadd_nil_r_veq u v : veq v [] -> veq (vadd u v) u.
  Proof. intros H i. rewrite nz_vadd, (H i), nz_nil. ring. Qed.

  Lemma lincomb_vscale k c x M : veq (lincomb k (vscale c x) M) (vscale c (lincomb k x M)).
  Proof. intros i. rewrite nz_vscale, !nz_lincomb. apply vdot_vscale_l. Qed.

  (* x * (A1*B1 + A2*B2) ~ (x*A1)*B1 + (x*A2)*B2 *)
  Lemma lincomb_madd_mmul k k1 k2 x A1 B1 A2 B2 : length A1 = length A2 ->
    veq (lincomb k x (madd (mmul k A1 B1) (mmul k A2 B2)))
        (vadd (lincomb k (lincomb k1 x A1) B1) (lincomb k (lincomb k2 x A2) B2)).
  Proof.
    intros H. eapply veq_trans; [apply lincomb_madd; unfold mmul; rewrite !map_length; exact H|].
    apply veq_vadd; apply veq_sym; apply lincomb_assoc.
  Qed.

  (* M * N = 0, checked row by row, kills every combination of the rows of M *)
  Lemma lincomb_rows_zero (M N : list (list R)) kk k c :
    forallb (fun b => vzero (lincomb O b N)) M = true -> veq (lincomb kk (lincomb k c M) N) [].
  Proof.
    intros H. eapply veq_trans; [apply (lincomb_assoc kk k O)|].
    apply lincomb_zero_rows. intros r Hr. unfold mmul in Hr. apply in_map_iff in Hr.
    destruct Hr as [b [<- Hb]]. rewrite forallb_forall in H. apply vzero_veq, H, Hb.
  Qed.

  (* M * Rt = d * I_n with d cancellable: x * M ~ 0 forces x ~ 0 *)
  Lemma sident_cancel M Rt d n x kk : (forall y, d * y = z0 -> y = z0) ->
    mmul n M Rt = sident d n -> (length x <= n)%nat -> veq (lincomb kk x M) [] -> veq x [].
  Proof.
    intros Hd H Hx Hz i. rewrite nz_nil. apply Hd.
    rewrite <- nz_vscale, <- (lincomb_sident O d n x Hx i), <- H.
    rewrite <- (lincomb_assoc O kk n x M Rt i), (lincomb_nil_veq O _ Rt Hz i). apply nz_nil.
  Qed.

  (* Kernel certificate (C07; also the shape of the lattice argument).  The constraint
     matrix Ev has one ROW per unknown (so "x is in the kernel" reads  x * Ev ~ 0, x a
     row vector of length m).  Certificate:  P * K + Ev * Q = d * I_m,  d * dinv = 1  and
     K * Ev = 0  (d is a common denominator, so that P and Q can be integral).  Then EVERY
     kernel vector x is the combination  dinv * (x * P) * K  of the rows of K. *)
  Definition check_kernel_cert (m : nat) (Ev K P Q : list (list R)) (d dinv : R) : bool :=
    forallb (fun b => Nat.eqb (length b) m) K &&
    forallb (fun b => vzero (lincomb O b Ev)) K &&
    Nat.eqb (length P) (length Ev) &&
    mat_eqb (madd (mmul m P K) (mmul m Ev Q)) (sident d m) &&
    reqb (d * dinv) z1.

  Theorem kernel_cert_sound m Ev K P Q d dinv :
    check_kernel_cert m Ev K P Q d dinv = true ->
    forall x kk, length x = m -> veq (lincomb kk x Ev) [] ->
      x = lincomb m (vscale dinv (lincomb (length K) x P)) K.
  Proof.
    unfold check_kernel_cert. intros H x kk Hx Hker.
    apply andb_prop in H as [H Hd]. apply andb_prop in H as [H HI].
    apply andb_prop in H as [H HPE]. apply andb_prop in H as [HK _].
    apply forallb_len_Forall in HK. apply mat_eqb_eq in HI. apply Nat.eqb_eq in HPE. apply reqb_eq in Hd.
    apply veq_eq; [rewrite length_lincomb by exact HK; exact Hx|].
    (* d * x ~ (x*P)*K + (x*Ev)*Q ~ (x*P)*K *)
    assert (E : veq (vscale d x) (lincomb m (lincomb (length K) x P) K)).
    { apply veq_trans with (lincomb m x (sident d m)); [apply veq_sym, lincomb_sident; lia|].
      rewrite <- HI.
      eapply veq_trans; [apply (lincomb_madd_mmul m (length K) kk); exact HPE|].
      apply vadd_nil_r_veq, lincomb_nil_veq, Hker. }
    intros i. rewrite (lincomb_vscale _ _ _ _ i), nz_vscale, <- (E i), nz_vscale.
    transitivity ((d * dinv) * nz x i); [rewrite Hd; ring | ring].
  Qed.

  (* the rows of K really are kernel vectors, and so is every combination of them *)
  Theorem kernel_cert_rows m Ev K P Q d dinv :
    check_kernel_cert m Ev K P Q d dinv = true ->
    forall c kk k2, veq (lincomb kk (lincomb k2 c K) Ev) [].
  Proof.
    unfold check_kernel_cert. intros H c kk k2.
    do 3 apply andb_prop, proj1 in H. apply andb_prop in H as [_ HKE].
    apply lincomb_rows_zero; exact HKE.
  Qed.

  (* Linear independence certificate:  B * Rb = d * I_r  with d cancellable. *)
  Definition check_independent (B Rb : list (list R)) (d : R) : bool :=
    mat_eqb (mmul (length B) B Rb) (sident d (length B)).

  Theorem independent_cert_sound B Rb d :
    (forall x, d * x = z0 -> x = z0) ->
    check_independent B Rb d = true ->
    forall c kk, length c = length B -> veq (lincomb kk c B) [] -> Forall (fun x => x = z0) c.
  Proof.
    intros Hd H c kk Hc Hz. apply mat_eqb_eq in H.
    apply veq_nil_Forall, (sident_cancel B Rb d (length B) c kk Hd H); [lia | exact Hz].
  Qed.

  (* Generation certificate (C16).  Vals has one row per coordinate of e (the "valuation
     vector" of base i), so the constraint on e (length k) is  e * Vals ~ 0.
       B   (r x k)  candidate basis, rows in the kernel:  B * Vals = 0
       V1  (s x k)  complement rows;  Wa (k x s), Wc (k x r)  with  Wa*V1 + Wc*B = I_k
       Rt           with  (V1 * Vals) * Rt = d * I_s,  d cancellable
     Then EVERY e in the kernel is the combination (e * Wc) of the rows of B. *)
  Definition check_generates (k : nat) (Vals B V1 Wa Wc Rt : list (list R)) (d : R) : bool :=
    forallb (fun b => Nat.eqb (length b) k) B &&
    forallb (fun b => Nat.eqb (length b) (length V1)) Wa &&
    forallb (fun b => Nat.eqb (length b) (length B)) Wc &&
    Nat.eqb (length Wa) (length Wc) &&
    mat_eqb (madd (mmul k Wa V1) (mmul k Wc B)) (ident k) &&
    forallb (fun b => vzero (lincomb O b Vals)) B &&
    mat_eqb (mmul (length V1) (mmul O V1 Vals) Rt) (sident d (length V1)).

  Theorem generates_cert_sound k Vals B V1 Wa Wc Rt d :
    (forall x, d * x = z0 -> x = z0) ->
    check_generates k Vals B V1 Wa Wc Rt d = true ->
    forall e kk, length e = k -> veq (lincomb kk e Vals) [] ->
      length (lincomb (length B) e Wc) = length B /\
      e = lincomb k (lincomb (length B) e Wc) B.
  Proof.
    unfold check_generates. intros Hd H e kk He Hker.
    apply andb_prop in H as [H HR]. apply andb_prop in H as [H HBV].
    apply andb_prop in H as [H HI]. apply andb_prop in H as [H HW].
    apply andb_prop in H as [H HWc]. apply andb_prop in H as [HB HWa].
    apply forallb_len_Forall in HB, HWa, HWc.
    apply mat_eqb_eq in HI, HR. apply Nat.eqb_eq in HW.
    split; [apply length_lincomb; exact HWc|].
    set (a := lincomb (length V1) e Wa). set (c := lincomb (length B) e Wc).
    (* e ~ a*V1 + c*B *)
    assert (Hdec : veq e (vadd (lincomb k a V1) (lincomb k c B))).
    { apply veq_trans with (lincomb k e (ident k)); [apply veq_sym, lincomb_ident; lia|].
      rewrite <- HI. apply lincomb_madd_mmul; exact HW. }
    (* times Vals:  0 ~ a*(V1*Vals) + 0;  Rt cancels V1*Vals *)
    assert (Ha : veq a []).
    { apply (sident_cancel (mmul O V1 Vals) Rt d (length V1) a O Hd HR).
      { unfold a. rewrite length_lincomb by exact HWa. lia. }
      intros i. rewrite <- (lincomb_assoc O k O a V1 Vals i).
      transitivity (nz (lincomb O (vadd (lincomb k a V1) (lincomb k c B)) Vals) i).
      - rewrite (lincomb_vadd O _ _ Vals i), nz_vadd, (lincomb_rows_zero B Vals O k c HBV i), nz_nil. ring.
      - rewrite <- (lincomb_veq kk O _ _ Vals Hdec i). apply Hker. }
    apply veq_eq; [rewrite length_lincomb by exact HB; exact He|].
    eapply veq_trans; [exact Hdec|].
    apply vadd_nil_l_veq, lincomb_nil_veq, Ha.
  Qed.
End Mat.

Arguments nz {R} _ _. Arguments veq {R} _ _. Arguments vadd {R} _ _. Arguments vscale {R} _ _.
Arguments zeros {R} _. Arguments vdot {R} _ _. Arguments lincomb {R} _ _ _.
Arguments col {R} _ _. Arguments mmul {R} _ _ _. Arguments madd {R} _ _. Arguments sident {R} _ _. Arguments ident {R} _.
Arguments vzero {R} _. Arguments vec_eqb {R} _ _. Arguments mat_eqb {R} _ _.
Arguments check_kernel_cert {R} _ _ _ _ _ _ _. Arguments check_independent {R} _ _ _.
Arguments check_generates {R} _ _ _ _ _ _ _ _.

Lemma Z_eqb_eq : forall x y : Z, Z.eqb x y = true -> x = y.
Proof. intros x y H. apply Z.eqb_eq; exact H. Qed.
Definition Z_cring : cring :=
  {| car := Z; r0 := 0%Z; r1 := 1%Z; radd := Z.add; rmul := Z.mul; rsub := Z.sub;
     ropp := Z.opp; reqb := Z.eqb; rth := InitialRing.Zth; reqb_eq := Z_eqb_eq |}.

Lemma Z_cancel d : d <> 0%Z -> forall x : Z, (d * x = 0 -> x = 0)%Z.
Proof. intros Hd x H. apply Z.mul_eq_0 in H. destruct H; [contradiction | assumption]. Qed.

Definition zlincomb (k : nat) (c : list Z) (B : list (list Z)) : list Z := lincomb (R := Z_cring) k c B.

Definition check_generates_Z k (Vals B V1 Wa Wc Rt : list (list Z)) (d : Z) : bool :=
  negb (Z.eqb d 0) && check_generates (R := Z_cring) k Vals B V1 Wa Wc Rt d.
Definition check_independent_Z (B Rb : list (list Z)) (d : Z) : bool :=
  negb (Z.eqb d 0) && check_independent (R := Z_cring) B Rb d.

Lemma check_generates_Z_veq k Vals B V1 Wa Wc Rt d :
  check_generates_Z k Vals B V1 Wa Wc Rt d = true ->
  forall (e : list Z) (m : nat), length e = k ->
    veq (R := Z_cring) (zlincomb m e Vals) [] ->
    exists c : list Z, length c = length B /\ e = zlincomb k c B.
Proof.
  unfold check_generates_Z. intros H e m He Hker.
  apply andb_true_iff in H; destruct H as [Hd H].
  apply negb_true_iff in Hd. apply Z.eqb_neq in Hd.
  exists (lincomb (R := Z_cring) (length B) e Wc).
  exact (generates_cert_sound Z_cring k Vals B V1 Wa Wc Rt d (Z_cancel d Hd) H e m He Hker).
Qed.

Theorem check_generates_Z_sound k Vals B V1 Wa Wc Rt d :
  check_generates_Z k Vals B V1 Wa Wc Rt d = true ->
  forall (e : list Z) (m : nat), length e = k ->
    zlincomb m e Vals = zeros (R := Z_cring) m ->
    exists c : list Z, length c = length B /\ e = zlincomb k c B.
Proof.
  intros H e m He Hker. apply (check_generates_Z_veq _ _ _ _ _ _ _ _ H e m He).
  rewrite Hker. apply zeros_veq.
Qed.

Theorem check_independent_Z_sound B Rb d :
  check_independent_Z B Rb d = true ->
  forall c : list Z, length c = length B ->
    forall k, zlincomb k c B = zeros (R := Z_cring) k -> Forall (fun x => x = 0%Z) c.
Proof.
  unfold check_independent_Z. intros H c Hc k Hz.
  apply andb_true_iff in H; destruct H as [Hd H].
  apply negb_true_iff in Hd. apply Z.eqb_neq in Hd.
  apply (independent_cert_sound Z_cring B Rb d (Z_cancel d Hd) H c k Hc).
  unfold zlincomb in Hz. rewrite Hz. apply zeros_veq.
Qed.
