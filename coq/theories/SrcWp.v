(* End-to-end validator on SOURCE programs (C01, subsuming the passes for the purpose of the
   moments): finite types for source variables are validated against the source semantics,
   the weakest pre-expectation of a polynomial is computed through if/elif/else statements
   with ARBITRARY comparison conditions over finitely typed variables (indicator polynomials
   by multivariate Lagrange interpolation), proved exact w.r.t. Sem.run, and a linear system
   (Polar's final one) is validated as an exact one-step identity of the source loop. *)
From Coq Require Import List String QArith Qcanon ZArith Bool Ring Field Arith Lia.
From Polar Require Import Qcx CRing ExpPoly ClosedForm Dist Syntax Sem Types Poly Pipeline Wp.
From Polar Require PassFlat.
Import ListNotations.
Local Open Scope Qc_scope.

Fixpoint cvars (c : cond) : list var :=
  match c with
  | CTrue | CFalse => []
  | CAtom a _ b => vars_of a ++ vars_of b
  | CNot c1 => cvars c1
  | CAnd c1 c2 | COr c1 c2 => cvars c1 ++ cvars c2
  end.

(* [cvars] is PassFlat's [cond_vars] under the name the statements of this file use *)
Lemma holds_ext c s s' : (forall x, In x (cvars c) -> s x = s' x) -> holds c s = holds c s'.
Proof. exact (PassFlat.holds_ext c s s'). Qed.

Section SrcWp.
  Variable law : string -> list Qc -> dist Qc.
  Variable cmom : string -> list Qc -> nat -> Qc.

  Fixpoint qnodup (l : list Qc) : list Qc :=
    match l with [] => [] | v :: l' => if mem v l' then qnodup l' else v :: qnodup l' end.
  Lemma qnodup_In v l : In v (qnodup l) <-> In v l.
  Proof.
    induction l as [|u l IH]; simpl; [tauto|].
    destruct (mem u l) eqn:E.
    - rewrite IH. split; [auto|]. intros [->|H]; [apply mem_In; exact E | exact H].
    - simpl. rewrite IH. tauto.
  Qed.
  Lemma qnodup_NoDup l : NoDup (qnodup l).
  Proof.
    induction l as [|u l IH]; simpl; [constructor|].
    destruct (mem u l) eqn:E; [exact IH|]. constructor; [|exact IH].
    rewrite qnodup_In. apply mem_false. exact E.
  Qed.

  (* sum over the distinct values v of  L_{x,v} * P(v) *)
  Fixpoint lag_sum (x : var) (vs : list Qc) (l : list Qc) (P : Qc -> option poly) : option poly :=
    match l with
    | [] => Some []
    | v :: l' =>
        match P v, lag_sum x vs l' P with
        | Some p, Some q => Some (padd (pmul (lagrange x v vs) p) q)
        | _, _ => None
        end
    end.

  Lemma lag_sum_eval x vs l P q s (F : Qc -> Qc) :
    In (s x) vs -> NoDup l -> lag_sum x vs l P = Some q ->
    (forall v p, P v = Some p -> eval_poly p s = F v) ->
    eval_poly q s = if mem (s x) l then F (s x) else 0.
  Proof.
    intros Hin Hnd H HF. revert q H; induction Hnd as [|v l Hnot Hnd IH]; cbn [lag_sum mem]; intros q H.
    - injection H as <-. reflexivity.
    - destruct (P v) as [p|] eqn:EP; [|discriminate].
      destruct (lag_sum x vs l P) as [q'|] eqn:EL; [|discriminate].
      injection H as <-.
      rewrite eval_padd, eval_pmul, (HF v p EP), (IH q' eq_refl), (lagrange_ind x v vs s Hin).
      destruct (Qc_eqb_spec (s x) v) as [Heq|Hne]; cbn [orb ind]; [|ring].
      rewrite Heq. destruct (mem v l) eqn:Em; [destruct (Hnot (mem_In _ _ Em))|]. ring.
  Qed.

  Fixpoint ind_poly (T : tenv) (xs : list var) (env : list (var * Qc)) (k : list (var * Qc) -> bool) : option poly :=
    match xs with
    | [] => Some (if k env then pconst 1 else pconst 0)
    | x :: xs' =>
        match tlookup T x with
        | None => None
        | Some vs => lag_sum x vs (qnodup vs) (fun v => ind_poly T xs' ((x, v) :: env) k)
        end
    end.

  Lemma ind_poly_sound T s xs : typed T s ->
    forall env k p, ind_poly T xs env k = Some p ->
    eval_poly p s = ind (k (rev (map (fun x => (x, s x)) xs) ++ env)).
  Proof.
    intros HT; induction xs as [|x xs IH]; cbn [ind_poly map rev]; intros env k p H.
    - injection H as <-. cbn [app]. destruct (k env); apply eval_pconst.
    - destruct (tlookup T x) as [vs|] eqn:Ex; [|discriminate].
      assert (Hin : In (s x) vs) by (apply HT; exact Ex).
      rewrite (lag_sum_eval x vs (qnodup vs) _ p s
                 (fun v => ind (k (rev (map (fun y => (y, s y)) xs) ++ (x, v) :: env)))
                 Hin (qnodup_NoDup vs) H).
      + rewrite (mem_complete _ _ (proj2 (qnodup_In (s x) vs) Hin)), <- app_assoc. reflexivity.
      + intros v p' Hp'. apply (IH _ _ _ Hp').
  Qed.

  Definition arith_gen (T : tenv) (c : cond) : option poly :=
    ind_poly T (nodup string_dec (cvars c)) [] (fun env => holds c (env_state env)).

  Theorem arith_gen_sound T s c p : typed T s -> arith_gen T c = Some p -> eval_poly p s = ind (holds c s).
  Proof.
    intros HT H. unfold arith_gen in H. rewrite (ind_poly_sound T s _ HT _ _ _ H). rewrite app_nil_r.
    f_equal. apply holds_ext. intros x Hx. unfold env_state. apply alookup_rev_map. apply nodup_In. exact Hx.
  Qed.

  (* a source assignment is the guarded assignment with guard True: same law, same type
     check, same weakest pre-expectation *)
  Definition ga_of (x : var) (r : rhs) : gassign :=
    {| ga_var := x; ga_cond := CTrue; ga_default := x; ga_rhs := r |}.

  Lemma exec_assign_as_ga x r s : exec_stmt law (SAssign x r) s = exec_ga law (ga_of x r) s.
  Proof. reflexivity. Qed.

  (* types of source blocks: flow-insensitive, conditions ignored *)
  Definition check_assign_src (T : tenv) (x : var) (r : rhs) : bool :=
    match tlookup T x with
    | None => true
    | Some vs => match rhs_set all_vars T r with Some rs => subset rs vs | None => false end
    end.

  Lemma check_ga_of T x r : check_ga T (ga_of x r) = check_assign_src T x r.
  Proof.
    unfold check_ga, check_assign_src. cbn [ga_of ga_var ga_rhs ga_cond].
    destruct (tlookup T x); [|reflexivity]. destruct (rhs_set all_vars T r); [apply andb_true_r | reflexivity].
  Qed.

  Fixpoint check_stmt_src (T : tenv) (st : stmt) : bool :=
    match st with
    | SAssign x r => check_assign_src T x r
    | SSimult _ => false
    | SIf bs els => check_branches_src T bs && check_block_src T els
    end
  with check_block_src (T : tenv) (b : block) : bool :=
    match b with BNil => true | BCons st b' => check_stmt_src T st && check_block_src T b' end
  with check_branches_src (T : tenv) (bs : branches) : bool :=
    match bs with BrNil => true | BrCons _ b bs' => check_block_src T b && check_branches_src T bs' end.

  Lemma check_src_sound T :
    (forall st, check_stmt_src T st = true -> forall s, typed T s -> forall s', supp (exec_stmt law st s) s' -> typed T s') /\
    (forall b, check_block_src T b = true -> forall s, typed T s -> forall s', supp (exec_block law b s) s' -> typed T s') /\
    (forall bs, check_branches_src T bs = true -> forall s, typed T s -> forall d, exec_branches law bs s = Some d ->
                forall s', supp d s' -> typed T s').
  Proof.
    apply stmt_block_branches_ind; cbn [check_stmt_src check_block_src check_branches_src].
    - intros x r H s HT. rewrite exec_assign_as_ga. rewrite <- check_ga_of in H.
      exact (check_ga_sound law T (ga_of x r) s H HT).
    - intros l H. discriminate H.
    - intros bs IHbs els IHels H s HT s' Hs'. apply andb_true_iff in H as [H1 H2].
      rewrite exec_stmt_if in Hs'.
      destruct (exec_branches law bs s) as [d|] eqn:Ed.
      + apply (IHbs H1 s HT d Ed s' Hs').
      + apply (IHels H2 s HT s' Hs').
    - intros _ s HT s' Hs'. apply supp_ret in Hs'; subst; exact HT.
    - intros st IHst b IHb H s HT s' Hs'. apply andb_true_iff in H as [H1 H2].
      rewrite exec_block_cons in Hs'.
      apply supp_bind in Hs'. destruct Hs' as [s1 [Hs1 Hs2]]. apply (IHb H2 s1 (IHst H1 s HT s1 Hs1) s' Hs2).
    - intros _ s HT d Hd. discriminate Hd.
    - intros c b IHb bs IHbs H s HT d Hd s' Hs'. apply andb_true_iff in H as [H1 H2].
      rewrite exec_branches_cons in Hd.
      destruct (holds c s); [injection Hd as <-; apply (IHb H1 s HT s' Hs') | apply (IHbs H2 s HT d Hd s' Hs')].
  Qed.

  Fixpoint wp_stmt (T : tenv) (st : stmt) (p : poly) : option poly :=
    match st with
    | SAssign x r => wp_ga cmom T (ga_of x r) p
    | SSimult _ => None
    | SIf bs els => wp_branches T bs (wp_block T els p) p
    end
  with wp_block (T : tenv) (b : block) (p : poly) : option poly :=
    match b with
    | BNil => Some p
    | BCons st b' =>
        match wp_block T b' p with
        | Some q => match wp_stmt T st q with Some q' => Some (ptidy T q') | None => None end
        | None => None
        end
    end
  with wp_branches (T : tenv) (bs : branches) (pe : option poly) (p : poly) : option poly :=
    match bs with
    | BrNil => pe
    | BrCons c b bs' =>
        match arith_gen T c, wp_block T b p, wp_branches T bs' pe p with
        | Some a, Some q1, Some q2 => Some (padd (pmul a q1) (pmul (psub (pconst 1) a) q2))
        | _, _, _ => None
        end
    end.

  Lemma wp_src_exact T : cmom_ok law cmom ->
    (forall st, check_stmt_src T st = true -> forall p q s, typed T s -> wp_stmt T st p = Some q ->
        E (exec_stmt law st s) (eval_poly p) = eval_poly q s) /\
    (forall b, check_block_src T b = true -> forall p q s, typed T s -> wp_block T b p = Some q ->
        E (exec_block law b s) (eval_poly p) = eval_poly q s) /\
    (forall bs, check_branches_src T bs = true -> forall pe p q s, typed T s -> wp_branches T bs pe p = Some q ->
        forall dels, (forall qe, pe = Some qe -> E dels (eval_poly p) = eval_poly qe s) ->
        E (match exec_branches law bs s with Some d => d | None => dels end) (eval_poly p) = eval_poly q s).
  Proof.
    intros Hc. apply stmt_block_branches_ind;
      cbn [check_stmt_src check_block_src check_branches_src wp_stmt wp_block wp_branches].
    - intros x r _ p q s HT H. rewrite exec_assign_as_ga.
      apply (wp_ga_exact law cmom T (ga_of x r) s p q Hc HT H).
    - intros l H. discriminate H.
    - intros bs IHbs els IHels H p q s HT Hw. apply andb_true_iff in H as [H1 H2].
      rewrite exec_stmt_if.
      apply (IHbs H1 (wp_block T els p) p q s HT Hw (exec_block law els s)).
      intros qe Hqe. apply (IHels H2 p qe s HT Hqe).
    - intros _ p q s HT H. injection H as <-. apply E_ret.
    - intros st IHst b IHb H p q s HT Hw. apply andb_true_iff in H as [H1 H2].
      destruct (wp_block T b p) as [q1|] eqn:E1; [|discriminate].
      destruct (wp_stmt T st q1) as [q2|] eqn:E2; [|discriminate].
      injection Hw as <-. rewrite exec_block_cons.
      apply (wp_seq T _ _ p q1 q2 s HT (IHst H1 q1 q2 s HT E2)).
      intros s1 Hs1. exact (IHb H2 p q1 s1 (proj1 (check_src_sound T) st H1 s HT s1 Hs1) E1).
    - intros _ pe p q s HT Hw dels Hd. apply Hd; exact Hw.
    - intros c b IHb bs IHbs H pe p q s HT Hw dels Hd. apply andb_true_iff in H as [H1 H2].
      destruct (arith_gen T c) as [a|] eqn:Ea; [|discriminate].
      destruct (wp_block T b p) as [q1|] eqn:E1; [|discriminate].
      destruct (wp_branches T bs pe p) as [q2|] eqn:E2; [|discriminate].
      injection Hw as <-. rewrite exec_branches_cons, (eval_pite _ _ _ _ _ (arith_gen_sound T s c a HT Ea)).
      destruct (holds c s); [apply (IHb H1 p q1 s HT E1) | apply (IHbs H2 pe p q2 s HT E2 dels Hd)].
  Qed.

  Definition wp_iter (T : tenv) (p : prog) (f : poly) : option poly :=
    match arith_gen T (p_guard p), wp_block T (p_body p) f with
    | Some a, Some q => Some (ptidy T (padd (pmul a q) (pmul (psub (pconst 1) a) f)))
    | _, _ => None
    end.

  Lemma wp_iter_exact T p f q s : cmom_ok law cmom -> check_block_src T (p_body p) = true -> typed T s ->
    wp_iter T p f = Some q -> E (iter law p s) (eval_poly f) = eval_poly q s.
  Proof.
    intros Hc Hck HT H. unfold wp_iter in H.
    destruct (arith_gen T (p_guard p)) as [a|] eqn:Ea; [|discriminate].
    destruct (wp_block T (p_body p) f) as [q1|] eqn:E1; [|discriminate].
    injection H as <-. rewrite (eval_ptidy T _ s HT), (eval_pite _ _ _ _ _ (arith_gen_sound T s _ a HT Ea)).
    unfold iter. destruct (holds (p_guard p) s); [|apply E_ret].
    apply (proj1 (proj2 (wp_src_exact T Hc)) (p_body p) Hck f q1 s HT E1).
  Qed.

  (* the initial block as a list of unconditional assignments *)
  Fixpoint init_gas (b : block) : option (list gassign) :=
    match b with
    | BNil => Some []
    | BCons (SAssign x r) b' => match init_gas b' with Some l => Some (ga_of x r :: l) | None => None end
    | _ => None
    end.
  Lemma init_gas_exec b l s : init_gas b = Some l -> exec_block law b s = exec_gas law l s.
  Proof.
    revert l s; induction b as [|st b IH]; cbn [init_gas]; intros l s H.
    - injection H as <-. reflexivity.
    - destruct st as [x r| |]; try discriminate.
      destruct (init_gas b) as [l'|] eqn:El; [|discriminate]. injection H as <-.
      rewrite exec_block_cons. cbn [exec_gas]. rewrite exec_assign_as_ga.
      apply bind_ext. intros s1. apply IH. reflexivity.
  Qed.
End SrcWp.
