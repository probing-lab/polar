(* C18: model of RecBuilder.get_recurrences — the monomial worklist — with explicit fuel.

   Python (recurrences/rec_builder.py):
     to_process = {monomial}; processed = set(); recurrence_dict = {}
     while to_process:
         next_monom = to_process.pop()
         recurrence_dict[next_monom] = self.get_recurrence(next_monom)
         processed.add(next_monom)
         for _, monom in get_monoms(recurrence_dict[next_monom], constant_symbols=self.program.symbols):
             if monom not in processed: to_process.add(monom)
   [to_process] is a SET: adding a monomial that is already waiting is a no-op; the model keeps
   it as a duplicate-free list (pop = head; the pop order of a Python set is unspecified and
   does not matter for any statement below).  get_recurrence is [Wp.wp_gas] (C03).  In the
   model symbolic parameters are ordinary never-assigned variables, so they stay inside the
   monomials instead of the coefficients; this does not change finiteness.

   The theorems about the loop hold for ALL step functions, hence for all flat programs, types
   and goal monomials. *)
From Coq Require Import List String QArith Qcanon ZArith Bool Arith Lia.
From Polar Require Import Qcx CRing ExpPoly ClosedForm Dist Syntax Sem Types Poly Pipeline Wp.
Import ListNotations.

Definition mono_mem (m : mono) (l : list mono) : bool := existsb (mono_eqb m) l.
Lemma mono_mem_In m l : mono_mem m l = true <-> In m l.
Proof.
  unfold mono_mem. rewrite existsb_exists. split.
  - intros (m' & Hin & He). apply mono_eqb_eq in He. subst. exact Hin.
  - intros H. exists m. split; [exact H | apply mono_eqb_refl].
Qed.
Lemma mono_mem_false m l : mono_mem m l = false <-> ~ In m l.
Proof. rewrite <- mono_mem_In. symmetry. apply not_true_iff_false. Qed.
Lemma mono_In_dec (m : mono) l : In m l \/ ~ In m l.
Proof.
  destruct (mono_mem m l) eqn:E; [left; apply mono_mem_In | right; apply mono_mem_false]; exact E.
Qed.

(* get_monoms without the constant term *)
Definition nonconst (m : mono) : bool := match m with [] => false | _ => true end.
Definition rhs_monos (q : poly) : list mono := filter nonconst (map snd q).

Section Worklist.
  (* get_recurrence: None = the refusal (an exception in Polar) *)
  Variable step : mono -> option poly.

  (* to_process.add(m) guarded by "m not in processed" *)
  Definition push (done : list mono) (todo : list mono) (m : mono) : list mono :=
    if mono_mem m done || mono_mem m todo then todo else todo ++ [m].

  Fixpoint worklist (fuel : nat) (todo : list mono) (sys : list (mono * poly)) : option (list (mono * poly)) :=
    match todo with
    | [] => Some sys
    | m :: todo' =>
        match fuel with
        | O => None
        | S f =>
            match step m with
            | None => None
            | Some q =>
                let sys' := (m, q) :: sys in
                worklist f (fold_left (push (map fst sys')) (rhs_monos q) todo') sys'
            end
        end
    end.

  Definition recurrences (fuel : nat) (M : mono) : option (list (mono * poly)) :=
    worklist fuel [mnorm M] [].

  Lemma push_In done todo m x : In x (push done todo m) <-> In x todo \/ (x = m /\ ~ In m done).
  Proof.
    unfold push. destruct (mono_In_dec m done) as [Hd|Hd].
    - rewrite (proj2 (mono_mem_In m done) Hd).
      split; [left; assumption | intros [H|[_ H]]; [exact H | contradiction]].
    - rewrite (proj2 (mono_mem_false m done) Hd). cbn [orb].
      destruct (mono_mem m todo) eqn:Et.
      + apply mono_mem_In in Et. split; [left; assumption | intros [H|[-> _]]; assumption].
      + rewrite in_app_iff. cbn [In]. split.
        * intros [H|[<-|[]]]; [left; exact H | right; split; [reflexivity | exact Hd]].
        * intros [H|[-> _]]; [left; exact H | right; left; reflexivity].
  Qed.
  Lemma pushes_In done l todo x :
    In x (fold_left (push done) l todo) <-> In x todo \/ (In x l /\ ~ In x done).
  Proof.
    revert todo; induction l as [|a l IH]; intros todo; cbn [fold_left In].
    - split; [left; assumption | intros [H|[[] _]]; exact H].
    - rewrite IH, push_In. split.
      + intros [[H|[-> H]]|[H Hd]];
          [left; exact H | right; split; [left; reflexivity | exact H] | right; split; [right; exact H | exact Hd]].
      + intros [H|[[<-|H] Hd]];
          [left; left; exact H | left; right; split; [reflexivity | exact Hd] | right; split; assumption].
  Qed.
  Lemma pushes_nodup done l todo : NoDup todo -> NoDup (fold_left (push done) l todo).
  Proof.
    revert todo; induction l as [|a l IH]; intros todo H; cbn [fold_left]; [exact H|].
    apply IH. unfold push. destruct (mono_mem a done); cbn [orb]; [exact H|].
    destruct (mono_mem a todo) eqn:Et; [exact H|]. apply mono_mem_false in Et.
    apply (NoDup_Add (Add_app a todo [])). rewrite app_nil_r. split; assumption.
  Qed.

  (* one invariant principle for the loop: a property of (to_process, recurrence_dict) that
     every turn preserves holds of the returned system with nothing left to process *)
  Lemma worklist_inv (P : list mono -> list (mono * poly) -> Prop) :
    (forall m q todo sys, step m = Some q -> P (m :: todo) sys ->
       P (fold_left (push (m :: map fst sys)) (rhs_monos q) todo) ((m, q) :: sys)) ->
    forall fuel todo sys res, worklist fuel todo sys = Some res -> P todo sys -> P [] res.
  Proof.
    intros Hturn. induction fuel as [|f IH]; intros [|m todo] sys res H HP; cbn [worklist] in H;
      try discriminate; try (injection H as <-; exact HP).
    destruct (step m) as [q|] eqn:Es; [|discriminate].
    apply (IH _ _ _ H). apply Hturn; assumption.
  Qed.

  (* m has its equation already or is waiting for it *)
  Definition scheduled (todo : list mono) (sys : list (mono * poly)) (m : mono) : Prop :=
    In m (map fst sys) \/ In m todo.

  Lemma scheduled_turn m q todo sys x :
    scheduled (m :: todo) sys x ->
    scheduled (fold_left (push (m :: map fst sys)) (rhs_monos q) todo) ((m, q) :: sys) x.
  Proof.
    unfold scheduled. rewrite pushes_In. cbn [map fst In]. intros [H|[H|H]]; auto.
  Qed.
  Lemma scheduled_rhs m q todo sys x :
    In x (rhs_monos q) ->
    scheduled (fold_left (push (m :: map fst sys)) (rhs_monos q) todo) ((m, q) :: sys) x.
  Proof.
    unfold scheduled. rewrite pushes_In. cbn [map fst]. intros H.
    destruct (mono_In_dec x (m :: map fst sys)); auto.
  Qed.

  (* the returned system is closed, its rows are the step function's answers, and the
     goal is one of its rows *)
  Definition closed_sys (sys : list (mono * poly)) : Prop :=
    forall m q, In (m, q) sys -> forall m', In m' (rhs_monos q) -> In m' (map fst sys).
  Definition rows_ok (sys : list (mono * poly)) : Prop :=
    forall m q, In (m, q) sys -> step m = Some q.

  Definition closed_upto (todo : list mono) (sys : list (mono * poly)) : Prop :=
    forall m q, In (m, q) sys -> forall m', In m' (rhs_monos q) -> scheduled todo sys m'.

  Theorem recurrences_closed fuel M sys : recurrences fuel M = Some sys -> closed_sys sys.
  Proof.
    intros H m q Hin m' Hm'.
    assert (Hinv : closed_upto [] sys).
    { refine (worklist_inv closed_upto _ _ _ _ _ H _).
      - intros m0 q0 todo sys0 _ Hinv m1 q1 [Heq|Hin1] x Hx.
        + injection Heq as <- <-. apply scheduled_rhs; exact Hx.
        + apply scheduled_turn. exact (Hinv m1 q1 Hin1 x Hx).
      - intros ? ? []. }
    destruct (Hinv m q Hin m' Hm') as [Hs|[]]. exact Hs.
  Qed.
  Theorem recurrences_rows fuel M sys : recurrences fuel M = Some sys -> rows_ok sys.
  Proof.
    intros H. refine (worklist_inv (fun _ => rows_ok) _ _ _ _ _ H _).
    - intros m q _ sys0 Es Hr m1 q1 [Heq|Hin]; [injection Heq as <- <-; exact Es | exact (Hr m1 q1 Hin)].
    - intros ? ? [].
  Qed.
  Theorem recurrences_goal fuel M sys : recurrences fuel M = Some sys -> In (mnorm M) (map fst sys).
  Proof.
    intros H.
    destruct (worklist_inv (fun todo sys => scheduled todo sys (mnorm M))
                (fun m q todo sys _ => scheduled_turn m q todo sys (mnorm M)) _ _ _ _ H) as [Hs|[]];
      [right; left; reflexivity | exact Hs].
  Qed.

  (* a refusal is an error: the answer is None, or a COMPLETE system — never a partial one *)
  Theorem refusal_is_error fuel M :
    recurrences fuel M = None \/
    exists sys, recurrences fuel M = Some sys /\ closed_sys sys /\ rows_ok sys /\ In (mnorm M) (map fst sys).
  Proof.
    destruct (recurrences fuel M) as [sys|] eqn:E; [right | left; reflexivity].
    exists sys. split; [reflexivity|]. split; [eapply recurrences_closed; eauto|].
    split; [eapply recurrences_rows; eauto | eapply recurrences_goal; eauto].
  Qed.
  (* ... and a refusal of any reachable monomial refuses the whole request *)
  Lemma worklist_step_fails fuel m todo sys : step m = None -> worklist fuel (m :: todo) sys = None.
  Proof. intros H. destruct fuel; cbn [worklist]; [reflexivity | rewrite H; reflexivity]. Qed.

  Definition universe_closed (U : list mono) : Prop :=
    forall m, In m U -> exists q, step m = Some q /\ forall m', In m' (rhs_monos q) -> In m' U.

  (* the waiting and the processed monomials stay duplicate-free, disjoint and inside U; every turn
     moves one from waiting to processed, so a waiting monomial with no fuel left would be one more
     than U has *)
  Lemma worklist_terminates U : universe_closed U ->
    forall (fuel : nat) todo (sys : list (mono * poly)),
      NoDup todo -> incl todo U ->
      NoDup (map fst sys) -> incl (map fst sys) U ->
      (forall x, In x todo -> ~ In x (map fst sys)) ->
      (List.length U <= fuel + List.length sys)%nat ->
      worklist fuel todo sys <> None.
  Proof.
    intros HU. induction fuel as [|f IH]; intros [|m todo] sys Hnd Hin Hnds Hins Hdis Hlen;
      cbn [worklist]; try discriminate;
      assert (Hn : NoDup (m :: map fst sys)) by (constructor; [apply Hdis; left; reflexivity | exact Hnds]);
      assert (Hi : incl (m :: map fst sys) U)
        by (intros x [<-|Hx]; [apply Hin; left; reflexivity | apply Hins; exact Hx]).
    - pose proof (NoDup_incl_length Hn Hi) as Hl. cbn [List.length] in Hl. rewrite map_length in Hl. lia.
    - destruct (HU m (Hin m (or_introl eq_refl))) as (q & Es & Hq). rewrite Es.
      inversion Hnd as [|? ? Hm Hnd']; subst.
      apply IH; [apply pushes_nodup; exact Hnd' | | exact Hn | exact Hi | | cbn [List.length]; lia].
      + intros x Hx. apply pushes_In in Hx.
        destruct Hx as [Hx|[Hx _]]; [apply Hin; right; exact Hx | apply Hq; exact Hx].
      + intros x Hx. apply pushes_In in Hx. destruct Hx as [Hx|[_ Hx]]; [|exact Hx].
        intros [<-|Hs]; [exact (Hm Hx) | exact (Hdis x (or_intror Hx) Hs)].
  Qed.

  Theorem recurrences_terminate U fuel M :
    universe_closed U -> In (mnorm M) U -> (List.length U <= fuel)%nat ->
    exists sys, recurrences fuel M = Some sys /\ closed_sys sys /\ rows_ok sys /\ In (mnorm M) (map fst sys).
  Proof.
    intros HU HM Hlen.
    destruct (refusal_is_error fuel M) as [Hn|Hs]; [|exact Hs].
    exfalso. revert Hn. apply (worklist_terminates U HU).
    - constructor; [intros [] | constructor].
    - intros x [<-|[]]; exact HM.
    - constructor.
    - intros x [].
    - intros x _ [].
    - cbn [List.length]. lia.
  Qed.

  (* executable test of the hypothesis *)
  Definition universe_closedb (U : list mono) : bool :=
    forallb (fun m => match step m with
                      | Some q => forallb (fun m' => mono_mem m' U) (rhs_monos q)
                      | None => false
                      end) U.
  Lemma universe_closedb_sound U : universe_closedb U = true -> universe_closed U.
  Proof.
    unfold universe_closedb. rewrite forallb_forall. intros H m Hm. specialize (H m Hm).
    destruct (step m) as [q|]; [|discriminate]. exists q. split; [reflexivity|].
    rewrite forallb_forall in H. intros m' Hm'. apply mono_mem_In. apply H; exact Hm'.
  Qed.

  (* a system that was returned once is itself a closed universe: its size bounds the fuel
     for EVERY monomial of the system *)
  Theorem returned_system_is_universe fuel0 M0 sys :
    recurrences fuel0 M0 = Some sys -> universe_closed (map fst sys).
  Proof.
    intros H m Hm. apply in_map_iff in Hm. destruct Hm as ([m1 q] & <- & Hin). cbn [fst].
    exists q. split; [apply (recurrences_rows _ _ _ H); exact Hin|].
    intros m' Hm'. apply (recurrences_closed _ _ _ H m1 q Hin m' Hm').
  Qed.
End Worklist.

(* the instance: Polar's get_recurrence on a flat program *)
Definition polar_step (cmom : string -> list Qc -> nat -> Qc) (fp : flatprog) (T : tenv) (m : mono) : option poly :=
  wp_gas cmom T (fp_body fp) [(1%Qc, m)].

Definition recurrences_fp cmom (fuel : nat) (fp : flatprog) (T : tenv) (M : mono) :=
  recurrences (polar_step cmom fp T) fuel M.

(* every returned equation is an exact one-step expectation identity on typed states (C03) *)
Theorem recurrences_fp_exact law cmom fuel fp T M sys :
  cmom_ok law cmom -> forallb (check_ga T) (fp_body fp) = true ->
  recurrences_fp cmom fuel fp T M = Some sys ->
  forall m q, In (m, q) sys -> forall s, typed T s ->
    E (fstep law fp s) (eval_mono m) = eval_poly q s.
Proof.
  intros Hc Hck H m q Hin s Hs.
  pose proof (recurrences_rows _ _ _ _ H m q Hin) as Hq. unfold polar_step in Hq.
  unfold fstep. rewrite <- (wp_gas_exact law cmom T (fp_body fp) Hc Hck [(1%Qc, m)] q s Hs Hq).
  apply E_ext. intros s'. symmetry. apply eval_single.
Qed.

(* The simplest class: all variables finitely typed.  The universe of type-reduced monomials
   (every typed variable with an exponent below the size of its type) is explicit and has
   prod |T x| elements; inside it the worklist needs at most that much fuel.  That the universe
   is closed under get_recurrence is decided by [universe_closedb] (kernel evaluation on Polar's
   own flat programs, ./check C18); a proof for all flat programs whose variables are all typed
   needs two facts about Wp.ptidy that are not proved here: its monomials are in normal form
   with reduced exponents (degree bound of Poly.reduced_power) and mention only variables of the
   program. *)
Fixpoint expvecs (T : tenv) : list mono :=
  match T with
  | [] => [[]]
  | (x, vs) :: T' =>
      flat_map (fun e => map (fun m => match e with O => m | _ => (x, e) :: m end) (expvecs T')) (seq 0 (List.length vs))
  end.
Definition reduced_universe (T : tenv) : list mono := map mnorm (expvecs T).
Fixpoint prod_sizes (T : tenv) : nat :=
  match T with [] => 1%nat | (_, vs) :: T' => (List.length vs * prod_sizes T')%nat end.

Lemma flat_map_const_length {A B} (f : A -> list B) (l : list A) (n : nat) :
  (forall a, In a l -> List.length (f a) = n) -> List.length (flat_map f l) = (List.length l * n)%nat.
Proof.
  induction l as [|a l IH]; intros H; cbn [flat_map List.length]; [reflexivity|].
  rewrite app_length, (H a (or_introl eq_refl)), IH; [lia | intros b Hb; apply H; right; exact Hb].
Qed.
Lemma expvecs_length T : List.length (expvecs T) = prod_sizes T.
Proof.
  induction T as [|[x vs] T IH]; cbn [expvecs prod_sizes]; [reflexivity|].
  rewrite (flat_map_const_length _ _ (prod_sizes T)).
  - rewrite seq_length. reflexivity.
  - intros e _. rewrite map_length. exact IH.
Qed.
Lemma reduced_universe_length T : List.length (reduced_universe T) = prod_sizes T.
Proof. unfold reduced_universe. rewrite map_length. apply expvecs_length. Qed.

Theorem finite_class_terminates cmom fp T M :
  universe_closedb (polar_step cmom fp T) (reduced_universe T) = true ->
  In (mnorm M) (reduced_universe T) ->
  exists sys, recurrences_fp cmom (prod_sizes T) fp T M = Some sys /\
              closed_sys sys /\ rows_ok (polar_step cmom fp T) sys /\ In (mnorm M) (map fst sys).
Proof.
  intros Hc HM. unfold recurrences_fp.
  apply (recurrences_terminate (polar_step cmom fp T) (reduced_universe T)).
  - apply universe_closedb_sound; exact Hc.
  - exact HM.
  - rewrite reduced_universe_length. apply Nat.le_refl.
Qed.
