(* Formal power series over Qc (coefficient sequences, Cauchy product,
   derivative) and the theory of the moment–cumulant recursion in it:
     - the recursion  m_i = sum_{k=1..i} C(i-1,k-1) kappa_k m_{i-k}  is  M' = K' M  for
       exponential generating functions, and has a unique solution;
     - that solution is the coefficient sequence of  log M  (log-series, independent
       definition of cumulants);
     - it is additive over products M1*M2 (independent sums), for every order.
   Nothing here depends on generated files. *)
From Coq Require Import List ZArith QArith Qcanon Lia Arith Bool Field.
From Polar Require Import Qcx Stats.
Import ListNotations.
Local Open Scope Qc_scope.

Definition seqc := nat -> Qc.
Definition nq (n : nat) : Qc := zq (Z.of_nat n).
Definition factq (n : nat) : Qc := zq (zfact n).

Lemma nq_S n : nq (S n) = nq n + 1.
Proof. unfold nq. rewrite Nat2Z.inj_succ. unfold Z.succ. rewrite zq_add. reflexivity. Qed.
Lemma nq_0 : nq 0 = 0. Proof. reflexivity. Qed.
Lemma nq_1 : nq 1 = 1. Proof. reflexivity. Qed.
Lemma nq_add a b : nq (a + b) = nq a + nq b.
Proof. unfold nq. rewrite Nat2Z.inj_add, zq_add. reflexivity. Qed.
Lemma nq_qnat n : nq n = qnat n.
Proof. induction n as [|n IH]; [reflexivity|]. rewrite nq_S, IH. reflexivity. Qed.
Lemma nq_S_neq0 n : nq (S n) <> 0.
Proof. rewrite nq_qnat. apply qnat_S_neq0. Qed.
Lemma factq_S n : factq (S n) = nq (S n) * factq n.
Proof. unfold factq, nq. cbn [zfact]. rewrite zq_mul. reflexivity. Qed.
Lemma factq_0 : factq 0 = 1. Proof. reflexivity. Qed.
Lemma factq_neq0 n : factq n <> 0.
Proof.
  induction n as [|n IH]; [intros E; discriminate E|]. rewrite factq_S. intros E.
  apply Qcmult_integral in E. destruct E as [E|E]; [apply (nq_S_neq0 n E) | apply (IH E)].
Qed.

Lemma zfact_S n : zfact (S n) = (Z.of_nat (S n) * zfact n)%Z. Proof. reflexivity. Qed.

(* the Pascal step on factorials: b1 = C(n,j), b2 = C(n,j+1), A = j!, B = (n-j-1)!, F = n!,
   x = j+1, y = n-j *)
Lemma pascal_fact (b1 b2 A B F x y : Z) :
  (b1 * A * (y * B) = F -> b2 * (x * A) * B = F -> (b1 + b2) * (x * A) * (y * B) = (x + y) * F)%Z.
Proof.
  intros H1 H2. transitivity (x * (b1 * A * (y * B)) + y * (b2 * (x * A) * B))%Z; [ring|].
  rewrite H1, H2. ring.
Qed.

Lemma binom_fact_add n : forall j k, (j + k)%nat = n -> (binom n j * zfact j * zfact k = zfact n)%Z.
Proof.
  induction n as [|n IH]; intros j k E.
  - destruct j, k; try discriminate E. reflexivity.
  - destruct j as [|j]; [cbn [Nat.add] in E; subst k; rewrite binom_0_r; cbn [zfact]; ring|].
    destruct k as [|k]; [rewrite Nat.add_0_r in E; rewrite E, binom_diag; change (zfact 0) with 1%Z; ring|].
    rewrite binom_S, (zfact_S n), (zfact_S j), (zfact_S k).
    replace (Z.of_nat (S n)) with (Z.of_nat (S j) + Z.of_nat (S k))%Z by lia.
    apply pascal_fact; [rewrite <- (zfact_S k) | rewrite <- (zfact_S j)]; apply IH; lia.
Qed.

Lemma binom_fact n j : (j <= n)%nat -> (binom n j * zfact j * zfact (n - j) = zfact n)%Z.
Proof. intros H. apply binom_fact_add. lia. Qed.

Lemma bq_fact n j : (j <= n)%nat -> bq n j = factq n / (factq j * factq (n - j)).
Proof.
  intros H. unfold bq, factq. rewrite <- (binom_fact n j H). rewrite !zq_mul.
  field. split; apply factq_neq0.
Qed.

Definition conv (a b : seqc) : seqc := fun n => bigsum (seq 0 (S n)) (fun j => a j * b (n - j)%nat).
Definition sD (a : seqc) : seqc := fun n => nq (S n) * a (S n).
Definition sone : seqc := fun n => match n with O => 1 | S _ => 0 end.
Definition sadd (a b : seqc) : seqc := fun n => a n + b n.
Definition ssub (a b : seqc) : seqc := fun n => a n - b n.
Definition sscal (c : Qc) (a : seqc) : seqc := fun n => c * a n.
Fixpoint cpow (w : seqc) (j : nat) : seqc := match j with O => sone | S j' => conv w (cpow w j') end.

Lemma conv_ext a a' b b' n :
  (forall j, (j <= n)%nat -> a j = a' j) -> (forall j, (j <= n)%nat -> b j = b' j) -> conv a b n = conv a' b' n.
Proof.
  intros Ha Hb. apply bigsum_ext. intros j Hj. apply in_seq in Hj. rewrite Ha, Hb by lia. reflexivity.
Qed.
Lemma conv_ext_l a a' b n : (forall j, (j <= n)%nat -> a j = a' j) -> conv a b n = conv a' b n.
Proof. intros H. apply conv_ext; [exact H | reflexivity]. Qed.
Lemma conv_ext_r a b b' n : (forall j, (j <= n)%nat -> b j = b' j) -> conv a b n = conv a b' n.
Proof. intros H. apply conv_ext; [reflexivity | exact H]. Qed.

Lemma conv_comm a b n : conv a b n = conv b a n.
Proof.
  unfold conv. rewrite bigsum_flip. apply bigsum_ext. intros j Hj. apply in_seq in Hj.
  replace (n - (n - j))%nat with j by lia. ring.
Qed.

Lemma conv_add_l a b c n : conv (sadd a b) c n = conv a c n + conv b c n.
Proof. unfold conv, sadd. rewrite <- bigsum_add. apply bigsum_ext. intros; apply Qcmult_plus_distr_l. Qed.
Lemma conv_add_r a b c n : conv a (sadd b c) n = conv a b n + conv a c n.
Proof. unfold conv, sadd. rewrite <- bigsum_add. apply bigsum_ext. intros; apply Qcmult_plus_distr_r. Qed.
Lemma conv_sub_l a b c n : conv (ssub a b) c n = conv a c n - conv b c n.
Proof.
  unfold conv, ssub. unfold Qcminus at 2. rewrite <- bigsum_opp, <- bigsum_add. apply bigsum_ext. intros; ring.
Qed.
Lemma conv_scal_l x a b n : conv (sscal x a) b n = x * conv a b n.
Proof. unfold conv, sscal. rewrite <- bigsum_scal. apply bigsum_ext. intros; symmetry; apply Qcmult_assoc. Qed.
Lemma conv_scal_r x a b n : conv a (sscal x b) n = x * conv a b n.
Proof. unfold conv, sscal. rewrite <- bigsum_scal. apply bigsum_ext. intros; ring. Qed.
Lemma conv_bigsum_l {A} (l : list A) (f : A -> seqc) b n :
  conv (fun i => bigsum l (fun j => f j i)) b n = bigsum l (fun j => conv (f j) b n).
Proof. unfold conv. rewrite bigsum_swap. apply bigsum_ext. intros i _. symmetry. apply bigsum_scal_r. Qed.

Lemma conv_0 a b : conv a b O = a O * b O.
Proof. unfold conv. cbn [seq]. rewrite bigsum_cons, bigsum_nil. cbn [Nat.sub]. ring. Qed.
Lemma conv_head a b n : conv a b (S n) = a O * b (S n) + conv (fun j => a (S j)) b n.
Proof. unfold conv. rewrite bigsum_seq_first. rewrite Nat.sub_0_r. reflexivity. Qed.

(* by induction on the degree, splitting off a_0 on both sides *)
Lemma conv_assoc a b c n : conv (conv a b) c n = conv a (conv b c) n.
Proof.
  revert a. induction n as [|n IH]; intros a.
  - rewrite !conv_0. ring.
  - rewrite !conv_head, conv_0.
    rewrite (conv_ext_l _ (sadd (sscal (a O) (fun j => b (S j))) (conv (fun j => a (S j)) b)) c n
               (fun j _ => conv_head a b j)).
    rewrite conv_add_l, conv_scal_l, IH. ring.
Qed.

Lemma conv_one_l a n : conv sone a n = a n.
Proof.
  unfold conv. rewrite bigsum_seq_first. cbn [sone]. rewrite Nat.sub_0_r.
  rewrite bigsum_eq0; [ring|]. intros j _. apply Qcmult_0_l.
Qed.
Lemma conv_one_r a n : conv a sone n = a n.
Proof. rewrite conv_comm. apply conv_one_l. Qed.

Lemma cpow_low w : w O = 0 -> forall j n, (n < j)%nat -> cpow w j n = 0.
Proof.
  intros H0. induction j as [|j IH]; intros n Hn; [lia|].
  cbn [cpow]. unfold conv. apply bigsum_eq0. intros i Hi. apply in_seq in Hi.
  destruct i as [|i]; [rewrite H0; apply Qcmult_0_l|]. rewrite IH by lia. apply Qcmult_0_r.
Qed.

Lemma conv_low a b n : (forall j, (j <= n)%nat -> a j = 0) -> conv a b n = 0.
Proof. intros H. apply bigsum_eq0. intros j Hj. apply in_seq in Hj. rewrite H by lia. apply Qcmult_0_l. Qed.

(* Leibniz *)
Lemma sD_conv a b n : sD (conv a b) n = conv (sD a) b n + conv a (sD b) n.
Proof.
  unfold sD at 1. unfold conv at 1.
  (* right summands as sums over 0..n+1 *)
  assert (H1 : conv (sD a) b n = bigsum (seq 0 (S (S n))) (fun j => nq j * (a j * b (S n - j)%nat))).
  { rewrite (bigsum_seq_first (S n)). rewrite nq_0, Qcmult_0_l, Qcplus_0_l.
    apply bigsum_ext. intros j _. unfold sD. cbn [Nat.sub]. ring. }
  assert (H2 : conv a (sD b) n = bigsum (seq 0 (S (S n))) (fun j => nq (S n - j) * (a j * b (S n - j)%nat))).
  { rewrite (bigsum_seq_last (S n)). rewrite Nat.sub_diag, nq_0, Qcmult_0_l, Qcplus_0_r.
    apply bigsum_ext. intros j Hj. apply in_seq in Hj. unfold sD.
    replace (S n - j)%nat with (S (n - j)) by lia. ring. }
  rewrite H1, H2, <- bigsum_add, <- bigsum_scal. apply bigsum_ext. intros j Hj. apply in_seq in Hj.
  replace (nq (S n)) with (nq j + nq (S n - j)) by (rewrite <- nq_add; f_equal; lia). ring.
Qed.

Lemma sD_ssub a b n : sD (ssub a b) n = sD a n - sD b n.
Proof. unfold sD, ssub. ring. Qed.
Lemma sD_sone n : sD sone n = 0.
Proof. unfold sD. cbn [sone]. ring. Qed.

Definition egf_rec (N : nat) (a c : seqc) : Prop := forall n, (n < N)%nat -> sD a n = conv (sD c) a n.

Lemma egf_rec_ext N a a' c c' :
  (forall n, a n = a' n) -> (forall n, c n = c' n) -> egf_rec N a c -> egf_rec N a' c'.
Proof.
  intros Ha Hc H n Hn. transitivity (sD a n); [unfold sD; rewrite Ha; reflexivity|].
  rewrite (H n Hn). apply conv_ext; intros j _; [unfold sD; rewrite Hc; reflexivity | apply Ha].
Qed.

(* uniqueness: at order n the recursion reads  (known terms) + (n+1) c_{n+1} a_0 *)
Lemma egf_rec_unique N a c c' : a O = 1 -> egf_rec N a c -> egf_rec N a c' ->
  forall n, (n < N)%nat -> c (S n) = c' (S n).
Proof.
  intros H0 H H'. induction n as [n IH] using lt_wf_ind. intros Hn.
  pose proof (eq_trans (eq_sym (H n Hn)) (H' n Hn)) as E. unfold conv in E.
  rewrite !bigsum_seq_last, Nat.sub_diag, H0, !Qcmult_1_r in E.
  rewrite (bigsum_ext (seq 0 n) (fun j => sD c j * a (n - j)%nat) (fun j => sD c' j * a (n - j)%nat)) in E.
  2:{ intros j Hj. apply in_seq in Hj. unfold sD. rewrite (IH j) by lia. reflexivity. }
  apply Qcplus_reg_l in E. exact (Qcmult_reg_l _ _ _ (nq_S_neq0 n) E).
Qed.

Lemma egf_rec_mul N a1 c1 a2 c2 :
  egf_rec N a1 c1 -> egf_rec N a2 c2 -> egf_rec N (conv a1 a2) (sadd c1 c2).
Proof.
  intros H1 H2 n Hn. rewrite sD_conv.
  assert (E1 : conv (sD a1) a2 n = conv (conv (sD c1) a1) a2 n).
  { apply conv_ext_l. intros j Hj. apply H1. lia. }
  assert (E2 : conv a1 (sD a2) n = conv a1 (conv (sD c2) a2) n).
  { apply conv_ext_r. intros j Hj. apply H2. lia. }
  rewrite E1, E2.
  assert (E3 : conv (sD (sadd c1 c2)) (conv a1 a2) n = conv (sadd (sD c1) (sD c2)) (conv a1 a2) n).
  { apply conv_ext_l. intros j _. unfold sD, sadd. ring. }
  rewrite E3, conv_add_l. f_equal.
  - apply conv_assoc.
  - (* a1 * (Dc2 * a2) = Dc2 * (a1 * a2) *)
    rewrite <- (conv_assoc a1 (sD c2) a2 n). rewrite <- (conv_assoc (sD c2) a1 a2 n).
    apply conv_ext_l. intros j _. apply conv_comm.
Qed.

(* log a = - sum_{j=1..N} (1 - a)^j / j, truncated: for a_0 = 1 coefficient n does not depend on N > n *)
Definition geo (N : nat) (w : seqc) : seqc := fun n => bigsum (seq 0 N) (fun j => cpow w j n).
Definition logser (N : nat) (a : seqc) : seqc :=
  fun n => - bigsum (seq 0 N) (fun j => cpow (ssub sone a) (S j) n / nq (S j)).

Lemma geo_S N w n : geo (S N) w n = sadd (geo N w) (cpow w N) n.
Proof. unfold geo. rewrite seq_S, bigsum_app_single. reflexivity. Qed.

Lemma sD_cpow w j n : sD (cpow w (S j)) n = nq (S j) * conv (cpow w j) (sD w) n.
Proof.
  revert n. induction j as [|j IH]; intros n.
  - cbn [cpow]. rewrite conv_one_l. unfold sD at 1. rewrite conv_one_r. unfold sD.
    rewrite nq_1. ring.
  - change (cpow w (S (S j))) with (conv w (cpow w (S j))). rewrite sD_conv.
    rewrite (conv_ext_r _ _ (sscal (nq (S j)) (conv (cpow w j) (sD w))) n (fun i _ => IH i)).
    rewrite conv_scal_r, <- conv_assoc. change (conv w (cpow w j)) with (cpow w (S j)).
    rewrite (conv_comm (sD w)), (nq_S (S j)). ring.
Qed.

(* (1 - w) * (1 + w + ... + w^(N-1)) = 1 - w^N *)
Lemma geo_telescope N a w n : (forall i, a i = ssub sone w i) ->
  conv a (geo N w) n = ssub sone (cpow w N) n.
Proof.
  intros Ha. rewrite (conv_ext_l a (ssub sone w) (geo N w) n (fun i _ => Ha i)).
  revert n. induction N as [|N IH]; intros n.
  - rewrite conv_comm, conv_low by reflexivity. unfold ssub. cbn [cpow]. ring.
  - rewrite (conv_ext_r _ _ (sadd (geo N w) (cpow w N)) n (fun i _ => geo_S N w i)).
    rewrite conv_add_r, IH, conv_sub_l, conv_one_l. unfold ssub. cbn [cpow]. ring.
Qed.

Lemma sD_logser N a n : sD (logser N a) n = conv (geo N (ssub sone a)) (sD a) n.
Proof.
  unfold geo. rewrite conv_bigsum_l. unfold sD at 1. unfold logser.
  rewrite <- bigsum_opp, <- bigsum_scal. apply bigsum_ext. intros j _.
  transitivity (- (sD (cpow (ssub sone a) (S j)) n / nq (S j))); [unfold sD; field; apply nq_S_neq0|].
  (* D (1 - a) = - D a *)
  rewrite sD_cpow, (conv_ext_r _ _ (sscal (- (1)) (sD a)) n)
    by (intros; unfold sscal; rewrite sD_ssub, sD_sone; ring).
  rewrite conv_scal_r. field. apply nq_S_neq0.
Qed.

(* the log series satisfies the recursion below its truncation order:
   (G * Da) * a = Da * (a * G) = Da * (1 - w^N), and w^N vanishes below degree N *)
Theorem logser_rec N a : a O = 1 -> egf_rec N a (logser N a).
Proof.
  intros H0 n Hn. set (w := ssub sone a).
  assert (Ea : forall i, a i = ssub sone w i) by (intros i; unfold w, ssub; ring).
  rewrite (conv_ext_l _ _ a n (fun j _ => sD_logser N a j)). fold w.
  rewrite conv_assoc, (conv_comm (geo N w)), conv_assoc.
  rewrite (conv_ext_r _ _ _ n (fun j _ => geo_telescope N a w j Ea)).
  rewrite conv_comm, conv_sub_l, conv_one_l, (conv_low (cpow w N)); [ring|].
  intros j Hj. apply cpow_low; [|lia]. unfold w, ssub. cbn [sone]. rewrite H0. ring.
Qed.

Definition egf (m : seqc) : seqc := fun n => m n / factq n.

Lemma egf_0 m : m O = 1 -> egf m O = 1.
Proof. intros H. unfold egf. rewrite H. reflexivity. Qed.
Lemma egf_inj a b n : egf a n = egf b n -> a n = b n.
Proof.
  intros E. rewrite <- (Qcmult_div_r (a n) (factq n)), <- (Qcmult_div_r (b n) (factq n)) by apply factq_neq0.
  unfold egf in E. rewrite E. reflexivity.
Qed.
Lemma egf_sadd a b n : egf (sadd a b) n = sadd (egf a) (egf b) n.
Proof. apply Qcmult_plus_distr_l. Qed.
Lemma sD_egf m n : sD (egf m) n = egf (fun j => m (S j)) n.
Proof. unfold sD, egf. rewrite factq_S. field. split; [apply factq_neq0 | apply nq_S_neq0]. Qed.

(* binomial convolution of moment sequences = product of EGFs *)
Definition bconv (m1 m2 : seqc) : seqc := fun n => bigsum (seq 0 (S n)) (fun j => bq n j * m1 j * m2 (n - j)%nat).

Lemma egf_bconv m1 m2 n : egf (bconv m1 m2) n = conv (egf m1) (egf m2) n.
Proof.
  unfold egf at 1. unfold bconv, conv. unfold Qcdiv. rewrite <- bigsum_scal_r. apply bigsum_ext.
  intros j Hj. apply in_seq in Hj. rewrite (bq_fact n j) by lia. unfold egf. field.
  repeat split; apply factq_neq0.
Qed.

(* the recursion computed by raw_moments_to_cumulants (binomial form) *)
Definition cum_rec (N : nat) (m kap : seqc) : Prop :=
  forall i, (1 <= i <= N)%nat ->
    m i = bigsum (pyrange 1 (i + 1)) (fun k => bq (i - 1) (k - 1) * kap k * m (i - k)%nat).

(* solved for the cumulant, as the loop computes it (the term k = i is kappa_i m_0) *)
Lemma cum_rec_solved N m kap : m O = 1 ->
  (forall i, (1 <= i <= N)%nat ->
     kap i = m i - bigsum (pyrange 1 i) (fun k => bq (i - 1) (k - 1) * kap k * m (i - k)%nat)) ->
  cum_rec N m kap.
Proof.
  intros H0 H i Hi. replace (i + 1)%nat with (S i) by lia. rewrite pyrange_S by lia.
  rewrite bigsum_app_single, Nat.sub_diag, H0, bq_diag, (H i Hi). ring.
Qed.

(* with both indices counted from 0:  m_{n+1} = sum_j C(n,j) kappa_{j+1} m_{n-j} *)
Lemma cum_rec_S N m kap :
  cum_rec N m kap <-> forall n, (n < N)%nat -> m (S n) = bconv (fun j => kap (S j)) m n.
Proof.
  assert (E : forall n, bigsum (pyrange 1 (S n + 1)) (fun k => bq (S n - 1) (k - 1) * kap k * m (S n - k)%nat)
                        = bconv (fun j => kap (S j)) m n).
  { intros n. replace (S n + 1)%nat with (S (S n)) by lia. rewrite pyrange_shift, pyrange_0, bigsum_map.
    apply bigsum_ext. intros j _. cbn [Nat.sub]. rewrite !Nat.sub_0_r. reflexivity. }
  split; intros H.
  - intros n Hn. rewrite <- E. apply H. lia.
  - intros [|n] Hi; [lia|]. rewrite E. apply H. lia.
Qed.

(* in EGF coordinates it is  M' = K' M *)
Lemma cum_rec_egf N m kap : cum_rec N m kap <-> egf_rec N (egf m) (egf kap).
Proof.
  assert (K : forall n, sD (egf m) n = conv (sD (egf kap)) (egf m) n
                        <-> m (S n) = bconv (fun j => kap (S j)) m n).
  { intros n. rewrite sD_egf.
    rewrite (conv_ext_l _ (egf (fun j => kap (S j))) (egf m) n (fun j _ => sD_egf kap j)).
    rewrite <- egf_bconv. split; [exact (egf_inj (fun j => m (S j)) _ n) | intros E; unfold egf; rewrite E; reflexivity]. }
  rewrite cum_rec_S. split; intros H n Hn; apply K, H, Hn.
Qed.

Theorem cum_rec_unique N m kap kap' : m O = 1 -> cum_rec N m kap -> cum_rec N m kap' ->
  forall i, (1 <= i <= N)%nat -> kap i = kap' i.
Proof.
  intros H0 H H' [|n] Hi; [lia|]. apply cum_rec_egf in H, H'. apply egf_inj.
  apply (egf_rec_unique N _ _ _ (egf_0 m H0) H H'). lia.
Qed.

Theorem cum_rec_additive N m1 k1 m2 k2 :
  cum_rec N m1 k1 -> cum_rec N m2 k2 -> cum_rec N (bconv m1 m2) (sadd k1 k2).
Proof.
  intros H1 H2. apply cum_rec_egf. apply cum_rec_egf in H1, H2.
  apply (egf_rec_ext N (conv (egf m1) (egf m2)) _ (sadd (egf k1) (egf k2)) _).
  - intros n. symmetry. apply egf_bconv.
  - intros n. symmetry. apply egf_sadd.
  - apply egf_rec_mul; assumption.
Qed.

(* independent definition of cumulants: kappa_n = n! [t^n] log (sum_k m_k t^k / k!) *)
Definition cumulant_log (m : seqc) (n : nat) : Qc := factq n * logser n (egf m) n.

Theorem cum_rec_is_log N m kap : m O = 1 -> cum_rec N m kap ->
  forall i, (1 <= i <= N)%nat -> kap i = cumulant_log m i.
Proof.
  intros H0 H [|n] Hi; [lia|]. unfold cumulant_log.
  assert (Hi' : cum_rec (S n) m kap) by (intros j Hj; apply H; lia).
  apply cum_rec_egf in Hi'.
  rewrite <- (egf_rec_unique (S n) _ _ _ (egf_0 m H0) Hi' (logser_rec (S n) _ (egf_0 m H0)) n) by lia.
  symmetry. apply Qcmult_div_r, factq_neq0.
Qed.

Lemma cum_rec_ext N m m' kap : (forall i, m i = m' i) -> cum_rec N m kap -> cum_rec N m' kap.
Proof.
  intros Hm H i Hi. rewrite <- Hm, (H i Hi). apply bigsum_ext. intros k _. rewrite Hm. reflexivity.
Qed.

Theorem cum_rec_scale N c m kap :
  cum_rec N m kap -> cum_rec N (fun i => qpow c i * m i) (fun i => qpow c i * kap i).
Proof.
  intros H i Hi. rewrite (H i Hi). rewrite <- bigsum_scal. apply bigsum_ext.
  intros k Hk. apply in_pyrange in Hk.
  replace (qpow c i) with (qpow c k * qpow c (i - k)) by (rewrite <- qpow_add; f_equal; lia). ring.
Qed.

(* cumulants of a constant c: (c, 0, 0, ...) *)
Theorem cum_rec_const N c :
  cum_rec N (fun i => qpow c i) (fun i => match i with 1%nat => c | _ => 0 end).
Proof.
  apply cum_rec_S. intros n _. unfold bconv.
  rewrite bigsum_seq_first, Nat.sub_0_r, bq_0_r, bigsum_eq0; [cbn [qpow]; ring|]. intros j _. ring.
Qed.

(* law of X + Y for independent X ~ L1, Y ~ L2 *)
Definition indep_sum (L1 L2 : law) : law :=
  flat_map (fun p => map (fun q => (fst p * fst q, snd p + snd q)) L2) L1.
Definition shift_law (c : Qc) (L : law) : law := map (fun p => (fst p, snd p + c)) L.
Definition scale_law (c : Qc) (L : law) : law := map (fun p => (fst p, c * snd p)) L.

Lemma Ex_indep_sum L1 L2 f : Ex (indep_sum L1 L2) f = Ex L1 (fun x => Ex L2 (fun y => f (x + y))).
Proof.
  unfold Ex, indep_sum. induction L1 as [|p L1 IH]; [reflexivity|].
  cbn [flat_map]. rewrite bigsum_app, bigsum_cons, IH. f_equal.
  rewrite bigsum_map. rewrite <- bigsum_scal. apply bigsum_ext. intros q _. cbn [fst snd]. ring.
Qed.
Lemma Ex_shift_law c L f : Ex (shift_law c L) f = Ex L (fun x => f (x + c)).
Proof. unfold Ex, shift_law. rewrite bigsum_map. reflexivity. Qed.
Lemma Ex_scale_law c L f : Ex (scale_law c L) f = Ex L (fun x => f (c * x)).
Proof. unfold Ex, scale_law. rewrite bigsum_map. reflexivity. Qed.

Lemma mass_indep_sum L1 L2 : mass (indep_sum L1 L2) = mass L1 * mass L2.
Proof. unfold mass at 1. rewrite Ex_indep_sum. fold (mass L2). rewrite Ex_const. apply Qcmult_comm. Qed.
Lemma mass_shift_law c L : mass (shift_law c L) = mass L.
Proof. apply Ex_shift_law. Qed.
Lemma mass_scale_law c L : mass (scale_law c L) = mass L.
Proof. apply Ex_scale_law. Qed.

Theorem raw_indep_sum L1 L2 n : raw (indep_sum L1 L2) n = bconv (raw L1) (raw L2) n.
Proof.
  unfold raw at 1. rewrite Ex_indep_sum, Ex_swap.
  rewrite (Ex_ext L2 _ (fun y => bigsum (seq 0 (S n)) (fun j => bq n j * raw L1 j * qpow y (n - j)%nat)))
    by (intros; apply Ex_qpow_add).
  rewrite Ex_bigsum. apply bigsum_ext. intros j _. apply Ex_scal.
Qed.

Lemma raw_shift_law c L n : raw (shift_law c L) n = bconv (raw L) (fun i => qpow c i) n.
Proof. unfold raw at 1. rewrite Ex_shift_law. apply Ex_qpow_add. Qed.

Lemma raw_scale_law c L n : raw (scale_law c L) n = qpow c n * raw L n.
Proof.
  unfold raw. rewrite Ex_scale_law. rewrite <- Ex_scal. apply Ex_ext. intros p _. apply qpow_mul.
Qed.

Theorem cum_rec_indep_sum N L1 k1 L2 k2 :
  cum_rec N (raw L1) k1 -> cum_rec N (raw L2) k2 -> cum_rec N (raw (indep_sum L1 L2)) (sadd k1 k2).
Proof.
  intros H1 H2. apply (cum_rec_ext N (bconv (raw L1) (raw L2))); [|apply cum_rec_additive; assumption].
  intros i. symmetry. apply raw_indep_sum.
Qed.
Theorem cum_rec_shift_law N c L kap :
  cum_rec N (raw L) kap ->
  cum_rec N (raw (shift_law c L)) (sadd kap (fun i => match i with 1%nat => c | _ => 0 end)).
Proof.
  intros H. apply (cum_rec_ext N (bconv (raw L) (fun i => qpow c i))).
  - intros i. symmetry. apply raw_shift_law.
  - apply cum_rec_additive; [exact H | apply cum_rec_const].
Qed.
Theorem cum_rec_scale_law N c L kap :
  cum_rec N (raw L) kap -> cum_rec N (raw (scale_law c L)) (fun i => qpow c i * kap i).
Proof.
  intros H. apply (cum_rec_ext N (fun i => qpow c i * raw L i)); [|apply cum_rec_scale; exact H].
  intros i. symmetry. apply raw_scale_law.
Qed.

(* the expression of utils.statistics.comb, `0 if k > n else n! // (k! * (n-k)!)` with integer
   floor division, is the binomial coefficient for ALL n, k *)
Lemma comb_intdiv_spec n k :
  (if (n <? k)%nat then 0%Z else (zfact n / (zfact k * zfact (n - k)))%Z) = binom n k.
Proof.
  destruct (n <? k)%nat eqn:E.
  - apply Nat.ltb_lt in E. rewrite binom_gt by exact E. reflexivity.
  - apply Nat.ltb_ge in E. rewrite <- (binom_fact n k E). rewrite <- Z.mul_assoc.
    apply Z.div_mul. pose proof (zfact_pos k). pose proof (zfact_pos (n - k)). lia.
Qed.
