(* C20, part 3 — the global name counter of /repo/utils/identifiers.py:
     _count_unique_var = 0
     def get_unique_var(name="u"):
         var = "_" + name + str(_count_unique_var); _count_unique_var += 1; return var
   (Since /repo 156ba8a the function also skips reserved names; that loop is modelled in
   HistoryCollide, [unique_var].)
   The counter value at the start of an analysis is process history (how many names earlier
   analyses in the same process consumed).  Proved here: the generated names never collide
   (for tags that do not end in a decimal digit: all tags in /repo are the literals
   u k c t a prob old r diff_symbol inv b s), and a different start value only renames the
   auxiliary names by the injective renaming "add d to the counter part".
   A tag ending in a digit breaks uniqueness: "_x1"+"2" = "_x"+"12" ([*_refuted]). *)
From Coq Require Import List Bool Arith Lia String Ascii Decimal DecimalString DecimalNat.
Import ListNotations.
Local Open Scope string_scope.

(* str(k) for a Python int k >= 0 *)
Definition dec (k : nat) : string := NilZero.string_of_uint (Nat.to_uint k).
Definition gen_name (tag : string) (k : nat) : string := "_" ++ tag ++ dec k.
Definition fresh (tag : string) (k : nat) : string * nat := (gen_name tag k, S k).

Lemma to_uint_nonnil k : Nat.to_uint k <> Nil.
Proof.
  rewrite <- (Unsigned.of_to k) at 1. rewrite Unsigned.to_of. unfold unorm.
  destruct (nzhead (Nat.to_uint k)); discriminate.
Qed.

Lemma dec_nilempty k : dec k = NilEmpty.string_of_uint (Nat.to_uint k).
Proof.
  unfold dec, NilZero.string_of_uint. pose proof (to_uint_nonnil k) as H.
  destruct (Nat.to_uint k); [contradiction H; reflexivity | reflexivity ..].
Qed.

Definition undec (s : string) : option nat :=
  match NilEmpty.uint_of_string s with Some d => Some (Nat.of_uint d) | None => None end.

Lemma undec_dec k : undec (dec k) = Some k.
Proof. unfold undec. rewrite dec_nilempty, NilEmpty.usu, Unsigned.of_to. reflexivity. Qed.

Lemma dec_injective k k' : dec k = dec k' -> k = k'.
Proof.
  intros H. apply (f_equal undec) in H. rewrite !undec_dec in H. inversion H; reflexivity.
Qed.

Definition is_digit (c : ascii) : bool :=
  match uint_of_char c (Some Nil) with Some _ => true | None => false end.

Fixpoint all_digits (s : string) : bool :=
  match s with "" => true | String c r => is_digit c && all_digits r end.
Fixpoint digit_free (s : string) : bool :=
  match s with "" => true | String c r => negb (is_digit c) && digit_free r end.
(* the weakest condition on tags under which names are unambiguous *)
Fixpoint ends_nondigit (s : string) : bool :=
  match s with
  | "" => true
  | String c r => match r with "" => negb (is_digit c) | _ => ends_nondigit r end
  end.

Lemma all_digits_uint d : all_digits (NilEmpty.string_of_uint d) = true.
Proof. induction d; cbn [NilEmpty.string_of_uint all_digits]; try rewrite IHd; reflexivity. Qed.

Lemma all_digits_dec k : all_digits (dec k) = true.
Proof. rewrite dec_nilempty. apply all_digits_uint. Qed.

Lemma digit_free_ends_nondigit s : digit_free s = true -> ends_nondigit s = true.
Proof.
  induction s as [|c r IH]; [reflexivity|]. cbn [digit_free ends_nondigit]. intros H.
  apply andb_true_iff in H. destruct H as [H1 H2]. destruct r; [exact H1 | apply IH; exact H2].
Qed.

Lemma ends_nondigit_tail c r : ends_nondigit (String c r) = true -> ends_nondigit r = true.
Proof. cbn [ends_nondigit]. destruct r; [reflexivity | auto]. Qed.

Definition is_empty (s : string) : bool := match s with "" => true | _ => false end.

(* (the rest, the maximal suffix of digits) *)
Fixpoint split_digits (s : string) : string * string :=
  match s with
  | "" => ("", "")
  | String c r =>
      let pd := split_digits r in
      if is_empty (fst pd) && is_digit c then ("", String c (snd pd))
      else (String c (fst pd), snd pd)
  end.

Lemma split_all_digits ds : all_digits ds = true -> split_digits ds = ("", ds).
Proof.
  induction ds as [|c r IH]; [reflexivity|]. cbn [all_digits split_digits]. intros H.
  apply andb_true_iff in H. destruct H as [H1 H2]. rewrite (IH H2). cbn [fst snd is_empty].
  rewrite H1. reflexivity.
Qed.

Lemma split_tag_digits t ds :
  ends_nondigit t = true -> all_digits ds = true -> split_digits (t ++ ds) = (t, ds).
Proof.
  intros Ht Hd. induction t as [|c r IH]; [apply split_all_digits; exact Hd|].
  cbn [append split_digits]. rewrite (IH (ends_nondigit_tail _ _ Ht)). cbn [fst snd].
  destruct r as [|c' r'].
  - cbn [ends_nondigit] in Ht. cbn [is_empty]. apply negb_true_iff in Ht. rewrite Ht. reflexivity.
  - reflexivity.
Qed.

Definition parse_name (s : string) : option (string * nat) :=
  match s with
  | String "_" r =>
      let pd := split_digits r in
      if is_empty (snd pd) then None
      else match undec (snd pd) with Some k => Some (fst pd, k) | None => None end
  | _ => None
  end.

Lemma dec_nonempty k : is_empty (dec k) = false.
Proof. unfold dec. destruct (Nat.to_uint k); reflexivity. Qed.

Theorem parse_gen_name t k : ends_nondigit t = true -> parse_name (gen_name t k) = Some (t, k).
Proof.
  intros Ht. unfold gen_name. cbn [append parse_name].
  rewrite (split_tag_digits t (dec k) Ht (all_digits_dec k)). cbn [fst snd].
  rewrite undec_dec, dec_nonempty. reflexivity.
Qed.

Lemma append_inv_head (t a b : string) : t ++ a = t ++ b -> a = b.
Proof. induction t as [|c r IH]; cbn [append]; intros H; [exact H | inversion H; auto]. Qed.

Theorem gen_name_injective tag k k' : gen_name tag k = gen_name tag k' -> k = k'.
Proof.
  unfold gen_name. cbn [append]. intros H. inversion H as [H1].
  apply append_inv_head in H1. apply dec_injective; exact H1.
Qed.

Theorem gen_name_injective_tags t t' k k' :
  ends_nondigit t = true -> ends_nondigit t' = true ->
  gen_name t k = gen_name t' k' -> t = t' /\ k = k'.
Proof.
  intros Ht Ht' H. apply (f_equal parse_name) in H.
  rewrite (parse_gen_name t k Ht), (parse_gen_name t' k' Ht') in H. inversion H; auto.
Qed.

Corollary gen_name_injective_digit_free t t' k k' :
  digit_free t = true -> digit_free t' = true ->
  gen_name t k = gen_name t' k' -> t = t' /\ k = k'.
Proof. intros Ht Ht'. apply gen_name_injective_tags; apply digit_free_ends_nondigit; assumption. Qed.

(* the side condition is necessary *)
Theorem gen_name_digit_tag_refuted :
  exists t t' k k', gen_name t k = gen_name t' k' /\ t <> t' /\ k <> k'.
Proof. exists "x1", "x", 2, 12. split; [reflexivity | split; discriminate]. Qed.

Fixpoint names_from (tags : list string) (k : nat) : list string :=
  match tags with
  | [] => []
  | t :: ts => fst (fresh t k) :: names_from ts (snd (fresh t k))
  end.
Fixpoint counter_after (tags : list string) (k : nat) : nat :=
  match tags with [] => k | t :: ts => counter_after ts (snd (fresh t k)) end.

Lemma counter_after_length tags k : counter_after tags k = k + List.length tags.
Proof. revert k; induction tags as [|t ts IH]; intros k; cbn [counter_after fresh snd List.length]; [lia | rewrite IH; lia]. Qed.

Lemma names_from_In ts : forall k nm, In nm (names_from ts k) ->
  exists t j, In t ts /\ k <= j /\ nm = gen_name t j.
Proof.
  induction ts as [|t ts IH]; intros k nm; cbn [names_from fresh fst snd]; intros H; [destruct H|].
  destruct H as [H|H].
  - exists t, k. split; [left; reflexivity | split; [lia | auto]].
  - destruct (IH _ _ H) as [t' [j [H1 [H2 H3]]]]. exists t', j. split; [right; exact H1 | split; [lia | exact H3]].
Qed.

Lemma names_from_NoDup_gen tags :
  (forall t t' k k', In t tags -> In t' tags -> gen_name t k = gen_name t' k' -> k = k') ->
  forall k0, NoDup (names_from tags k0).
Proof.
  induction tags as [|t ts IH]; intros Hinj k0; cbn [names_from fresh fst snd]; constructor.
  - intros Hin. destruct (names_from_In _ _ _ Hin) as [t' [j [H1 [H2 H3]]]].
    apply Hinj in H3; [lia | left; reflexivity | right; exact H1].
  - apply IH. intros t1 t2 k k' H1 H2. apply Hinj; right; assumption.
Qed.

Theorem fresh_never_collides tags k0 :
  Forall (fun t => ends_nondigit t = true) tags -> NoDup (names_from tags k0).
Proof.
  intros Hf. rewrite Forall_forall in Hf. apply names_from_NoDup_gen.
  intros t t' k k' Ht Ht' H. apply (gen_name_injective_tags t t' k k'); auto.
Qed.

Theorem fresh_never_collides_one_tag t n k0 : NoDup (names_from (repeat t n) k0).
Proof.
  apply names_from_NoDup_gen. intros t1 t2 k k' H1 H2 H.
  apply repeat_spec in H1. apply repeat_spec in H2. subst. apply (gen_name_injective t); exact H.
Qed.

(* a name generated later never equals a name generated earlier *)
Theorem fresh_old_new_distinct t t' k k1 k2 :
  t = t' \/ (ends_nondigit t = true /\ ends_nondigit t' = true) ->
  k1 < k -> k <= k2 -> gen_name t k1 <> gen_name t' k2.
Proof.
  intros [E|[Ht Ht']] H1 H2 H.
  - subst. apply gen_name_injective in H. lia.
  - apply gen_name_injective_tags in H; auto. lia.
Qed.

Lemma names_from_app ts1 ts2 k :
  names_from (ts1 ++ ts2) k = (names_from ts1 k ++ names_from ts2 (counter_after ts1 k))%list.
Proof.
  revert k; induction ts1 as [|t ts IH]; intros k; [reflexivity|].
  change ((t :: ts) ++ ts2)%list with (t :: (ts ++ ts2))%list. cbn [names_from counter_after].
  rewrite IH. reflexivity.
Qed.

Lemma names_from_mid ts1 t ts2 k :
  In (gen_name t (k + List.length ts1)) (names_from (ts1 ++ t :: ts2) k).
Proof. rewrite names_from_app, counter_after_length. apply in_or_app. right. left. reflexivity. Qed.

Lemma NoDup_app_disj {A} (l1 l2 : list A) x : NoDup (l1 ++ l2)%list -> In x l1 -> In x l2 -> False.
Proof.
  induction l1 as [|a l IH]; cbn; intros Hn H1 H2; [exact H1|].
  inversion Hn as [|a' l' Hnin Hn']; subst. destruct H1 as [->|H1].
  - apply Hnin. apply in_or_app. right; exact H2.
  - exact (IH Hn' H1 H2).
Qed.

(* two analyses one after the other in one process = one long sequence: the names of the
   second are disjoint from those of the first *)
Theorem fresh_runs_disjoint ts1 ts2 k0 nm :
  Forall (fun t => ends_nondigit t = true) (ts1 ++ ts2) ->
  In nm (names_from ts1 k0) -> In nm (names_from ts2 (counter_after ts1 k0)) -> False.
Proof.
  intros Hf H1 H2. pose proof (fresh_never_collides _ k0 Hf) as Hn.
  rewrite names_from_app in Hn. exact (NoDup_app_disj _ _ _ Hn H1 H2).
Qed.

(* with digit-ending tags (never used by /repo) one run can produce the same name twice *)
Theorem fresh_digit_tag_refuted : exists tags k0, ~ NoDup (names_from tags k0).
Proof.
  (* the first and the last of eleven names: "_x1" ++ "2" = "_x" ++ "12" *)
  exists ("x1" :: repeat "u" 9 ++ ["x"])%list, 2.
  intros H. apply NoDup_cons_iff in H. apply (proj1 H). exact (names_from_mid (repeat "u" 9) "x" [] 3).
Qed.

Fixpoint pnames_from (tags : list string) (k : nat) : list (string * nat) :=
  match tags with [] => [] | t :: ts => (t, k) :: pnames_from ts (S k) end.
Definition render (p : string * nat) : string := gen_name (fst p) (snd p).
Definition shift (d : nat) (p : string * nat) : string * nat := (fst p, snd p + d).

Lemma names_from_render tags k : names_from tags k = map render (pnames_from tags k).
Proof. revert k; induction tags as [|t ts IH]; intros k; cbn; [reflexivity | rewrite IH; reflexivity]. Qed.

Lemma shift_injective d p q : shift d p = shift d q -> p = q.
Proof.
  destruct p as [t k], q as [t' k']; unfold shift; cbn [fst snd]. intros H; inversion H.
  f_equal. lia.
Qed.

Lemma pnames_from_shift tags k0 d :
  pnames_from tags (k0 + d) = map (shift d) (pnames_from tags k0).
Proof.
  revert k0; induction tags as [|t ts IH]; intros k0; cbn [pnames_from map]; [reflexivity|].
  unfold shift at 1; cbn [fst snd]. f_equal. apply (IH (S k0)).
Qed.

Definition shift_name (d : nat) (s : string) : string :=
  match parse_name s with Some p => render (shift d p) | None => s end.

Lemma shift_name_gen d t k : ends_nondigit t = true -> shift_name d (gen_name t k) = gen_name t (k + d).
Proof. intros Ht. unfold shift_name. rewrite (parse_gen_name t k Ht). reflexivity. Qed.

Lemma names_from_shifted (f : string -> string) d :
  (forall t k, ends_nondigit t = true -> f (gen_name t k) = gen_name t (k + d)) ->
  forall tags k0, Forall (fun t => ends_nondigit t = true) tags ->
    names_from tags (k0 + d) = map f (names_from tags k0).
Proof.
  intros Hf tags. induction tags as [|t ts IH]; intros k0 Ht; [reflexivity|].
  inversion Ht as [|t0 l Ht0 Hts]; subst.
  cbn [names_from fresh fst snd map]. rewrite (Hf t k0 Ht0). f_equal. apply (IH (S k0) Hts).
Qed.

Theorem shift_name_injective_on_generated d t t' k k' :
  ends_nondigit t = true -> ends_nondigit t' = true ->
  shift_name d (gen_name t k) = shift_name d (gen_name t' k') -> gen_name t k = gen_name t' k'.
Proof.
  intros Ht Ht'. rewrite !shift_name_gen by assumption. intros H.
  apply gen_name_injective_tags in H; auto. destruct H as [-> H]. f_equal. lia.
Qed.

Theorem counter_shift_alpha tags k0 d :
  Forall (fun t => ends_nondigit t = true) tags ->
  names_from tags (k0 + d) = map (shift_name d) (names_from tags k0).
Proof. apply names_from_shifted, shift_name_gen. Qed.

Theorem counter_shift_alpha_pairs tags k0 d :
  names_from tags (k0 + d) = map render (map (shift d) (pnames_from tags k0)).
Proof. rewrite names_from_render, pnames_from_shift. reflexivity. Qed.

Lemma split_digits_prefix_ok s : ends_nondigit (fst (split_digits s)) = true.
Proof.
  induction s as [|c r IH]; [reflexivity|]. cbn [split_digits].
  destruct (is_empty (fst (split_digits r)) && is_digit c) eqn:E; cbn [fst]; [reflexivity|].
  cbn [ends_nondigit]. destruct (fst (split_digits r)) as [|c' r'] eqn:Ep.
  - cbn [is_empty andb] in E. rewrite E. reflexivity.
  - exact IH.
Qed.

(* [shift_name] is not injective on all strings ("_t07" and "_t7" parse alike).  To rename
   the variables of whole programs (HistoryAlpha) only canonical generated names (no
   leading zeros, i.e. exactly the strings get_unique_var can return) are shifted. *)
Definition parse_canon (s : string) : option (string * nat) :=
  match parse_name s with
  | Some p => if String.eqb (render p) s then Some p else None
  | None => None
  end.

Lemma parse_canon_spec s p : parse_canon s = Some p -> s = render p /\ ends_nondigit (fst p) = true.
Proof.
  unfold parse_canon. destruct (parse_name s) as [q|] eqn:E; [|discriminate].
  destruct (String.eqb_spec (render q) s) as [<-|]; [|discriminate]. intros H; injection H as <-.
  split; [reflexivity|].
  (* the string is "_" followed by something: [parse_name] computes on it *)
  unfold render, gen_name in E. cbn [append parse_name] in E.
  destruct (is_empty _); [discriminate|]. destruct (undec _); [|discriminate].
  injection E as <-. apply split_digits_prefix_ok.
Qed.

Lemma parse_canon_gen t k : ends_nondigit t = true -> parse_canon (gen_name t k) = Some (t, k).
Proof.
  intros Ht. unfold parse_canon. rewrite (parse_gen_name t k Ht). unfold render; cbn [fst snd].
  rewrite String.eqb_refl. reflexivity.
Qed.

Definition cshift (d : nat) (s : string) : string :=
  match parse_canon s with Some p => render (shift d p) | None => s end.

Lemma cshift_gen d t k : ends_nondigit t = true -> cshift d (gen_name t k) = gen_name t (k + d).
Proof. intros Ht. unfold cshift. rewrite (parse_canon_gen t k Ht). reflexivity. Qed.

Lemma parse_canon_cshift d s : parse_canon (cshift d s) = option_map (shift d) (parse_canon s).
Proof.
  unfold cshift. destruct (parse_canon s) as [p|] eqn:E; [|exact E].
  apply parse_canon_spec in E. apply (parse_canon_gen (fst p) (snd p + d)), E.
Qed.

Theorem cshift_injective d s1 s2 : cshift d s1 = cshift d s2 -> s1 = s2.
Proof.
  intros H. pose proof (f_equal parse_canon H) as Hp. rewrite !parse_canon_cshift in Hp.
  unfold cshift in H.
  destruct (parse_canon s1) as [p1|] eqn:E1, (parse_canon s2) as [p2|] eqn:E2; try discriminate Hp.
  - cbn [option_map] in Hp. assert (p1 = p2) as <- by (apply (shift_injective d); congruence).
    apply parse_canon_spec in E1, E2. destruct E1 as [-> _], E2 as [-> _]. reflexivity.
  - exact H.
Qed.

Theorem counter_shift_alpha_canon tags k0 d :
  Forall (fun t => ends_nondigit t = true) tags ->
  names_from tags (k0 + d) = map (cshift d) (names_from tags k0).
Proof. apply names_from_shifted, cshift_gen. Qed.

(* the tags /repo passes to get_unique_var *)
Definition polar_tags : list string :=
  ["u"; "k"; "c"; "t"; "a"; "prob"; "old"; "r"; "diff_symbol"; "inv"; "b"; "s"].
Lemma polar_tags_ok : Forall (fun t => digit_free t = true) polar_tags.
Proof. apply Forall_forall, forallb_forall. reflexivity. Qed.
