(* C18: soundness of the source-level value analysis behind [in_class] against the reference
   semantics Sem.run (no declared types): if the analysis converges to T, then after ANY number of
   iterations every variable typed by T holds one of its finitely many values — README restriction 1
   ("only assume finitely many values") holds semantically for those variables, in particular
   for every variable of the loop guard of an in-class program. *)
From Coq Require Import List String QArith Qcanon ZArith Bool Arith Lia.
From Polar Require Import Qcx Dist Syntax Sem Types Poly Graph InClass.
Import ListNotations.
Local Open Scope string_scope.
Local Open Scope list_scope.

(* every entry of the environment holds (stronger than [typed], which looks at the first entry) *)
Definition atyped (T : tenv) (s : state) : Prop := forall x vs, In (x, vs) T -> In (s x) vs.

Lemma atyped_typed T s : atyped T s -> typed T s.
Proof. intros H x vs Hx. apply H. apply tlookup_In. exact Hx. Qed.

Lemma In_mem q vs : In q vs -> mem q vs = true.
Proof. apply mem_complete. Qed.
Lemma dedup_In v vs : In v vs -> In v (dedup vs).
Proof.
  induction vs as [|a vs IH]; simpl; intros H; [destruct H|].
  destruct (mem a (dedup vs)) eqn:E.
  - destruct H as [<-|H]; [apply mem_In; exact E | apply IH; exact H].
  - destruct H as [<-|H]; [left; reflexivity | right; apply IH; exact H].
Qed.

Lemma expr_vals_sound T s e vs : atyped T s -> expr_vals T e = Some vs -> In (eval e s) vs.
Proof.
  intros HT H. unfold expr_vals in H.
  destruct (valuations all_vars T (nodup string_dec (vars_of e))) as [envs|] eqn:Ev; [|discriminate].
  destruct (Nat.leb (List.length envs) maxenv); [|discriminate].
  destruct (forallb small _); [|discriminate]. injection H as <-.
  apply dedup_In.
  apply (eval_set_sound all_vars T s e).
  - apply typed_all. apply atyped_typed. exact HT.
  - unfold eval_set. rewrite Ev. reflexivity.
Qed.

Lemma in_remove_var x T y vs : In (y, vs) (remove_var x T) -> In (y, vs) T /\ var_eqb y x = false.
Proof.
  unfold remove_var. intros H. apply filter_In in H. destruct H as [H1 H2]. cbn [fst] in H2.
  split; [exact H1|]. destruct (var_eqb y x); [discriminate | reflexivity].
Qed.

Lemma aset_sound T s x o v :
  atyped T s -> (forall vs, o = Some vs -> In v vs) -> atyped (aset [] T x o) (upd s x v).
Proof.
  intros HT Hv. unfold aset. cbn [mem_str existsb].
  assert (Hrem : atyped (remove_var x T) (upd s x v)).
  { intros y vs Hy. apply in_remove_var in Hy. destruct Hy as [Hy E]. unfold upd. rewrite E. apply HT; exact Hy. }
  destruct o as [vs|]; [|exact Hrem].
  destruct (Nat.leb (List.length (dedup vs)) maxv); [|exact Hrem].
  intros y ws [Heq|Hy].
  - injection Heq as <- <-. rewrite upd_same. apply dedup_In. apply Hv. reflexivity.
  - apply Hrem. exact Hy.
Qed.

Lemma ajoin_entry A B x u : In (x, u) (ajoin A B) ->
  exists va vb, In (x, va) A /\ tlookup B x = Some vb /\ u = dedup (va ++ vb).
Proof.
  unfold ajoin. intros H. apply in_flat_map in H. destruct H as ([y va] & Hin & H). cbn [fst snd] in H.
  destruct (tlookup B y) as [vb|] eqn:EB; [|destruct H].
  destruct (Nat.leb _ maxv); [|destruct H].
  destruct H as [H|[]]. injection H as <- <-. exists va, vb. auto.
Qed.
Lemma ajoin_left A B s : atyped A s -> atyped (ajoin A B) s.
Proof.
  intros HA x u H. destruct (ajoin_entry _ _ _ _ H) as (va & vb & Ha & _ & ->).
  apply dedup_In. apply in_or_app. left. apply HA; exact Ha.
Qed.
Lemma ajoin_right A B s : atyped B s -> atyped (ajoin A B) s.
Proof.
  intros HB x u H. destruct (ajoin_entry _ _ _ _ H) as (va & vb & _ & Hb & ->).
  apply dedup_In. apply in_or_app. right. apply HB. apply tlookup_In; exact Hb.
Qed.

Lemma stable_sound T T' s : stable T T' = true -> atyped T' s -> atyped T s.
Proof.
  unfold stable. rewrite forallb_forall. intros H HT' x vs Hin.
  specialize (H (x, vs) Hin). cbn [fst snd] in H.
  destruct (tlookup T' x) as [v'|] eqn:E; [|discriminate].
  apply (subset_In _ _ H). apply HT'. apply tlookup_In. exact E.
Qed.

Section Sound.
  Variable law : string -> list Qc -> dist Qc.

  Lemma rhs_vals_sound T s r vs :
    atyped T s -> rhs_vals T r = Some vs -> forall v, supp (sample law r s) v -> In v vs.
  Proof.
    intros HT H v [w Hin]. destruct r as [alts|d]; cbn [rhs_vals sample] in *.
    - revert vs H Hin. induction alts as [|[p e] alts IH]; cbn [choice_vals map]; intros vs H Hin; [destruct Hin|].
      destruct (expr_vals T e) as [ve|] eqn:Ee; [|discriminate].
      destruct (choice_vals T alts) as [vr|] eqn:Er; [|discriminate].
      injection H as <-. apply in_or_app. destruct Hin as [Hin|Hin].
      + left. inversion Hin; subst. eapply expr_vals_sound; eauto.
      + right. apply (IH vr eq_refl Hin).
    - destruct d as [p|ps|a b|f args]; cbn [draw_law] in *; try discriminate.
      + injection H as <-. destruct Hin as [Hin|[Hin|[]]]; inversion Hin; subst; simpl; auto.
      + injection H as <-. rewrite <- (map_length (fun e => eval e s) ps). eapply cat_law_vals; eauto.
      + injection H as <-. eapply unif_law_vals; eauto.
  Qed.

  Lemma simult_sound T s l : atyped T s ->
    forall T' t s', atyped T' t -> supp (exec_simult law l s t) s' ->
      atyped (fold_left (fun T'' xr => aset [] T'' (fst xr) (rhs_vals T (snd xr))) l T') s'.
  Proof.
    intros HT. induction l as [|[x r] l IH]; intros T' t s' Ht Hs; cbn [exec_simult fold_left] in *.
    - apply supp_ret in Hs. subst. exact Ht.
    - apply supp_bind in Hs. destruct Hs as (v & Hv & Hs).
      apply (IH _ (upd t x v) s'); [|exact Hs]. cbn [fst snd].
      apply aset_sound; [exact Ht|]. intros vs Hvs. exact (rhs_vals_sound T s r vs HT Hvs v Hv).
  Qed.

  Definition stmt_ok (st : stmt) : Prop :=
    forall T s s', atyped T s -> supp (exec_stmt law st s) s' -> atyped (aexec_stmt [] st T) s'.
  Definition block_ok (b : block) : Prop :=
    forall T s s', atyped T s -> supp (exec_block law b s) s' -> atyped (aexec_block [] b T) s'.
  Definition branches_ok (bs : branches) : Prop :=
    forall T acc s,
      atyped T s ->
      (forall d, exec_branches law bs s = Some d -> forall s', supp d s' -> atyped (aexec_branches [] bs T acc) s')
      /\ (forall s', atyped acc s' -> atyped (aexec_branches [] bs T acc) s').

  Lemma exec_sound : (forall st, stmt_ok st) /\ (forall b, block_ok b) /\ (forall bs, branches_ok bs).
  Proof.
    apply stmt_block_branches_ind.
    - (* SAssign: a simultaneous assignment of one variable, in the model as in the semantics *)
      intros x r T s s' HT Hs. exact (simult_sound T s [(x, r)] HT T s s' HT Hs).
    - intros l T s s' HT Hs. exact (simult_sound T s l HT T s s' HT Hs).
    - (* SIf: the branch taken is joined into the result, the else block is where the join starts *)
      intros bs Hbs els Hels T s s' HT Hs. rewrite exec_stmt_if in Hs. rewrite aexec_if.
      destruct (Hbs T (aexec_block [] els T) s HT) as [H1 H2].
      destruct (exec_branches law bs s) as [d|] eqn:Ed.
      + apply (H1 d eq_refl). exact Hs.
      + apply H2. eapply Hels; eauto.
    - intros T s s' HT Hs. cbn [exec_block] in Hs. apply supp_ret in Hs. subst. exact HT.
    - intros st Hst b Hb T s s' HT Hs. rewrite exec_block_cons in Hs. rewrite aexec_cons.
      apply supp_bind in Hs. destruct Hs as (s1 & H1 & H2).
      eapply Hb; [|exact H2]. eapply Hst; eauto.
    - intros T acc s HT. split; [intros d H; discriminate H | intros s' H; exact H].
    - intros c b Hb bs Hbs T acc s HT. rewrite exec_branches_cons, aexec_brcons.
      destruct (Hbs T (ajoin acc (aexec_block [] b T)) s HT) as [H1 H2].
      split.
      + intros d Hd s' Hs'. destruct (holds c s).
        * injection Hd as <-. apply H2. apply ajoin_right. eapply Hb; eauto.
        * eapply H1; eauto.
      + intros s' Hacc. apply H2. apply ajoin_left. exact Hacc.
  Qed.

  Lemma afix_sound body fuel : forall T Tf,
    afix [] fuel body T = Some Tf ->
    (forall s, atyped T s -> atyped Tf s) /\
    (forall s s', atyped Tf s -> supp (exec_block law body s) s' -> atyped Tf s').
  Proof.
    induction fuel as [|f IH]; intros T Tf H; cbn [afix] in H; [discriminate|].
    destruct (stable T (ajoin T (aexec_block [] body T))) eqn:Es.
    - injection H as <-. split; [auto|].
      intros s s' HT Hs. apply (stable_sound _ _ _ Es). apply ajoin_right.
      eapply (proj1 (proj2 exec_sound)); eauto.
    - destruct (IH _ _ H) as [H1 H2]. split; [|exact H2].
      intros s HT. apply H1. apply ajoin_left. exact HT.
  Qed.

  (* the loop-head invariant: every state after n iterations (guard true or false, frozen or not)
     is typed by the environment the analysis converged to *)
  Lemma loop_env_sound_atyped p T :
    loop_env p [] = Some T ->
    forall n s0 s, supp (run law p n s0) s -> atyped T s.
  Proof.
    unfold loop_env. cbn [map]. intros H n s0 s Hs.
    destruct (afix_sound _ _ _ _ H) as [H1 H2].
    revert s Hs. induction n as [|n IHn]; intros s Hs; cbn [run] in Hs.
    - apply H1. eapply (proj1 (proj2 exec_sound)); [|exact Hs]. intros x vs [].
    - apply supp_bind in Hs. destruct Hs as (s1 & Hs1 & Hs).
      unfold iter in Hs. destruct (holds (p_guard p) s1).
      + eapply H2; eauto.
      + apply supp_ret in Hs. subst. apply IHn. exact Hs1.
  Qed.

  Theorem loop_env_sound p T :
    loop_env p [] = Some T ->
    forall n s0 s, supp (run law p n s0) s -> typed T s.
  Proof. intros H n s0 s Hs. apply atyped_typed. eapply loop_env_sound_atyped; eauto. Qed.
End Sound.

(* README restriction 1 for the guard of an in-class program: the atoms of the guard only ever see
   finitely many values — each side difference a - b ranges over an explicit finite list *)
Fixpoint cond_atoms (c : cond) : list (expr * expr) :=
  match c with
  | CTrue | CFalse => []
  | CAtom a _ b => [(a, b)]
  | CNot c1 => cond_atoms c1
  | CAnd c1 c2 | COr c1 c2 => cond_atoms c1 ++ cond_atoms c2
  end.

Lemma cond_ok_atoms T c : cond_ok T c = true ->
  forall a b, In (a, b) (cond_atoms c) -> exists vs, expr_vals T (ESub a b) = Some vs.
Proof.
  induction c as [| |a o b|c1 IH|c1 IH1 c2 IH2|c1 IH1 c2 IH2]; cbn [cond_ok cond_atoms]; intros H a' b' Hin;
    try (destruct Hin; fail).
  - destruct Hin as [Heq|[]]. injection Heq as <- <-.
    destruct (expr_vals T (ESub a b)) as [vs|]; [exists vs; reflexivity | discriminate].
  - apply IH; assumption.
  - apply andb_true_iff in H. destruct H as [Ha Hb]. apply in_app_or in Hin. destruct Hin; [apply IH1 | apply IH2]; assumption.
  - apply andb_true_iff in H. destruct H as [Ha Hb]. apply in_app_or in Hin. destruct Hin; [apply IH1 | apply IH2]; assumption.
Qed.

Theorem in_class_guard_finitely_valued law p :
  in_class p [] = true ->
  forall a b, In (a, b) (cond_atoms (p_guard p)) ->
  exists vs : list Qc, forall n s0 s, supp (run law p n s0) s -> In (eval (ESub a b) s) vs.
Proof.
  intros H a b Hin. destruct (proj1 (in_class_unfold p []) H) as (_ & _ & T & HT & Hc & _).
  unfold conditions_finite in Hc. apply andb_true_iff in Hc. destruct Hc as [Hg _].
  destruct (cond_ok_atoms T _ Hg a b Hin) as [vs Hvs].
  exists vs. intros n s0 s Hs.
  apply (expr_vals_sound T s (ESub a b) vs); [|exact Hvs].
  exact (loop_env_sound_atyped law p T HT n s0 s Hs).
Qed.
