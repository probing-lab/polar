(* Finitely supported (signed) distributions as weighted lists, expectation, monad laws at
   the level of expectations.  Weights are not required to be probabilities: the linear
   theorems (C02, C03) do not need it, exactly as Polar's recurrences do not. *)
From Coq Require Import List QArith Qcanon Ring Field.
From Polar Require Import Qcx.
Import ListNotations.
Local Open Scope Qc_scope.

Definition dist (A : Type) := list (Qc * A).
Definition ret {A} (a : A) : dist A := [(1, a)].
Definition dscale {A} (w : Qc) (d : dist A) : dist A := map (fun p => (w * fst p, snd p)) d.
Fixpoint bind {A B} (d : dist A) (f : A -> dist B) : dist B :=
  match d with [] => [] | (w, a) :: d' => dscale w (f a) ++ bind d' f end.
Fixpoint E {A} (d : dist A) (f : A -> Qc) : Qc :=
  match d with [] => 0 | (w, a) :: d' => w * f a + E d' f end.
Definition mass {A} (d : dist A) : Qc := E d (fun _ => 1).

Lemma E_app {A} (d1 d2 : dist A) f : E (d1 ++ d2) f = E d1 f + E d2 f.
Proof. induction d1 as [|[w a] d IH]; simpl; [ring | rewrite IH; ring]. Qed.
Lemma E_dscale {A} w (d : dist A) f : E (dscale w d) f = w * E d f.
Proof. induction d as [|[w' a] d IH]; simpl; [ring | rewrite IH; ring]. Qed.
Lemma E_ret {A} (a : A) f : E (ret a) f = f a.
Proof. simpl; ring. Qed.
Lemma E_bind {A B} (d : dist A) (g : A -> dist B) f :
  E (bind d g) f = E d (fun a => E (g a) f).
Proof. induction d as [|[w a] d IH]; simpl; [reflexivity | rewrite E_app, E_dscale, IH; reflexivity]. Qed.
Lemma E_ext {A} (d : dist A) f g : (forall a, f a = g a) -> E d f = E d g.
Proof. intros H; induction d as [|[w a] d IH]; simpl; [reflexivity | rewrite H, IH; reflexivity]. Qed.
Lemma E_ext_in {A} (d : dist A) f g : (forall w a, In (w, a) d -> f a = g a) -> E d f = E d g.
Proof.
  induction d as [|[w a] d IH]; simpl; intros H; [reflexivity|].
  rewrite (H w a) by (left; reflexivity). rewrite IH; [reflexivity|].
  intros w' a' Hin; apply (H w' a'); right; exact Hin.
Qed.
Lemma E_add {A} (d : dist A) f g : E d (fun a => f a + g a) = E d f + E d g.
Proof. induction d as [|[w a] d IH]; simpl; [ring | rewrite IH; ring]. Qed.
Lemma E_cmul {A} (d : dist A) c f : E d (fun a => c * f a) = c * E d f.
Proof. induction d as [|[w a] d IH]; simpl; [ring | rewrite IH; ring]. Qed.
Lemma E_mulr {A} (d : dist A) (g : A -> Qc) c : E d (fun a => g a * c) = E d g * c.
Proof. induction d as [|[w a] d IH]; simpl; [ring | rewrite IH; ring]. Qed.
Lemma E_const {A} (d : dist A) c : E d (fun _ => c) = c * mass d.
Proof. unfold mass; induction d as [|[w a] d IH]; simpl; [ring | rewrite IH; ring]. Qed.
Lemma E_zero {A} (d : dist A) : E d (fun _ => 0) = 0.
Proof. rewrite E_const; ring. Qed.

Lemma mass_ret {A} (a : A) : mass (ret a) = 1.
Proof. exact (E_ret a (fun _ => 1)). Qed.
Lemma mass_bind {A B} (d : dist A) (g : A -> dist B) : (forall a, mass (g a) = 1) -> mass (bind d g) = mass d.
Proof. intros H. unfold mass. rewrite E_bind. apply E_ext. exact H. Qed.
Lemma unit_mass_normal {A} (d : dist A) : mass d = 1 -> map (fun p => (fst p / mass d, snd p)) d = d.
Proof.
  intros H. rewrite H. rewrite <- (map_id d) at 2. apply map_ext.
  intros [w v]. cbn [fst snd]. unfold Qcdiv. change (/ 1) with 1. rewrite Qcmult_1_r. reflexivity.
Qed.

Definition supp {A} (d : dist A) (a : A) : Prop := exists w, In (w, a) d.
Lemma supp_ret {A} (a b : A) : supp (ret a) b -> b = a.
Proof. intros [w [H|[]]]; inversion H; reflexivity. Qed.
Lemma supp_dscale {A} w (d : dist A) a : supp (dscale w d) a -> supp d a.
Proof.
  intros [w' H]. unfold dscale in H. apply in_map_iff in H. destruct H as [[w0 a0] [Heq Hin]].
  simpl in Heq. inversion Heq; subst. exists w0; exact Hin.
Qed.
Lemma supp_bind {A B} (d : dist A) (g : A -> dist B) b :
  supp (bind d g) b -> exists a, supp d a /\ supp (g a) b.
Proof.
  induction d as [|[w a] d IH]; simpl; intros [w' H]; [destruct H|].
  apply in_app_or in H. destruct H as [H|H].
  - exists a; split; [exists w; left; reflexivity | apply (supp_dscale w); exists w'; exact H].
  - destruct IH as [a' [[w0 Ha] Hb]]; [exists w'; exact H|].
    exists a'; split; [exists w0; right; exact Ha | exact Hb].
Qed.
Lemma supp_bind_intro {A B} (d : dist A) (g : A -> dist B) w a b :
  In (w, a) d -> supp (g a) b -> supp (bind d g) b.
Proof.
  induction d as [|[w' a'] d IH]; cbn [bind]; intros Hin [wb Hb]; [destruct Hin|].
  destruct Hin as [Heq|Hin].
  - inversion Heq; subst. exists (w * wb). apply in_or_app. left.
    unfold dscale. apply in_map_iff. exists (wb, b). split; [reflexivity | exact Hb].
  - destruct (IH Hin (ex_intro _ wb Hb)) as [w2 H2]. exists w2. apply in_or_app. right. exact H2.
Qed.

Lemma bind_ext_in {A B} (d : dist A) (f g : A -> dist B) :
  (forall w a, In (w, a) d -> f a = g a) -> bind d f = bind d g.
Proof.
  induction d as [|[w a] d IH]; cbn [bind]; intros H; [reflexivity|].
  rewrite (H w a (or_introl eq_refl)), IH; [reflexivity|].
  intros w' a' Hin. apply (H w' a'). right; exact Hin.
Qed.
Lemma bind_ext {A B} (d : dist A) (f g : A -> dist B) : (forall a, f a = g a) -> bind d f = bind d g.
Proof. intros H. apply bind_ext_in. intros _ a _. apply H. Qed.

(* [ret] is a left unit of [bind] as an equality of weighted lists, not only under [E] *)
Lemma dscale_1 {A} (d : dist A) : dscale 1 d = d.
Proof.
  unfold dscale. induction d as [|[w a] d IH]; cbn [map fst snd]; [reflexivity|].
  rewrite IH. replace (1 * w) with w by ring. reflexivity.
Qed.
Lemma bind_ret_l {A B} (a : A) (k : A -> dist B) : bind (ret a) k = k a.
Proof. unfold ret. cbn [bind]. rewrite dscale_1. apply app_nil_r. Qed.
