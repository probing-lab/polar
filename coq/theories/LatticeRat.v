(* C16, rational case: unique factorisation turns multiplicative relations among non-zero
   rationals into a linear system over Z.

   Input (produced by the untrusted harness, re-multiplied here): distinct primes ps and
   for every base a sign bit and the vector of p-adic valuations, b = (+-1) * prod p_j^{v_j}.
     rational_relation_iff :  prod b_i^{e_i} = 1  <->  sum_i e_i v_i = 0  /\  sum_{neg i} e_i even
   and with the generation certificate of Lattice.v for the extended system (one extra
   unknown y for the parity, exactly the system compute_basis_rational sets up):
     rational_basis_complete : EVERY relation vector is an integer combination of the rows. *)
From Coq Require Import List Bool Arith Lia Ring Field ZArith Znumtheory Zpow_facts QArith Qcanon.
From Polar Require Import Qcx CRing ExpPoly Lattice LatticeRel.
Import ListNotations.

Local Open Scope Z_scope.

Definition is_prime (p : Z) : bool :=
  (1 <? p) && forallb (fun d => negb (p mod (Z.of_nat d) =? 0)) (seq 2 (Z.to_nat p - 2)).

Lemma is_prime_sound p : is_prime p = true -> prime p.
Proof.
  unfold is_prime. intros H. apply andb_true_iff in H. destruct H as [H1 H2].
  apply Z.ltb_lt in H1. apply prime_alt. split; [exact H1|].
  intros n Hn Hd. rewrite forallb_forall in H2.
  assert (Hin : In (Z.to_nat n) (seq 2 (Z.to_nat p - 2))) by (apply in_seq; lia).
  specialize (H2 _ Hin). apply negb_true_iff in H2. apply Z.eqb_neq in H2.
  apply H2. rewrite Z2Nat.id by lia. apply Z.mod_divide; [lia | exact Hd].
Qed.

Fixpoint nodupb (l : list Z) : bool :=
  match l with [] => true | x :: l' => negb (existsb (Z.eqb x) l') && nodupb l' end.
Lemma nodupb_sound l : nodupb l = true -> NoDup l.
Proof.
  induction l as [|x l IH]; intros H; constructor.
  - cbn [nodupb] in H. apply andb_true_iff in H. destruct H as [H _].
    apply negb_true_iff in H. intros Hin.
    assert (E : existsb (Z.eqb x) l = true) by (apply existsb_exists; exists x; split; [exact Hin | apply Z.eqb_refl]).
    congruence.
  - cbn [nodupb] in H. apply andb_true_iff in H. destruct H as [_ H]. apply IH; exact H.
Qed.

(* [ppz ps ns] is the integer prod_j p_j^{n_j} (exponents meant non-negative).  [posp a] and
   [negp a] are the positive and negative parts of an exponent vector, a = posp a - negp a, so
   that prod_j p_j^{a_j} is the quotient of ppz ps (posp a) by ppz ps (negp a) ([pp_ND]). *)
Fixpoint ppz (ps ns : list Z) : Z :=
  match ps, ns with p :: ps', n :: ns' => p ^ n * ppz ps' ns' | _, _ => 1 end.
Definition posp (a : list Z) := map (Z.max 0) a.
Definition negp (a : list Z) := map (fun x => Z.max 0 (- x)) a.

Lemma ppz_pos ps ns : Forall (fun p => 0 < p) ps -> Forall (fun n => 0 <= n) ns -> 0 < ppz ps ns.
Proof.
  revert ns; induction ps as [|p ps IH]; intros [|n ns] H Hn; cbn [ppz]; try lia.
  inversion H; subst. inversion Hn; subst.
  apply Z.mul_pos_pos; [apply Z.pow_pos_nonneg; assumption | apply IH; assumption].
Qed.
Lemma posp_nonneg a : Forall (fun n => 0 <= n) (posp a).
Proof. apply Forall_map, Forall_forall. intros x _. lia. Qed.
Lemma negp_nonneg a : Forall (fun n => 0 <= n) (negp a).
Proof. apply Forall_map, Forall_forall. intros x _. lia. Qed.

Lemma prime_not_div_ppz p ps : prime p -> Forall prime ps -> ~ In p ps ->
  forall ns, Forall (fun n => 0 <= n) ns -> ~ (p | ppz ps ns).
Proof.
  intros Hp. induction ps as [|q ps IH]; intros Hps Hnin [|n ns] Hns Hd; cbn [ppz] in Hd;
    (* an empty product is 1 *)
    try (apply Z.divide_1_r in Hd; pose proof (prime_ge_2 p Hp); lia).
  inversion Hps; subst. inversion Hns; subst.
  apply prime_mult in Hd; [|exact Hp]. destruct Hd as [Hd|Hd].
  - apply (prime_power_prime p q n) in Hd; try assumption.
    apply Hnin. left. symmetry; exact Hd.
  - apply (IH H2 (fun Hin => Hnin (or_intror Hin)) ns H4 Hd).
Qed.

(* a prime outside ps divides a product with a positive power of it and no product over ps *)
Lemma ppz_head_absurd p ps n us vs : prime p -> Forall prime ps -> ~ In p ps -> 0 < n ->
  Forall (fun n => 0 <= n) vs -> p ^ n * ppz ps us = ppz ps vs -> False.
Proof.
  intros Hp Hps Hnin Hn Hvs E. apply (prime_not_div_ppz p ps Hp Hps Hnin vs Hvs).
  rewrite <- E. apply Z.divide_mul_l, Zpower_divide, Hn.
Qed.

(* unique factorisation in the form needed: equal "positive part" and "negative part" products
   over distinct primes force all exponents to be 0 *)
Lemma ppz_unique ps : Forall prime ps -> NoDup ps ->
  forall a, length a = length ps -> ppz ps (posp a) = ppz ps (negp a) ->
    a = zeros (R := Z_cring) (length ps).
Proof.
  induction ps as [|p ps IH]; intros Hps Hnd [|x a] L E; try discriminate L; [reflexivity|].
  inversion Hps; subst. inversion Hnd; subst.
  cbn [posp negp map ppz] in E. fold (posp a) in E. fold (negp a) in E.
  assert (Hx : x = 0).
  { destruct (Z.lt_trichotomy x 0) as [Hneg|[H0|Hpos]]; [|exact H0|]; exfalso.
    - replace (Z.max 0 x) with 0 in E by lia. rewrite Z.pow_0_r, Z.mul_1_l in E. symmetry in E.
      revert E. apply ppz_head_absurd; try assumption; [lia | apply posp_nonneg].
    - replace (Z.max 0 (- x)) with 0 in E by lia. rewrite Z.pow_0_r, Z.mul_1_l in E.
      revert E. apply ppz_head_absurd; try assumption; [lia | apply negp_nonneg]. }
  subst x. change (0 :: a = 0 :: zeros (R := Z_cring) (length ps)). f_equal.
  apply IH; try assumption; [injection L; trivial|].
  change (Z.max 0 (- 0)) with 0 in E. change (Z.max 0 0) with 0 in E.
  rewrite Z.pow_0_r, !Z.mul_1_l in E. exact E.
Qed.

Local Open Scope Qc_scope.
Definition zq (z : Z) : Qc := Q2Qc (inject_Z z).

Lemma zq_mul x y : zq (x * y) = zq x * zq y.
Proof.
  unfold zq. apply Qc_is_canon. unfold Qcmult, Q2Qc. cbn [this]. rewrite !Qred_correct. rewrite inject_Z_mult. reflexivity.
Qed.
Lemma zq_opp x : zq (- x) = - zq x.
Proof.
  unfold zq. apply Qc_is_canon. unfold Qcopp, Q2Qc. cbn [this]. rewrite !Qred_correct. rewrite inject_Z_opp. reflexivity.
Qed.
Lemma zq_1 : zq 1 = 1.
Proof. reflexivity. Qed.
Lemma zq_0 : zq 0 = 0.
Proof. reflexivity. Qed.
Lemma zq_inj x y : zq x = zq y -> x = y.
Proof.
  unfold zq. intros H. apply Q2Qc_eq_iff in H.
  unfold Qeq, inject_Z in H. simpl in H. lia.
Qed.
Lemma zq_nonzero x : x <> 0%Z -> zq x <> 0.
Proof. intros H E. rewrite <- zq_0 in E. apply zq_inj in E. contradiction. Qed.

(* integer powers in Qc, with the field inverse as the supplied inverse *)
Definition qbase (b : Qc) : Qc * Qc := (b, / b).
Definition zpowq (b : Qc) (e : Z) : Qc := zpow (R := Qc_cring) b (/ b) e.
Definition qrelation (bs : list Qc) (e : list Z) : Prop := is_relation (R := Qc_cring) (map qbase bs) e.

Lemma zq_rpow p n : rpow (R := Qc_cring) (zq p) n = zq (p ^ Z.of_nat n).
Proof.
  induction n as [|n IH]; [symmetry; apply zq_1|].
  rewrite Nat2Z.inj_succ, Z.pow_succ_r by lia. rewrite zq_mul, <- IH. reflexivity.
Qed.

(* a power of the integer p is the quotient of p^(x+) by p^(x-) *)
Lemma zpowq_zq p x : (0 < p)%Z -> zpowq (zq p) x * zq (p ^ Z.max 0 (- x)) = zq (p ^ Z.max 0 x).
Proof.
  intros Hp. unfold zpowq. rewrite (zpow_split Qc_cring).
  replace (Z.max 0 x) with (Z.of_nat (Z.to_nat x)) by lia.
  replace (Z.max 0 (- x)) with (Z.of_nat (Z.to_nat (- x))) by lia.
  rewrite <- !zq_rpow. set (m := Z.to_nat (- x)).
  assert (Hz : zq p <> 0) by (apply zq_nonzero; lia).
  pose proof (rpow_inv Qc_cring _ _ m (Qcmult_inv_r _ Hz)) as E. cbn [rmul r1 Qc_cring] in E |- *.
  transitivity (rpow (R := Qc_cring) (zq p) (Z.to_nat x) *
                (rpow (R := Qc_cring) (zq p) m * rpow (R := Qc_cring) (/ zq p) m)); [ring|].
  rewrite E. ring.
Qed.

(* In Qc:  pp ps a = prod_j p_j^{a_j}  (a_j in Z)  and  psi ps n a = (-1)^n * prod_j p_j^{a_j}.
   A base is given as f = (sign bit, valuations) and denotes  qfact ps f = psi ps (tz sign) valuations,
   [tz] reading the bit as the exponent of -1. *)
Definition pbases (ps : list Z) : list (Qc * Qc) := map (fun p => qbase (zq p)) ps.
Definition pp (ps a : list Z) : Qc := prodpow (R := Qc_cring) (pbases ps) a.
Definition tz (t : bool) : Z := if t then 1%Z else 0%Z.
Definition psi (ps : list Z) (n : Z) (a : list Z) : Qc := zpowq (- (1)) n * pp ps a.
Definition qfact (ps : list Z) (f : bool * list Z) : Qc := psi ps (tz (fst f)) (snd f).

Lemma pbases_ok ps : Forall (fun p => 0 < p)%Z ps -> inverses_ok (R := Qc_cring) (pbases ps).
Proof.
  intros H q Hq. unfold pbases in Hq. apply in_map_iff in Hq. destruct Hq as [p [<- Hp]].
  cbn [qbase fst snd]. rewrite Forall_forall in H. specialize (H p Hp).
  apply (Qcmult_inv_r (zq p)). apply zq_nonzero. lia.
Qed.

(* pp as a quotient of two integers *)
Lemma pp_ND ps : Forall (fun p => 0 < p)%Z ps -> forall a,
  pp ps a * zq (ppz ps (negp a)) = zq (ppz ps (posp a)).
Proof.
  induction ps as [|p ps IH]; intros H [|x a];
    try (unfold pp; cbn [pbases map prodpow negp posp ppz qbase]; rewrite zq_1; cbn [r1 Qc_cring]; ring).
  inversion H; subst.
  cbn [negp posp map ppz]. fold (negp a). fold (posp a).
  rewrite !zq_mul, <- (IH H3 a), <- (zpowq_zq p x H2).
  unfold pp. cbn [pbases map prodpow qbase rmul Qc_cring]. fold (pbases ps). fold (zpowq (zq p) x). ring.
Qed.

Lemma rpow_m1 n : rpow (R := Qc_cring) (- (1)) n = if Nat.even n then 1 else - (1).
Proof.
  induction n as [|n IH]; [reflexivity|].
  rewrite Nat.even_succ, <- Nat.negb_even. cbn [rpow]. rewrite IH.
  destruct (Nat.even n); cbn [negb rmul car Qc_cring]; ring.
Qed.
Lemma inv_m1 : / - (1) = - (1).
Proof. apply Qc_inv_unique. ring. Qed.
Lemma m1_sq : rmul (c := Qc_cring) (- (1)) (- (1)) = 1.
Proof. change (- (1) * - (1) = 1). ring. Qed.
Lemma zpowq_m1_even n : Z.Even n -> zpowq (- (1)) n = 1.
Proof. intros [h ->]. unfold zpowq. rewrite inv_m1. apply (zpow_involution Qc_cring), m1_sq. Qed.
Lemma zpowq_m1_odd n : Z.Odd n -> zpowq (- (1)) n = - (1).
Proof.
  intros [h ->]. unfold zpowq. rewrite inv_m1, (zpow_add Qc_cring) by exact m1_sq.
  rewrite (zpow_involution Qc_cring) by exact m1_sq.
  cbn [zpow]. change (Pos.to_nat 1) with 1%nat. cbn [rpow rmul r1 car Qc_cring]. ring.
Qed.

(* psi is the product of powers over the sign base -1 followed by the primes *)
Definition sbases (ps : list Z) : list (Qc * Qc) := qbase (- (1)) :: pbases ps.

Lemma sbases_ok ps : Forall (fun p => 0 < p)%Z ps -> inverses_ok (R := Qc_cring) (sbases ps).
Proof.
  intros H q [<-|Hq]; [|exact (pbases_ok ps H q Hq)].
  cbn [qbase fst snd]. rewrite inv_m1. exact m1_sq.
Qed.

Definition signs (facts : list (bool * list Z)) : list Z := map (fun f => tz (fst f)) facts.
Definition valrows (facts : list (bool * list Z)) : list (list Z) := map snd facts.

Lemma lincomb_sign_rows m facts e :
  lincomb (R := Z_cring) (S m) e (map (fun f => tz (fst f) :: snd f) facts)
  = vdot (R := Z_cring) e (signs facts) :: lincomb (R := Z_cring) m e (valrows facts).
Proof. exact (lincomb_cons_rows Z_cring m (fun f => tz (fst f)) snd facts e). Qed.

Lemma qfact_bases ps facts : Forall (fun p => 0 < p)%Z ps ->
  map qbase (map (qfact ps) facts)
  = row_bases (R := Qc_cring) (sbases ps) (map (fun f => tz (fst f) :: snd f) facts).
Proof.
  intros H. unfold row_bases. rewrite !map_map. apply map_ext. intros f.
  apply (f_equal (pair (qfact ps f))), Qc_inv_unique.
  exact (prodpow_inv Qc_cring _ (sbases_ok ps H) (tz (fst f) :: snd f)).
Qed.

Lemma prodpow_facts ps m facts : Forall (fun p => 0 < p)%Z ps -> forall e,
  prodpow (R := Qc_cring) (map qbase (map (qfact ps) facts)) e
  = psi ps (vdot (R := Z_cring) e (signs facts)) (lincomb (R := Z_cring) m e (valrows facts)).
Proof.
  intros H e. rewrite (qfact_bases ps facts H), (prodpow_lincomb Qc_cring _ (S m) (sbases_ok ps H)).
  rewrite lincomb_sign_rows. reflexivity.
Qed.

Lemma prime_pos_all ps : Forall prime ps -> Forall (fun p => 0 < p)%Z ps.
Proof.
  intros H. apply Forall_forall. intros p Hp. rewrite Forall_forall in H.
  pose proof (prime_ge_2 p (H p Hp)). lia.
Qed.

(* unique factorisation: (+-1) * prod p_j^{a_j} = 1 forces the sign exponent even, all a_j = 0 *)
Lemma psi_one ps n a : Forall prime ps -> NoDup ps -> length a = length ps -> psi ps n a = 1 ->
  Z.Even n /\ a = zeros (R := Z_cring) (length ps).
Proof.
  intros Hp Hnd La H. pose proof (prime_pos_all ps Hp) as Hpos.
  pose proof (ppz_pos ps (negp a) Hpos (negp_nonneg a)) as HD.
  pose proof (ppz_pos ps (posp a) Hpos (posp_nonneg a)) as HN.
  (* the denominator of pp cleared: (+-1) * N = D for positive integers N, D *)
  assert (E : zpowq (- (1)) n * zq (ppz ps (posp a)) = zq (ppz ps (negp a))).
  { rewrite <- (pp_ND ps Hpos a). unfold psi in H.
    transitivity (zpowq (- (1)) n * pp ps a * zq (ppz ps (negp a))); [ring | rewrite H; ring]. }
  destruct (Z.Even_or_Odd n) as [He|Ho].
  - split; [exact He|]. rewrite (zpowq_m1_even n He), Qcmult_1_l in E.
    apply zq_inj in E. exact (ppz_unique ps Hp Hnd a La E).
  - exfalso. rewrite (zpowq_m1_odd n Ho) in E.
    assert (E2 : zq (- ppz ps (posp a)) = zq (ppz ps (negp a))) by (rewrite zq_opp, <- E; ring).
    apply zq_inj in E2. lia.
Qed.

Definition facts_wf (ps : list Z) (facts : list (bool * list Z)) : Prop :=
  forall f, In f facts -> length (snd f) = length ps.

Lemma valrows_len ps facts : facts_wf ps facts -> Forall (fun b => length b = length ps) (valrows facts).
Proof.
  intros H. apply Forall_forall. intros b Hb. unfold valrows in Hb. apply in_map_iff in Hb.
  destruct Hb as [f [<- Hf]]. apply H; exact Hf.
Qed.

Theorem rational_relation_iff ps facts :
  Forall prime ps -> NoDup ps -> facts_wf ps facts ->
  forall e : list Z,
    qrelation (map (qfact ps) facts) e <->
    (lincomb (R := Z_cring) (length ps) e (valrows facts) = zeros (R := Z_cring) (length ps)
     /\ Z.Even (vdot (R := Z_cring) e (signs facts))).
Proof.
  intros Hp Hnd Hwf e. pose proof (prime_pos_all ps Hp) as Hpos.
  unfold qrelation, is_relation. rewrite (prodpow_facts ps (length ps) facts Hpos e). split.
  - intros H. apply psi_one in H; try assumption.
    + destruct H as [He Hz]. split; assumption.
    + apply (length_lincomb Z_cring), valrows_len, Hwf.
  - intros [Hz He]. rewrite Hz. unfold psi. rewrite (zpowq_m1_even _ He).
    unfold pp. rewrite (prodpow_zeros Qc_cring). cbn [r1 car Qc_cring]. ring.
Qed.

Definition check_factorisation (ps : list Z) (facts : list (bool * list Z)) (bs : list Qc) : bool :=
  forallb is_prime ps && nodupb ps &&
  forallb (fun f => Nat.eqb (length (snd f)) (length ps)) facts &&
  vec_eqb (R := Qc_cring) (map (qfact ps) facts) bs.

Lemma check_factorisation_sound ps facts bs : check_factorisation ps facts bs = true ->
  Forall prime ps /\ NoDup ps /\ facts_wf ps facts /\ bs = map (qfact ps) facts.
Proof.
  unfold check_factorisation. intros H.
  apply andb_true_iff in H; destruct H as [H Hb].
  apply andb_true_iff in H; destruct H as [H Hf].
  apply andb_true_iff in H; destruct H as [Hp Hn].
  repeat split.
  - apply Forall_forall. intros p Hin. rewrite forallb_forall in Hp. apply is_prime_sound. apply Hp; exact Hin.
  - apply nodupb_sound; exact Hn.
  - intros f Hin. rewrite forallb_forall in Hf. apply Nat.eqb_eq. apply Hf; exact Hin.
  - symmetry. apply (vec_eqb_eq Qc_cring); exact Hb.
Qed.

(* the extended linear system: unknowns (y, e), parity column first *)
Definition vals_ext (m : nat) (facts : list (bool * list Z)) : list (list Z) :=
  (2%Z :: zeros (R := Z_cring) m) :: map (fun f => tz (fst f) :: snd f) facts.

Lemma ext_kernel m facts e y :
  lincomb (R := Z_cring) m e (valrows facts) = zeros (R := Z_cring) m ->
  (2 * y + vdot (R := Z_cring) e (signs facts) = 0)%Z ->
  veq (R := Z_cring) (lincomb (R := Z_cring) (S m) (y :: e) (vals_ext m facts)) [].
Proof.
  intros Hz Hy. unfold vals_ext. cbn [lincomb].
  rewrite lincomb_sign_rows, Hz. intros [|j]; rewrite (nz_vadd Z_cring), (nz_vscale Z_cring), (nz_nil Z_cring).
  - rewrite !(nz_cons_0 Z_cring). cbn [rmul radd r0 car Z_cring]. lia.
  - rewrite !(nz_cons_S Z_cring), (nz_zeros Z_cring). cbn [rmul radd r0 car Z_cring]. lia.
Qed.

Definition check_rational_generates (ps : list Z) (facts : list (bool * list Z)) (bs : list Qc)
           (B' V1 Wa Wc Rt : list (list Z)) (d : Z) : bool :=
  check_factorisation ps facts bs &&
  check_generates_Z (S (length bs)) (vals_ext (length ps) facts) B' V1 Wa Wc Rt d.

(* EVERY multiplicative relation among the rationals bs is an integer combination of the rows
   (parity coordinate dropped) of the certified basis *)
Theorem rational_basis_complete ps facts bs B' V1 Wa Wc Rt d :
  check_rational_generates ps facts bs B' V1 Wa Wc Rt d = true ->
  forall e : list Z, length e = length bs -> qrelation bs e ->
    exists c : list Z, length c = length B' /\ e = zlincomb (length bs) c (map (@tl Z) B').
Proof.
  unfold check_rational_generates. intros H e He Hrel.
  apply andb_true_iff in H; destruct H as [Hf Hg].
  apply check_factorisation_sound in Hf. destruct Hf as [Hp [Hnd [Hwf Hbs]]].
  rewrite Hbs in Hrel. apply (rational_relation_iff ps facts Hp Hnd Hwf e) in Hrel.
  destruct Hrel as [Hz [h Hh]].
  (* (-h, e) solves the extended system; its combination of the rows of B', parity coordinate dropped *)
  destruct (check_generates_Z_veq _ _ _ _ _ _ _ _ Hg ((- h)%Z :: e) (S (length ps))) as [c [Hc Heq]].
  - cbn [length]. rewrite He. reflexivity.
  - apply ext_kernel; [exact Hz | lia].
  - exists c. split; [exact Hc|].
    apply (f_equal (@tl Z)) in Heq. cbn [tl] in Heq. unfold zlincomb in Heq.
    rewrite (tl_lincomb Z_cring) in Heq. exact Heq.
Qed.

(* any ring (quadratic towers): soundness, independence, and the whole Z-span consists of
   relations.  PARTIAL: that the span is ALL relations is not proved for non-rational bases;
   [rational_basis_correct] below adds that part for Qc. *)
Theorem general_basis_partial (R : cring) (bs : list (R * R)) (B Rb : list (list Z)) (d : Z) :
  check_relations bs B = true ->
  check_independent_Z B Rb d = true ->
  inverses_ok bs /\
  (forall row, In row B -> length row = length bs /\ is_relation bs row) /\
  (forall c : list Z, length c = length B ->
     forall k, zlincomb k c B = zeros (R := Z_cring) k -> Forall (fun x => x = 0%Z) c) /\
  (forall k c, is_relation bs (zlincomb k c B)).
Proof.
  intros Hrel Hind. apply (check_relations_sound R) in Hrel. destruct Hrel as [Hok Hrows].
  split; [exact Hok|]. split; [exact Hrows|]. split.
  - intros c Hc k Hz. apply (check_independent_Z_sound _ _ _ Hind c Hc k Hz).
  - intros k c. apply (relations_closed R _ _ Hok). intros r Hr. apply (Hrows r Hr).
Qed.

(* the three validators together: the rows are a BASIS of the relation lattice *)
Theorem rational_basis_correct ps facts bs B' Rb d2 V1 Wa Wc Rt d :
  check_relations (R := Qc_cring) (map qbase bs) (map (@tl Z) B') = true ->
  check_independent_Z (map (@tl Z) B') Rb d2 = true ->
  check_rational_generates ps facts bs B' V1 Wa Wc Rt d = true ->
  (forall row, In row (map (@tl Z) B') -> length row = length bs /\ qrelation bs row) /\
  (forall c : list Z, length c = length B' ->
     forall k, zlincomb k c (map (@tl Z) B') = zeros (R := Z_cring) k -> Forall (fun x => x = 0%Z) c) /\
  (forall e : list Z, length e = length bs ->
     (qrelation bs e <-> exists c : list Z, length c = length B' /\ e = zlincomb (length bs) c (map (@tl Z) B'))).
Proof.
  intros Hrel Hind Hgen.
  destruct (general_basis_partial Qc_cring _ _ Rb d2 Hrel Hind) as [_ [Hrows [Hindep Hspan]]].
  split; [|split].
  - intros row Hrow. destruct (Hrows row Hrow) as [HL HR]. rewrite map_length in HL. split; assumption.
  - intros c Hc. apply Hindep. rewrite map_length; exact Hc.
  - intros e He. split; [apply (rational_basis_complete ps facts bs B' V1 Wa Wc Rt d Hgen e He)|].
    intros [c [_ ->]]. apply Hspan.
Qed.
