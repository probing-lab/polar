(* C20, part 1 — goal order / worklist pop order / set iteration order.
   A linear recurrence system  x(n+1) = A x(n), x(0) = v  whose monomials are enumerated in
   a different order is the consistently permuted system  (P A P^-1, P v).  Its solution
   is the permuted solution  P A^n v  for EVERY n, over EVERY commutative ring: no
   component of the solution depends on the enumeration order. *)
From Coq Require Import List Bool Arith Lia Ring Permutation.
From Polar Require Import CRing ExpPoly ClosedForm.
Import ListNotations.

Section Perm.
  Variable R : cring.
  Add Ring Rring : (rth R).
  Local Open Scope cr_scope.
  Notation "0" := (@r0 R).

  (* component j of [permute sigma v] is component sigma(j) of v *)
  Definition permute (sigma : list nat) (v : list R) : list R :=
    map (fun i => nth i v 0) sigma.
  (* entry (a,b) of [pmat sigma A] is A[sigma a][sigma b] *)
  Definition pmat (sigma : list nat) (A : list (list R)) : list (list R) :=
    map (fun i => permute sigma (nth i A [])) sigma.

  Definition is_perm (sigma : list nat) (k : nat) : Prop := Permutation sigma (seq 0 k).
  Definition square (A : list (list R)) (k : nat) : Prop :=
    length A = k /\ Forall (fun r => length r = k) A.

  Fixpoint sumf (f : nat -> R) (l : list nat) : R :=
    match l with [] => 0 | i :: l' => f i + sumf f l' end.

  Lemma sumf_perm f l l' : Permutation l l' -> sumf f l = sumf f l'.
  Proof.
    intros H; induction H as [|x l l' H IH|x y l|l l' l'' H1 IH1 H2 IH2]; cbn [sumf].
    - reflexivity.
    - rewrite IH; reflexivity.
    - ring.
    - rewrite IH1; exact IH2.
  Qed.

  Lemma sumf_map f (g : nat -> nat) l : sumf f (map g l) = sumf (fun i => f (g i)) l.
  Proof. induction l as [|i l IH]; cbn [sumf map]; [reflexivity | rewrite IH; reflexivity]. Qed.

  Lemma dot_map_map (f1 f2 : nat -> R) l :
    dot (map f1 l) (map f2 l) = sumf (fun i => f1 i * f2 i) l.
  Proof. induction l as [|i l IH]; cbn [dot map sumf]; [reflexivity | rewrite IH; reflexivity]. Qed.

  Lemma dot_as_sum (r x : list R) : length r = length x ->
    dot r x = sumf (fun i => nth i r 0 * nth i x 0) (seq 0 (length r)).
  Proof.
    revert x; induction r as [|a r IH]; intros [|b x] Hl; cbn [length] in Hl; try discriminate.
    - reflexivity.
    - cbn [dot length seq sumf nth]. rewrite <- seq_shift, sumf_map. cbn [nth].
      rewrite IH by lia. reflexivity.
  Qed.

  (* a scalar product does not see a common reordering of its two arguments *)
  Lemma dot_permute sigma k (r x : list R) :
    is_perm sigma k -> length r = k -> length x = k ->
    dot (permute sigma r) (permute sigma x) = dot r x.
  Proof.
    intros Hs Hr Hx. unfold permute. rewrite dot_map_map.
    rewrite dot_as_sum by lia. rewrite Hr. apply sumf_perm. exact Hs.
  Qed.

  Lemma perm_lt sigma k i : is_perm sigma k -> In i sigma -> i < k.
  Proof.
    intros Hs Hi. apply (Permutation_in _ Hs) in Hi. apply in_seq in Hi. lia.
  Qed.

  Lemma perm_length sigma k : is_perm sigma k -> length sigma = k.
  Proof. intros Hs. rewrite (Permutation_length Hs). apply seq_length. Qed.

  Lemma square_row A k i : square A k -> i < k -> length (nth i A []) = k.
  Proof.
    intros [Hl Hf] Hi. rewrite Forall_forall in Hf. apply Hf. apply nth_In. lia.
  Qed.

  (* one step:  (P A P^-1) (P x) = P (A x) *)
  Lemma mvec_pmat sigma k (A : list (list R)) (x : list R) :
    is_perm sigma k -> square A k -> length x = k ->
    mvec (pmat sigma A) (permute sigma x) = permute sigma (mvec A x).
  Proof.
    intros Hs HA Hx. unfold mvec, pmat. rewrite map_map.
    unfold permute at 3. apply map_ext_in. intros i Hi.
    pose proof (perm_lt _ _ _ Hs Hi) as Hik.
    rewrite (dot_permute sigma k) by (auto using square_row).
    change 0 with (dot (@nil R) x) at 1.
    rewrite (map_nth (fun r => dot r x) A [] i). reflexivity.
  Qed.

  (* all n:  (P A P^-1)^n (P v) = P (A^n v) *)
  Theorem system_perm_invariant sigma k (A : list (list R)) (v : list R) :
    is_perm sigma k -> square A k -> length v = k ->
    forall n, iter_mat (pmat sigma A) n (permute sigma v) = permute sigma (iter_mat A n v).
  Proof.
    intros Hs HA Hv.
    apply (iter_mat_sim (fun y => length y = k) (permute sigma) A (pmat sigma A)); [| |exact Hv].
    - intros y _. rewrite mvec_length. exact (proj1 HA).
    - intros y Hy. apply (mvec_pmat sigma k); assumption.
  Qed.

  Lemma nth_permute sigma (w : list R) j :
    j < length sigma -> nth j (permute sigma w) 0 = nth (nth j sigma O) w 0.
  Proof.
    intros Hj. unfold permute.
    rewrite (nth_indep _ 0 ((fun i => nth i w 0) O)) by (rewrite map_length; exact Hj).
    apply (map_nth (fun i => nth i w 0)).
  Qed.

  (* component form: slot j of the permuted system carries component sigma(j) *)
  Corollary system_perm_component sigma k (A : list (list R)) (v : list R) :
    is_perm sigma k -> square A k -> length v = k ->
    forall n j, j < k ->
      nth j (iter_mat (pmat sigma A) n (permute sigma v)) 0 = nth (nth j sigma O) (iter_mat A n v) 0.
  Proof.
    intros Hs HA Hv n j Hj. rewrite (system_perm_invariant sigma k) by assumption.
    apply nth_permute. rewrite (perm_length _ _ Hs). exact Hj.
  Qed.

  (* with the verified validator: closed forms accepted for the two enumerations of the
     same system agree, componentwise under the permutation, at every n *)
  Corollary accepted_perm_agree sigma k (A : list (list R)) (v : list R) F sp F' sp' :
    is_perm sigma k -> square A k -> length v = k ->
    check_solution A v F sp = true ->
    check_solution (pmat sigma A) (permute sigma v) F' sp' = true ->
    forall n, pw_eval F' sp' n = permute sigma (pw_eval F sp n).
  Proof.
    intros Hs HA Hv H H' n.
    rewrite (check_solution_sound R _ _ _ _ H n), (check_solution_sound R _ _ _ _ H' n).
    apply (system_perm_invariant sigma k); assumption.
  Qed.

  Corollary accepted_perm_agree_component sigma k (A : list (list R)) (v : list R) F sp F' sp' :
    is_perm sigma k -> square A k -> length v = k ->
    check_solution A v F sp = true ->
    check_solution (pmat sigma A) (permute sigma v) F' sp' = true ->
    forall n j, j < k -> nth j (pw_eval F' sp' n) 0 = nth (nth j sigma O) (pw_eval F sp n) 0.
  Proof.
    intros Hs HA Hv H H' n j Hj.
    rewrite (accepted_perm_agree sigma k A v F sp F' sp') by assumption.
    apply nth_permute. rewrite (perm_length _ _ Hs). exact Hj.
  Qed.

  (* two different enumeration orders of the same system: related by both permutations *)
  Corollary two_orders_agree sigma tau k (A : list (list R)) (v : list R) :
    is_perm sigma k -> is_perm tau k -> square A k -> length v = k ->
    forall n i j, i < k -> j < k -> nth i sigma O = nth j tau O ->
      nth i (iter_mat (pmat sigma A) n (permute sigma v)) 0
      = nth j (iter_mat (pmat tau A) n (permute tau v)) 0.
  Proof.
    intros Hs Ht HA Hv n i j Hi Hj E.
    rewrite (system_perm_component sigma k), (system_perm_component tau k) by assumption.
    rewrite E. reflexivity.
  Qed.
End Perm.

Arguments permute {R} _ _. Arguments pmat {R} _ _.
Arguments square {R} _ _.

(* decidable side condition, for the examples and for generated case files *)
Definition is_permb (sigma : list nat) (k : nat) : bool :=
  (length sigma =? k) && forallb (fun i => existsb (Nat.eqb i) sigma) (seq 0 k).

Lemma is_permb_sound sigma k : is_permb sigma k = true -> is_perm sigma k.
Proof.
  unfold is_permb, is_perm. intros H. apply andb_true_iff in H. destruct H as [Hl Hf].
  apply Nat.eqb_eq in Hl. rewrite forallb_forall in Hf.
  apply Permutation_sym. apply NoDup_Permutation_bis.
  - apply seq_NoDup.
  - rewrite seq_length. lia.
  - intros i Hi. specialize (Hf i Hi). apply existsb_exists in Hf.
    destruct Hf as [j [Hj E]]. apply Nat.eqb_eq in E. subst. exact Hj.
Qed.
