(* C06: not only the reported basis polynomials but EVERY member of the ideal they generate
   vanishes on the goal sequences: if each B_i passes [check_invariant] against the closed
   forms F, then sum_i C_i * B_i evaluates to 0 at every n, for arbitrary cofactors C_i over
   the goal variables.  (Polar reports a basis and says "the invariant ideal"; a user may rely
   on any consequence of the basis.) *)
From Coq Require Import List Bool Arith Lia Ring.
From Polar Require Import CRing ExpPoly Invariant.
Import ListNotations.

Section Ideal.
  Variable R : cring.
  Add Ring Rring2 : (rth R).
  Local Open Scope cr_scope.
  Local Notation z0 := (@r0 R).

  Fixpoint ideal_comb (Cs Bs : list (mpoly R)) : mpoly R :=
    match Cs, Bs with
    | c :: Cs', b :: Bs' => mpmul c b ++ ideal_comb Cs' Bs'
    | _, _ => []
    end.

  Lemma ideal_comb_vanishes (xs : list R) : forall (Cs Gs : list (mpoly R)),
    (forall G, In G Gs -> poly_eval G xs = z0) -> poly_eval (ideal_comb Cs Gs) xs = z0.
  Proof.
    induction Cs as [|c Cs IH]; intros [|g Gs] HG; cbn [ideal_comb poly_eval]; try reflexivity.
    rewrite poly_eval_app, poly_eval_mpmul, (HG g (or_introl eq_refl)), IH; [ring|].
    intros G HGin. apply HG. right. exact HGin.
  Qed.

  (* the bound on the cofactors' exponent vectors is not used: monomial evaluation reads exponent
     lists only as far as there are variables *)
  Theorem ideal_member_invariant (Bs Cs : list (mpoly R)) (F : list (epoly R)) :
    forallb (fun B => check_invariant B F) Bs = true ->
    forallb (exps_ok (length F)) Cs = true ->
    forall n, poly_eval (ideal_comb Cs Bs) (evalF F n) = z0.
  Proof.
    intros HB _ n. rewrite forallb_forall in HB.
    apply ideal_comb_vanishes. intros B HBin. apply check_invariant_sound, HB, HBin.
  Qed.
End Ideal.

Arguments ideal_comb {R} _ _.
