(* C09 — the limit n -> infinity of the moment-given-termination sequence (cli.common.transform_to_after_loop
   takes limit_seq of the ratio).  All real-number material (Reals, Coquelicot) of C09 is confined to this file.
   A numerator and a denominator that are a constant plus terms r^n P(n) with |r| < 1 converge to their constants
   (n^k r^n -> 0 by d'Alembert), so the ratio converges to the ratio of the constants when the denominator's is
   not 0: [limit_value] computes that value from the validated closed forms, and the harness compares it with
   what Polar prints.  A dominant growing term in the numerator makes the ratio diverge. *)
From Coq Require Import QArith Qcanon Qreals Reals Lra Lia List Bool Arith.
From Coquelicot Require Import Coquelicot.
From Polar Require Import Qcx CRing ExpPoly AfterLoop.
Import ListNotations.
Local Open Scope R_scope.

Lemma lim_const_plus a (v : nat -> R) : is_lim_seq v 0 -> is_lim_seq (fun n => a + v n) a.
Proof.
  intros H. replace (Finite a) with (Finite (a + 0)) by (f_equal; apply Rplus_0_r).
  apply is_lim_seq_plus'; [apply is_lim_seq_const | exact H].
Qed.
Lemma lim_0_plus (u v : nat -> R) (l : R) : is_lim_seq u 0 -> is_lim_seq v l -> is_lim_seq (fun n => u n + v n) l.
Proof.
  intros Hu Hv. replace (Finite l) with (Finite (0 + l)) by (f_equal; apply Rplus_0_l).
  apply is_lim_seq_plus'; assumption.
Qed.
Lemma lim_scal_0 c (v : nat -> R) : is_lim_seq v 0 -> is_lim_seq (fun n => c * v n) 0.
Proof.
  intros H. replace (Finite 0) with (Finite (c * 0)) by (f_equal; apply Rmult_0_r).
  apply is_lim_seq_mult'; [apply is_lim_seq_const | exact H].
Qed.

(* The purely geometric case, for arbitrary real sequences: constants plus sums b * r^n with real
   |r| < 1 ([geom_limit], the shape DESIGN names).  The limit theorem the check relies on is
   [limit_value_sound] further down, which allows polynomial factors r^n P(n) and reads the shape
   off the validated closed forms over Qc. *)
Fixpoint gsum (l : list (R * R)) (n : nat) : R :=
  match l with [] => 0 | (b, r) :: l' => b * r ^ n + gsum l' n end.

Lemma gsum_lim l : List.Forall (fun br => Rabs (snd br) < 1) l -> is_lim_seq (gsum l) 0.
Proof.
  induction l as [|[b r] l IH]; intros H; cbn [gsum].
  - apply is_lim_seq_const.
  - inversion H as [|x y Hr Hl]; subst.
    apply lim_0_plus; [apply lim_scal_0, is_lim_seq_geom; exact Hr | apply IH; exact Hl].
Qed.

Lemma const_gsum_lim (f : nat -> R) a l :
  (forall n, f n = a + gsum l n) -> List.Forall (fun br => Rabs (snd br) < 1) l -> is_lim_seq f a.
Proof.
  intros Hf Hl. apply (is_lim_seq_ext (fun n => a + gsum l n)); [intros n; symmetry; apply Hf|].
  apply lim_const_plus, gsum_lim, Hl.
Qed.

Theorem geom_limit (num den : nat -> R) a c ln ld :
  (forall n, num n = a + gsum ln n) -> (forall n, den n = c + gsum ld n) ->
  List.Forall (fun br => Rabs (snd br) < 1) ln -> List.Forall (fun br => Rabs (snd br) < 1) ld ->
  c <> 0 -> is_lim_seq (fun n => num n / den n) (a / c).
Proof.
  intros Hn Hd Hln Hld Hc.
  apply is_lim_seq_div'; [exact (const_gsum_lim num a ln Hn Hln) | exact (const_gsum_lim den c ld Hd Hld) | exact Hc].
Qed.

Lemma lim_pow_seq (u : nat -> R) (l : R) k : is_lim_seq u l -> is_lim_seq (fun n => u n ^ k) (l ^ k).
Proof.
  intros H; induction k as [|k IH]; cbn [pow].
  - apply is_lim_seq_const.
  - apply is_lim_seq_mult'; assumption.
Qed.

Lemma lim_inv_Sn : is_lim_seq (fun n => / INR (S n)) 0.
Proof.
  change (Finite 0) with (Rbar_inv p_infty).
  apply is_lim_seq_inv; [|discriminate].
  apply (is_lim_seq_incr_1 INR). apply is_lim_seq_INR.
Qed.

Lemma lim_ratio : is_lim_seq (fun n => INR (S (S n)) / INR (S n)) 1.
Proof.
  apply (is_lim_seq_ext (fun n => 1 + / INR (S n))).
  - intros n. rewrite (S_INR (S n)). field. apply not_0_INR. discriminate.
  - apply lim_const_plus, lim_inv_Sn.
Qed.

Lemma ratio_cancel x2 x1 r y : x1 <> 0 -> y <> 0 -> x2 * (r * y) / (x1 * y) = x2 / x1 * r.
Proof. intros H1 Hy. field. split; assumption. Qed.

Theorem poly_geom_decay r k : Rabs r < 1 -> is_lim_seq (fun n => INR n ^ k * r ^ n) 0.
Proof.
  intros Hr. apply is_lim_seq_incr_1. destruct (Req_dec r 0) as [->|Hr0].
  - apply (is_lim_seq_ext (fun _ => 0)); [|apply is_lim_seq_const].
    intros n. cbn [pow]. ring.
  - (* d'Alembert: the ratio of consecutive terms is ((n+2)/(n+1))^k * r, of modulus -> |r| < 1 *)
    set (a := fun n => INR (S n) ^ k * r ^ S n).
    apply is_lim_seq_abs_0, ex_series_lim_0, (ex_series_DAlembert a (Rabs r) Hr).
    + intros n. apply Rmult_integral_contrapositive_currified; apply pow_nonzero;
        [apply not_0_INR; discriminate | exact Hr0].
    + apply (is_lim_seq_ext (fun n => (INR (S (S n)) / INR (S n)) ^ k * Rabs r)).
      * intros n. unfold a. rewrite <- (tech_pow_Rmult r (S n)).
        rewrite (ratio_cancel _ _ _ _ (pow_nonzero _ k (not_0_INR _ (Nat.neq_succ_0 n))) (pow_nonzero _ _ Hr0)).
        unfold Rdiv. rewrite <- pow_inv, <- Rpow_mult_distr, Rabs_mult. f_equal.
        symmetry. apply Rabs_pos_eq, pow_le, Rlt_le.
        apply Rdiv_lt_0_compat; apply lt_0_INR; lia.
      * replace (Finite (Rabs r)) with (Finite (1 ^ k * Rabs r)) by (f_equal; rewrite pow1; apply Rmult_1_l).
        apply is_lim_seq_mult'; [apply lim_pow_seq, lim_ratio | apply is_lim_seq_const].
Qed.

(* exponential polynomials over Qc seen in R, through the canonical representative *)
Definition QcR (x : Qc) : R := Q2R (this x).

Lemma QcR_Q2Qc q : QcR (Q2Qc q) = Q2R q.
Proof. apply Qeq_eqR, Qred_correct. Qed.

Lemma QcR_plus x y : QcR (x + y)%Qc = QcR x + QcR y.
Proof. unfold Qcplus. rewrite QcR_Q2Qc. apply Q2R_plus. Qed.
Lemma QcR_mult x y : QcR (x * y)%Qc = QcR x * QcR y.
Proof. unfold Qcmult. rewrite QcR_Q2Qc. apply Q2R_mult. Qed.
Lemma QcR_opp x : QcR (- x)%Qc = - QcR x.
Proof. unfold Qcopp. rewrite QcR_Q2Qc. apply Q2R_opp. Qed.
Lemma QcR_minus x y : QcR (x - y)%Qc = QcR x - QcR y.
Proof. unfold Qcminus. rewrite QcR_plus, QcR_opp. reflexivity. Qed.
Lemma QcR_0 : QcR 0%Qc = 0.
Proof. unfold QcR. cbn [this Q2Qc]. unfold Q2R. cbn. lra. Qed.
Lemma QcR_1 : QcR 1%Qc = 1.
Proof. unfold QcR. cbn [this Q2Qc]. unfold Q2R. cbn. lra. Qed.
Lemma QcR_inv x : QcR (/ x)%Qc = / QcR x.
Proof.
  destruct (Qeq_dec (this x) 0) as [E|E].
  - assert (Hx : x = 0%Qc) by (apply Qc_is_canon; exact E). subst x.
    unfold QcR. cbn. unfold Q2R. cbn. rewrite Rmult_0_l, Rinv_0. reflexivity.
  - unfold Qcinv. rewrite QcR_Q2Qc. apply Q2R_inv. exact E.
Qed.
Lemma QcR_div x y : QcR (x / y)%Qc = QcR x / QcR y.
Proof. unfold Qcdiv, Rdiv. rewrite QcR_mult, QcR_inv. reflexivity. Qed.
Lemma QcR_lt x y : (x < y)%Qc -> QcR x < QcR y.
Proof. unfold Qclt, QcR. apply Qlt_Rlt. Qed.
Lemma QcR_le x y : (x <= y)%Qc -> QcR x <= QcR y.
Proof. unfold Qcle, QcR. apply Qle_Rle. Qed.
Lemma QcR_inj_0 x : QcR x = 0 -> x = 0%Qc.
Proof.
  unfold QcR. intros H. apply Qc_is_canon. cbn. apply eqR_Qeq. rewrite H. unfold Q2R. cbn. lra.
Qed.

Lemma QcR_rpow (r : Qc) n : QcR (rpow (R := Qc_cring) r n) = QcR r ^ n.
Proof. induction n as [|n IH]; cbn [rpow pow]; [apply QcR_1 | cbn; rewrite QcR_mult, IH; reflexivity]. Qed.
Lemma QcR_qpow r n : QcR (qpow r n) = QcR r ^ n.
Proof. induction n as [|n IH]; cbn [qpow pow]; [apply QcR_1 | rewrite QcR_mult, IH; reflexivity]. Qed.
Lemma QcR_rnat n : QcR (rnat (R := Qc_cring) n) = INR n.
Proof.
  induction n as [|n IH]; [apply QcR_0|].
  rewrite S_INR. cbn [rnat]. cbn. rewrite QcR_plus, IH, QcR_1. reflexivity.
Qed.

(* evaluation of a coefficient list in R *)
Fixpoint rpeval (cs : list Qc) (x : R) : R := match cs with [] => 0 | c :: cs' => QcR c + x * rpeval cs' x end.
Lemma QcR_peval cs (x : Qc) : QcR (peval (R := Qc_cring) cs x) = rpeval cs (QcR x).
Proof.
  induction cs as [|c cs IH]; cbn [peval rpeval]; [apply QcR_0|].
  cbn. rewrite QcR_plus, QcR_mult, IH. reflexivity.
Qed.

(* n^j * r^n * P(n) -> 0 for |r| < 1; the power of n absorbs the degree of P *)
Lemma decay_poly_lim (r : R) cs j : Rabs r < 1 -> is_lim_seq (fun n => INR n ^ j * r ^ n * rpeval cs (INR n)) 0.
Proof.
  intros Hr. revert j; induction cs as [|c cs IH]; intros j; cbn [rpeval].
  - apply (is_lim_seq_ext (fun _ => 0)); [intros n; ring | apply is_lim_seq_const].
  - apply (is_lim_seq_ext (fun n => QcR c * (INR n ^ j * r ^ n) + INR n ^ S j * r ^ n * rpeval cs (INR n))).
    + intros n. cbn [pow]. ring.
    + apply lim_0_plus; [apply lim_scal_0, poly_geom_decay; exact Hr | apply IH].
Qed.

Lemma decay_term_lim (r : R) cs : Rabs r < 1 -> is_lim_seq (fun n => r ^ n * rpeval cs (INR n)) 0.
Proof.
  intros Hr. apply (is_lim_seq_ext (fun n => INR n ^ 0 * r ^ n * rpeval cs (INR n))).
  - intros n. cbn [pow]. ring.
  - apply decay_poly_lim. exact Hr.
Qed.

Definition decaying (r : Qc) : bool := Qc_ltb (- (1))%Qc r && Qc_ltb r 1%Qc.

Lemma decaying_abs r : decaying r = true -> Rabs (QcR r) < 1.
Proof.
  unfold decaying. intros H. apply andb_prop in H as [H1 H2].
  apply Qc_ltb_iff, QcR_lt in H1. apply Qc_ltb_iff, QcR_lt in H2.
  rewrite QcR_opp, QcR_1 in H1. rewrite QcR_1 in H2. apply Rabs_def1; assumption.
Qed.

(* constant part of an exponential polynomial all of whose other terms decay *)
Fixpoint const_part (f : epoly Qc_cring) : option Qc :=
  match f with
  | [] => Some 0%Qc
  | (r, cs) :: f' =>
      match const_part f' with
      | None => None
      | Some a =>
          if Qc_eqb r 1%Qc then
            match cs with [] => Some a | [c] => Some (a + c)%Qc | _ => None end
          else if decaying r then Some a else None
      end
  end.

Lemma QcR_eterm (r : Qc) cs n : QcR (eterm Qc_cring (r, cs) n) = QcR r ^ n * rpeval cs (INR n).
Proof. unfold eterm. cbn [fst snd]. cbn. rewrite QcR_mult, QcR_rpow, QcR_peval, QcR_rnat. reflexivity. Qed.

Lemma eeval_cons_lim (r : Qc) cs (f : epoly Qc_cring) (l a : R) :
  is_lim_seq (fun n => QcR r ^ n * rpeval cs (INR n)) l -> is_lim_seq (fun n => QcR (eeval f n)) a ->
  is_lim_seq (fun n => QcR (eeval (R := Qc_cring) ((r, cs) :: f) n)) (l + a).
Proof.
  intros Hl Ha. apply (is_lim_seq_ext (fun n => QcR r ^ n * rpeval cs (INR n) + QcR (eeval f n))).
  - intros n. change (eeval (R := Qc_cring) ((r, cs) :: f) n) with (eterm Qc_cring (r, cs) n + eeval f n)%Qc.
    rewrite QcR_plus, QcR_eterm. reflexivity.
  - apply is_lim_seq_plus'; assumption.
Qed.

Theorem const_part_limit f a : const_part f = Some a -> is_lim_seq (fun n => QcR (eeval f n)) (QcR a).
Proof.
  revert a; induction f as [|[r cs] f IH]; cbn [const_part]; intros a H.
  - injection H as <-. apply is_lim_seq_const.
  - destruct (const_part f) as [a'|] eqn:Ef; [|discriminate]. specialize (IH a' eq_refl).
    destruct (Qc_eqb_spec r 1%Qc) as [->|Hr1].
    + destruct cs as [|c [|c2 cs]]; try discriminate; injection H as <-.
      * rewrite <- (Rplus_0_l (QcR a')). apply eeval_cons_lim; [|exact IH].
        apply (is_lim_seq_ext (fun _ => 0)); [intros n; cbn [rpeval]; ring | apply is_lim_seq_const].
      * rewrite QcR_plus, Rplus_comm. apply eeval_cons_lim; [|exact IH].
        apply (is_lim_seq_ext (fun _ => QcR c)); [|apply is_lim_seq_const].
        intros n. rewrite QcR_1, pow1. cbn [rpeval]. ring.
    + destruct (decaying r) eqn:Ed; [|discriminate]. injection H as <-.
      rewrite <- (Rplus_0_l (QcR a')). apply eeval_cons_lim; [|exact IH].
      apply decay_term_lim, decaying_abs, Ed.
Qed.

Definition limit_value (fN fD : epoly Qc_cring) : option Qc :=
  match const_part fN, const_part fD with
  | Some a, Some c => if Qc_eqb c 0%Qc then None else Some (a / c)%Qc
  | _, _ => None
  end.

(* the sequences with their special values converge like their general parts *)
Lemma pw1_eventually (f : epoly Qc_cring) (sp : list Qc) : eventually (fun n => QcR (eeval f n) = QcR (pw1 f sp n)).
Proof.
  exists (List.length sp). intros n Hn. rewrite (pw1_general f sp n Hn). reflexivity.
Qed.

Theorem limit_value_sound fN spN fD spD L :
  limit_value fN fD = Some L ->
  is_lim_seq (fun n => QcR (pw1 fN spN n / pw1 fD spD n)%Qc) (QcR L).
Proof.
  unfold limit_value. intros H.
  destruct (const_part fN) as [a|] eqn:EN; [|discriminate].
  destruct (const_part fD) as [c|] eqn:ED; [|discriminate].
  destruct (Qc_eqb_spec c 0%Qc) as [|Hc]; [discriminate|]. injection H as <-.
  apply (is_lim_seq_ext (fun n => QcR (pw1 fN spN n) / QcR (pw1 fD spD n))); [intros n; symmetry; apply QcR_div|].
  rewrite QcR_div. apply is_lim_seq_div'.
  - apply (is_lim_seq_ext_loc _ _ _ (pw1_eventually fN spN)). apply const_part_limit. exact EN.
  - apply (is_lim_seq_ext_loc _ _ _ (pw1_eventually fD spD)). apply const_part_limit. exact ED.
  - intros H0. apply Hc. apply QcR_inj_0. exact H0.
Qed.

(* a dominant term b * u(n), u -> +infinity, on top of a convergent part, over a denominator
   that converges to a positive constant: the ratio tends to +infinity *)
Lemma dominant_diverges (u rest den : nat -> R) b (l c : R) :
  is_lim_seq u p_infty -> 0 < b -> is_lim_seq rest l -> is_lim_seq den c -> 0 < c ->
  is_lim_seq (fun n => (b * u n + rest n) / den n) p_infty.
Proof.
  intros Hu Hb Hrest Hden Hc.
  apply (is_lim_seq_mult (fun n => b * u n + rest n) (fun n => / den n) p_infty (/ c) p_infty).
  - apply (is_lim_seq_plus (fun n => b * u n) rest p_infty l p_infty); [|exact Hrest|reflexivity].
    apply (is_lim_seq_mult (fun _ => b) u b p_infty p_infty); [apply is_lim_seq_const | exact Hu|].
    apply is_Rbar_mult_sym, is_Rbar_mult_p_infty_pos. exact Hb.
  - change (Finite (/ c)) with (Rbar_inv c). apply is_lim_seq_inv; [exact Hden|].
    intros E. injection E as E. lra.
  - apply is_Rbar_mult_p_infty_pos, Rinv_0_lt_compat, Hc.
Qed.

Theorem geom_diverges (num den rest : nat -> R) b r (l c : R) :
  (forall n, num n = b * r ^ n + rest n) -> 0 < b -> 1 < r -> is_lim_seq rest l ->
  is_lim_seq den c -> 0 < c -> is_lim_seq (fun n => num n / den n) p_infty.
Proof.
  intros Hn Hb Hr Hrest Hden Hc.
  apply (is_lim_seq_ext (fun n => (b * r ^ n + rest n) / den n)); [intros n; rewrite Hn; reflexivity|].
  apply (dominant_diverges (fun n => r ^ n) rest den b l c); try assumption. apply is_lim_seq_geom_p. exact Hr.
Qed.

Theorem linear_diverges (num den rest : nat -> R) b (l c : R) :
  (forall n, num n = b * INR n + rest n) -> 0 < b -> is_lim_seq rest l ->
  is_lim_seq den c -> 0 < c -> is_lim_seq (fun n => num n / den n) p_infty.
Proof.
  intros Hn Hb Hrest Hden Hc.
  apply (is_lim_seq_ext (fun n => (b * INR n + rest n) / den n)); [intros n; rewrite Hn; reflexivity|].
  apply (dominant_diverges INR rest den b l c); try assumption. apply is_lim_seq_INR.
Qed.
