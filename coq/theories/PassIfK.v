(* Correspondence helpers for the IfTransformer model (harness/pass_if.py): boolean structural
   equality of flat programs with the polynomial parts compared up to Poly normal form (Polar's
   symengine expressions are dumped expanded and sorted, renaming changes the order), and the
   check that is evaluated inside Coq for every analysed program. *)
From Coq Require Import List String QArith Qcanon ZArith Bool Arith.
From Polar Require Import Qcx Dist Syntax Sem Types Poly PassIf PassIfAux.
Import ListNotations.
Local Open Scope Qc_scope.

Definition expr_eqn (a b : expr) : bool := pzero (psub (of_expr a) (of_expr b)).

Lemma expr_eqn_sound a b : expr_eqn a b = true -> forall s, eval a s = eval b s.
Proof. intros H s. rewrite <- !eval_of_expr. exact (pzero_psub_sound _ _ H s). Qed.

Definition cop_eqb (o o' : cop) : bool :=
  match o, o' with
  | Ceq, Ceq => true | Cle, Cle => true | Cge, Cge => true | Clt, Clt => true | Cgt, Cgt => true
  | _, _ => false
  end.
Lemma cop_eqb_eq o o' : cop_eqb o o' = true -> o = o'.
Proof. destruct o, o'; cbn; intros H; try discriminate; reflexivity. Qed.

Fixpoint cond_eqn (c d : cond) : bool :=
  match c, d with
  | CTrue, CTrue => true
  | CFalse, CFalse => true
  | CAtom a o b, CAtom a' o' b' => expr_eqn a a' && cop_eqb o o' && expr_eqn b b'
  | CNot c1, CNot d1 => cond_eqn c1 d1
  | CAnd c1 c2, CAnd d1 d2 => cond_eqn c1 d1 && cond_eqn c2 d2
  | COr c1 c2, COr d1 d2 => cond_eqn c1 d1 && cond_eqn c2 d2
  | _, _ => false
  end.

Lemma cond_eqn_sound c : forall d, cond_eqn c d = true -> forall s, holds c s = holds d s.
Proof.
  induction c as [| |a o b|c IH|c1 IH1 c2 IH2|c1 IH1 c2 IH2]; intros d H s; destruct d; cbn [cond_eqn] in H; try discriminate;
    cbn [holds].
  - reflexivity.
  - reflexivity.
  - apply andb_true_iff in H. destruct H as [H H3]. apply andb_true_iff in H. destruct H as [H1 H2].
    rewrite (expr_eqn_sound _ _ H1 s), (expr_eqn_sound _ _ H3 s), (cop_eqb_eq _ _ H2). reflexivity.
  - rewrite (IH _ H s). reflexivity.
  - apply andb_true_iff in H. destruct H as [H1 H2]. rewrite (IH1 _ H1 s), (IH2 _ H2 s). reflexivity.
  - apply andb_true_iff in H. destruct H as [H1 H2]. rewrite (IH1 _ H1 s), (IH2 _ H2 s). reflexivity.
Qed.

Fixpoint list_eqn {A} (eq : A -> A -> bool) (l l' : list A) : bool :=
  match l, l' with
  | [], [] => true
  | a :: r, a' :: r' => eq a a' && list_eqn eq r r'
  | _, _ => false
  end.

Definition draw_eqn (d d' : draw) : bool :=
  match d, d' with
  | DBern p, DBern p' => expr_eqn p p'
  | DCat ps, DCat ps' => list_eqn expr_eqn ps ps'
  | DUnif a b, DUnif a' b' => Z.eqb a a' && Z.eqb b b'
  | DCont f args, DCont f' args' => String.eqb f f' && list_eqn expr_eqn args args'
  | _, _ => false
  end.
Definition rhs_eqn (r r' : rhs) : bool :=
  match r, r' with
  | RChoice alts, RChoice alts' =>
      list_eqn (fun pe pe' => expr_eqn (fst pe) (fst pe') && expr_eqn (snd pe) (snd pe')) alts alts'
  | RDraw d, RDraw d' => draw_eqn d d'
  | _, _ => false
  end.
Definition ga_eqn (g g' : gassign) : bool :=
  String.eqb (ga_var g) (ga_var g') && cond_eqn (ga_cond g) (ga_cond g')
  && String.eqb (ga_default g) (ga_default g') && rhs_eqn (ga_rhs g) (ga_rhs g').

(* index of the first differing assignment (or the common length) *)
Fixpoint first_diff (l l' : list gassign) : nat :=
  match l, l' with
  | g :: r, g' :: r' => if ga_eqn g g' then S (first_diff r r') else O
  | _, _ => O
  end.

(* nr = false: every assignment of a branch gets the branch condition (if_flatten_prog_old, hypothesis
   wf_prog); nr = true: unconditional auxiliary assignments (if_flatten_prog, hypothesis aux_ok_prog).
   [defined; init equal; body equal; mutually_exclusive flags as recognised; hypothesis] *)
Definition model (nr : bool) (k : nat) (p : prog) : option (flatprog * nat) :=
  if nr then if_flatten_prog k p else if_flatten_prog_old k p.
Definition hyp (nr : bool) (p : prog) : bool := if nr then aux_ok_prog p else wf_prog p.
Definition pass_if_check (nr : bool) (k : nat) (p : prog) (exp : flatprog) (flags : list bool) : list bool :=
  let fl := list_eqn Bool.eqb (flags_block (p_init p) ++ flags_block (p_body p)) flags in
  match model nr k p with
  | Some (fp, _) =>
      [true; list_eqn ga_eqn (fp_init fp) (fp_init exp); list_eqn ga_eqn (fp_body fp) (fp_body exp); fl; hyp nr p]
  | None => [false; false; false; fl; hyp nr p]
  end.

(* (model init length, Polar init length, first differing index), same for the body, final counter *)
Definition pass_if_diag (nr : bool) (k : nat) (p : prog) (exp : flatprog) : list nat :=
  match model nr k p with
  | Some (fp, k') =>
      [List.length (fp_init fp); List.length (fp_init exp); first_diff (fp_init fp) (fp_init exp);
       List.length (fp_body fp); List.length (fp_body exp); first_diff (fp_body fp) (fp_body exp); k']
  | None => []
  end.
(* the parts of the new rule's hypothesis, for the report: [wf; mass; live] *)
Definition aux_parts (p : prog) : list bool :=
  [wf_prog p; mass_block (p_init p) && mass_block (p_body p); live_ok (p_init p) && live_ok (p_body p)].
