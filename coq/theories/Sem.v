(* Reference semantics S of the loop language, the oracle independent of Polar:
   statements in order, first matching if/elif/else branch, independent draws and
   probabilistic choices, simultaneous assignment reads old values, state frozen once the
   loop guard is false.  Executable ([vm_compute]) for finite discrete programs. *)
From Coq Require Import List String QArith Qcanon ZArith Bool.
From Polar Require Import Qcx Dist Syntax.
Import ListNotations.
Local Open Scope Qc_scope.

Definition state := var -> Qc.
Definition upd (s : state) (x : var) (v : Qc) : state := fun y => if var_eqb y x then v else s y.
Definition st0 : state := fun _ => 0.
Lemma upd_same s x v : upd s x v x = v.
Proof. unfold upd. rewrite var_eqb_refl. reflexivity. Qed.
Lemma upd_other s x v y : y <> x -> upd s x v y = s y.
Proof. unfold upd. intros H. apply var_eqb_neq in H. rewrite H. reflexivity. Qed.
Lemma upd_self s x y : upd s x (s x) y = s y.
Proof. unfold upd. destruct (var_eqb y x) eqn:E; [apply var_eqb_eq in E; subst|]; reflexivity. Qed.
Lemma upd_agree (A : list var) s t x v : (forall y, In y A -> s y = t y) ->
  forall y, In y (x :: A) -> upd s x v y = upd t x v y.
Proof.
  intros Hst y Hy. unfold upd. destruct (var_eqb y x) eqn:E; [reflexivity|].
  destruct Hy as [<-|Hy]; [rewrite var_eqb_refl in E; discriminate E | apply Hst, Hy].
Qed.

Fixpoint eval (e : expr) (s : state) : Qc :=
  match e with
  | EConst q => q
  | EVar x => s x
  | EAdd a b => eval a s + eval b s
  | EMul a b => eval a s * eval b s
  | EPow a k => qpow (eval a s) k
  end.
Lemma eval_ENeg a s : eval (ENeg a) s = - eval a s.
Proof. unfold ENeg. cbn [eval]. rewrite mkq_m1_1. ring. Qed.
Lemma eval_ESub a b s : eval (ESub a b) s = eval a s - eval b s.
Proof. unfold ESub. cbn [eval]. rewrite eval_ENeg. reflexivity. Qed.

Definition cop_holds (c : cop) (x y : Qc) : bool :=
  match c with
  | Ceq => Qc_eqb x y
  | Cle => Qc_leb x y
  | Cge => Qc_leb y x
  | Clt => Qc_ltb x y
  | Cgt => Qc_ltb y x
  end.

Fixpoint holds (c : cond) (s : state) : bool :=
  match c with
  | CTrue => true
  | CFalse => false
  | CAtom a o b => cop_holds o (eval a s) (eval b s)
  | CNot c => negb (holds c s)
  | CAnd c1 c2 => holds c1 s && holds c2 s
  | COr c1 c2 => holds c1 s || holds c2 s
  end.

Section WithLaw.
  (* law of a continuous family at evaluated parameters: any finitely supported law *)
  Variable law : string -> list Qc -> dist Qc.

  Fixpoint cat_law (ps : list Qc) (i : nat) : dist Qc :=
    match ps with [] => [] | p :: ps' => (p, qnat i) :: cat_law ps' (S i) end.
  Fixpoint unif_law (w : Qc) (a : Z) (n : nat) : dist Qc :=
    match n with O => [] | S n' => (w, mkq a 1) :: unif_law w (a + 1)%Z n' end.

  Definition draw_law (d : draw) (s : state) : dist Qc :=
    match d with
    | DBern p => let q := eval p s in [(q, 1); (1 - q, 0)]
    | DCat ps => cat_law (map (fun e => eval e s) ps) 0
    | DUnif a b => let n := Z.to_nat (b - a + 1) in unif_law (/ qnat n) a n
    | DCont f args => law f (map (fun e => eval e s) args)
    end.

  Definition sample (r : rhs) (s : state) : dist Qc :=
    match r with
    | RChoice alts => map (fun pe => (eval (fst pe) s, eval (snd pe) s)) alts
    | RDraw d => draw_law d s
    end.
  Lemma sample_det e s : sample (RDet e) s = ret (eval e s).
  Proof. unfold RDet. cbn [sample map fst snd eval]. rewrite mkq_1_1. reflexivity. Qed.

  (* all right-hand sides are sampled in the OLD state [s]; [t] accumulates the writes *)
  Fixpoint exec_simult (l : list (var * rhs)) (s t : state) : dist state :=
    match l with
    | [] => ret t
    | (x, r) :: l' => bind (sample r s) (fun v => exec_simult l' s (upd t x v))
    end.

  Fixpoint exec_stmt (st : stmt) (s : state) : dist state :=
    match st with
    | SAssign x r => bind (sample r s) (fun v => ret (upd s x v))
    | SSimult l => exec_simult l s s
    | SIf bs els => match exec_branches bs s with Some d => d | None => exec_block els s end
    end
  with exec_block (b : block) (s : state) : dist state :=
    match b with
    | BNil => ret s
    | BCons st b' => bind (exec_stmt st s) (exec_block b')
    end
  with exec_branches (bs : branches) (s : state) : option (dist state) :=
    match bs with
    | BrNil => None
    | BrCons c b bs' => if holds c s then Some (exec_block b s) else exec_branches bs' s
    end.

  Lemma exec_stmt_if bs els s :
    exec_stmt (SIf bs els) s = match exec_branches bs s with Some d => d | None => exec_block els s end.
  Proof. reflexivity. Qed.
  Lemma exec_block_cons st b s : exec_block (BCons st b) s = bind (exec_stmt st s) (exec_block b).
  Proof. reflexivity. Qed.
  Lemma exec_branches_cons c b bs s :
    exec_branches (BrCons c b bs) s = if holds c s then Some (exec_block b s) else exec_branches bs s.
  Proof. reflexivity. Qed.
  Lemma exec_stmt_if_nil els s : exec_stmt (SIf BrNil els) s = exec_block els s.
  Proof. reflexivity. Qed.
  Lemma exec_stmt_if_cons c b bs els s :
    exec_stmt (SIf (BrCons c b bs) els) s = if holds c s then exec_block b s else exec_stmt (SIf bs els) s.
  Proof. rewrite !exec_stmt_if, exec_branches_cons. destruct (holds c s); reflexivity. Qed.

  Lemma E_assign x r s (f : state -> Qc) :
    E (exec_stmt (SAssign x r) s) f = E (sample r s) (fun v => f (upd s x v)).
  Proof. cbn [exec_stmt]. rewrite E_bind. apply E_ext. intros v. apply E_ret. Qed.
  Lemma E_assign_det x e s (f : state -> Qc) :
    E (exec_stmt (SAssign x (RDet e)) s) f = f (upd s x (eval e s)).
  Proof. rewrite E_assign, sample_det. exact (E_ret _ (fun v => f (upd s x v))). Qed.
  Lemma E_block_cons st b s (f : state -> Qc) :
    E (exec_block (BCons st b) s) f = E (exec_stmt st s) (fun t => E (exec_block b t) f).
  Proof. rewrite exec_block_cons. apply E_bind. Qed.
  Lemma E_block_single st s (f : state -> Qc) : E (exec_block (BCons st BNil) s) f = E (exec_stmt st s) f.
  Proof. rewrite E_block_cons. apply E_ext. intros t. apply E_ret. Qed.
  Lemma E_block_app b1 b2 s (f : state -> Qc) :
    E (exec_block (block_app b1 b2) s) f = E (exec_block b1 s) (fun t => E (exec_block b2 t) f).
  Proof.
    revert s; induction b1 as [|st b1 IH]; intros s; cbn [block_app].
    - cbn [exec_block]. rewrite E_ret. reflexivity.
    - rewrite !E_block_cons. apply E_ext. intros t. apply IH.
  Qed.

  Definition iter (p : prog) (s : state) : dist state :=
    if holds (p_guard p) s then exec_block (p_body p) s else ret s.

  Fixpoint run (p : prog) (n : nat) (s0 : state) : dist state :=
    match n with
    | O => exec_block (p_init p) s0
    | S n' => bind (run p n' s0) (iter p)
    end.

  (* flat programs: a guarded assignment writes a sample of its right-hand side if its condition
     holds and the value of its default variable otherwise *)
  Definition exec_ga (g : gassign) (s : state) : dist state :=
    if holds (ga_cond g) s
    then bind (sample (ga_rhs g) s) (fun v => ret (upd s (ga_var g) v))
    else ret (upd s (ga_var g) (s (ga_default g))).

  Fixpoint exec_gas (l : list gassign) (s : state) : dist state :=
    match l with [] => ret s | g :: l' => bind (exec_ga g s) (exec_gas l') end.

  Lemma E_exec_ga g s (F : state -> Qc) :
    E (exec_ga g s) F =
    if holds (ga_cond g) s then E (sample (ga_rhs g) s) (fun v => F (upd s (ga_var g) v))
    else F (upd s (ga_var g) (s (ga_default g))).
  Proof.
    unfold exec_ga. destruct (holds (ga_cond g) s).
    - rewrite E_bind. apply E_ext. intros v. apply E_ret.
    - apply E_ret.
  Qed.
  Lemma E_exec_ga_true g s (F : state -> Qc) : ga_cond g = CTrue ->
    E (exec_ga g s) F = E (sample (ga_rhs g) s) (fun v => F (upd s (ga_var g) v)).
  Proof. intros Hc. rewrite E_exec_ga, Hc. reflexivity. Qed.
  (* two guarded assignments that read the same values in their respective states and whose
     continuations agree on the updated states have the same expectation *)
  Lemma E_exec_ga_rel g g' s s' (K K' : state -> Qc) :
    holds (ga_cond g') s' = holds (ga_cond g) s ->
    sample (ga_rhs g') s' = sample (ga_rhs g) s ->
    s' (ga_default g') = s (ga_default g) ->
    (forall v, K' (upd s' (ga_var g') v) = K (upd s (ga_var g) v)) ->
    E (exec_ga g' s') K' = E (exec_ga g s) K.
  Proof.
    intros Hc Hs Hd HK. rewrite !E_exec_ga, Hc, Hs, Hd.
    destruct (holds (ga_cond g) s); [apply E_ext; intros v; apply HK | apply HK].
  Qed.
  Lemma exec_ga_supp g s s' : supp (exec_ga g s) s' ->
    exists v, s' = upd s (ga_var g) v /\
      (supp (sample (ga_rhs g) s) v \/ ga_cond g <> CTrue /\ v = s (ga_default g)).
  Proof.
    unfold exec_ga. destruct (holds (ga_cond g) s) eqn:Eh; intros H.
    - apply supp_bind in H. destruct H as [v [Hv H]]. apply supp_ret in H. exists v; auto.
    - apply supp_ret in H. eexists; split; [exact H|]. right; split; [|reflexivity].
      intros Hc. rewrite Hc in Eh. discriminate Eh.
  Qed.
  Lemma E_exec_gas_nil s (F : state -> Qc) : E (exec_gas [] s) F = F s.
  Proof. apply E_ret. Qed.
  Lemma E_exec_gas_cons g l s (F : state -> Qc) :
    E (exec_gas (g :: l) s) F = E (exec_ga g s) (fun t => E (exec_gas l t) F).
  Proof. apply E_bind. Qed.
  Lemma E_exec_gas_single g s (F : state -> Qc) : E (exec_gas [g] s) F = E (exec_ga g s) F.
  Proof. rewrite E_exec_gas_cons. apply E_ext. intros t. apply E_exec_gas_nil. Qed.
  Lemma E_exec_gas_app l1 l2 s (F : state -> Qc) :
    E (exec_gas (l1 ++ l2) s) F = E (exec_gas l1 s) (fun t => E (exec_gas l2 t) F).
  Proof.
    revert s; induction l1 as [|g l1 IH]; intros s.
    - rewrite E_exec_gas_nil. reflexivity.
    - rewrite <- app_comm_cons, !E_exec_gas_cons. apply E_ext. intros t. apply IH.
  Qed.

  Definition fstep (fp : flatprog) (s : state) : dist state := exec_gas (fp_body fp) s.

  Fixpoint frun (fp : flatprog) (n : nat) (s0 : state) : dist state :=
    match n with
    | O => exec_gas (fp_init fp) s0
    | S n' => bind (frun fp n' s0) (fstep fp)
    end.

  (* a variable that is not assigned keeps its value: an observation may read it in the start state *)
  Lemma exec_ga_keeps x g s (K : Qc -> state -> Qc) : ga_var g <> x ->
    E (exec_ga g s) (fun t => K (t x) t) = E (exec_ga g s) (K (s x)).
  Proof.
    intros Hx. apply E_exec_ga_rel; try reflexivity.
    intros v. rewrite upd_other by (apply not_eq_sym, Hx). reflexivity.
  Qed.
  Lemma exec_gas_keeps x l : (forall g, In g l -> ga_var g <> x) ->
    forall s (K : Qc -> state -> Qc), E (exec_gas l s) (fun t => K (t x) t) = E (exec_gas l s) (K (s x)).
  Proof.
    induction l as [|g l IH]; intros Hl s K.
    - rewrite !E_exec_gas_nil. reflexivity.
    - rewrite !E_exec_gas_cons, (E_ext _ _ _ (fun t => IH (fun g0 H0 => Hl g0 (or_intror H0)) t K)).
      apply (exec_ga_keeps x g s (fun r t => E (exec_gas l t) (K r))), Hl. left. reflexivity.
  Qed.
  Lemma frun_keeps x fp : (forall g, In g (fp_init fp ++ fp_body fp) -> ga_var g <> x) ->
    forall n s0 (K : Qc -> state -> Qc), E (frun fp n s0) (fun t => K (t x) t) = E (frun fp n s0) (K (s0 x)).
  Proof.
    intros Hl n s0. induction n as [|n IH]; intros K; cbn [frun].
    - apply exec_gas_keeps. intros g Hg. apply Hl, in_or_app. left. exact Hg.
    - rewrite !E_bind. unfold fstep.
      rewrite (E_ext _ _ _ (fun s => exec_gas_keeps x (fp_body fp) (fun g Hg => Hl g (in_or_app _ _ g (or_intror Hg))) s K)).
      apply (IH (fun r s => E (exec_gas (fp_body fp) s) (K r))).
  Qed.

  (* a flat program against a program whose guard is [True], through any relation between
     states: every iteration, from a simulation of the two blocks *)
  Lemma run_sim (Rel : state -> state -> Prop) p li lb :
    p_guard p = CTrue ->
    (forall s t, Rel s t -> forall g h, (forall s' t', Rel s' t' -> g t' = h s') ->
       E (exec_gas li t) g = E (exec_block (p_init p) s) h) ->
    (forall s t, Rel s t -> forall g h, (forall s' t', Rel s' t' -> g t' = h s') ->
       E (exec_gas lb t) g = E (exec_block (p_body p) s) h) ->
    forall n s0 t0, Rel s0 t0 -> forall g h, (forall s t, Rel s t -> g t = h s) ->
      E (frun {| fp_init := li; fp_body := lb |} n t0) g = E (run p n s0) h.
  Proof.
    intros Eg Hi Hb. induction n as [|n IH]; intros s0 t0 Hag g h Hgh; cbn [frun run fp_init].
    - apply Hi; assumption.
    - rewrite !E_bind. apply IH; [exact Hag|]. intros s t Hst.
      unfold fstep, iter. cbn [fp_body]. rewrite Eg. cbn [holds]. apply Hb; assumption.
  Qed.
End WithLaw.

(* the executable instance: no continuous families *)
Definition no_law : string -> list Qc -> dist Qc := fun _ _ => [].

(* monomials as association lists var -> exponent *)
Definition mono := list (var * nat).
Fixpoint eval_mono (m : mono) (s : state) : Qc :=
  match m with [] => 1 | (x, k) :: m' => qpow (s x) k * eval_mono m' s end.
