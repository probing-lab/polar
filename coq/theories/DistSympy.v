(* C08 — hand-written closed formulas for the raw moments that Polar obtains from
   sympy.stats (Gamma, Beta, Normal, Laplace: `EV(x**k)`).  sympy is a CAS and is not
   modelled; these definitions are what its answer is claimed to be, and the claim is
   checked on every run by the correspondence part of ./check C08 (real get_moment(k) vs
   [sympy_moment] evaluated by vm_compute, k <= 12, random rational parameters).
   The translator maps  `x = GammaDist("x", k, theta)`  to  [SGamma k theta]  and
   `EV(x**p)`  to  [sympy_moment x p], so the wiring of Polar's parameters into sympy
   (order, sqrt of the variance, scale**k) is translated, not hand-written. *)
From Coq Require Import List QArith Qcanon ZArith Lia Bool Arith Field.
From Polar Require Import Qcx DistBase.
Import ListNotations.
Local Open Scope Qc_scope.

(* a standard deviation handed to sympy: a rational, or the square root of a rational
   (translation of  sympify(f"({self.sigma2}) ** (1/2)") ) *)
Inductive sqv := Rat (q : Qc) | Sqrt (q : Qc).
Definition sqv_sq (s : sqv) : Qc := match s with Rat q => q * q | Sqrt q => q end.

Inductive srv :=
| SGamma (k theta : Qc)          (* sympy.stats.Gamma(name, k, theta): shape, scale *)
| SBeta (alpha beta : Qc)        (* sympy.stats.Beta(name, alpha, beta) *)
| SNormal (mu : Qc) (sigma : sqv)  (* sympy.stats.Normal(name, mean, std) *)
| SLaplace (mu b : Qc).          (* sympy.stats.Laplace(name, mu, b) *)

(* central moments: Normal 0,  s2, 0, 3 s2^2, ... ;  Laplace 0, 2 b^2, 0, 24 b^4, ... *)
Fixpoint normal_central (s2 : Qc) (j : nat) : Qc :=
  match j with
  | O => 1
  | S O => 0
  | S (S i as i1) => qnat i1 * s2 * normal_central s2 i
  end.

Fixpoint laplace_central (b : Qc) (j : nat) : Qc :=
  match j with
  | O => 1
  | S O => 0
  | S (S i as i1) => qnat (S i1) * qnat i1 * (b * b) * laplace_central b i
  end.

Lemma normal_central_SS s2 i : normal_central s2 (S (S i)) = qnat (S i) * s2 * normal_central s2 i.
Proof. reflexivity. Qed.
Lemma laplace_central_SS b i :
  laplace_central b (S (S i)) = qnat (S (S i)) * qnat (S i) * (b * b) * laplace_central b i.
Proof. reflexivity. Qed.

(* [shift_fast] = [shift] (DistBase.shift_fast_eq), evaluated in quadratic time *)
Definition normal_moment (mu s2 : Qc) (k : nat) : Qc := shift_fast mu (normal_central s2) k.
Definition laplace_moment (mu b : Qc) (k : nat) : Qc := shift_fast mu (laplace_central b) k.
Definition gamma_moment (k theta : Qc) (p : nat) : Qc := qpow theta p * rising k p.
Definition beta_moment (a b : Qc) (k : nat) : Qc := rising a k / rising (a + b) k.

Definition sympy_moment (x : srv) (k : nat) : Qc :=
  match x with
  | SGamma a theta => gamma_moment a theta k
  | SBeta a b => beta_moment a b k
  | SNormal mu sigma => normal_moment mu (sqv_sq sigma) k
  | SLaplace mu b => laplace_moment mu b k
  end.

(* Gamma:  m0 = 1,  m(p+1) = theta (k + p) m(p) *)
Lemma gamma_moment_0 k theta : gamma_moment k theta 0 = 1.
Proof. unfold gamma_moment. cbn [qpow rising]. ring. Qed.
Lemma gamma_moment_rec k theta p : gamma_moment k theta (S p) = theta * (k + qnat p) * gamma_moment k theta p.
Proof. unfold gamma_moment. cbn [qpow rising]. ring. Qed.

(* Beta:  m0 = 1,  m(k+1) = (a+k)/(a+b+k) m(k)  (a + b > 0) *)
Lemma rising_pos x n : 0 < x -> 0 < rising x n.
Proof.
  intros Hx. induction n as [|n IH]; [reflexivity|]. cbn [rising].
  apply Qcmult_pos; [exact IH | apply pos_add_qnat, Hx].
Qed.
Lemma rising_neq0 x n : 0 < x -> rising x n <> 0.
Proof. intros Hx. apply Qclt_neq0, rising_pos, Hx. Qed.

Lemma beta_moment_0 a b : beta_moment a b 0 = 1.
Proof. unfold beta_moment. cbn [rising]. field. discriminate. Qed.
Lemma beta_moment_rec a b k : 0 < a + b ->
  beta_moment a b (S k) = (a + qnat k) / (a + b + qnat k) * beta_moment a b k.
Proof.
  intros Hab. unfold beta_moment. cbn [rising]. field.
  split; [apply rising_neq0 | apply Qclt_neq0, pos_add_qnat]; exact Hab.
Qed.

(* Normal:  m0 = 1, m1 = mu, m(k+2) = mu m(k+1) + (k+1) s2 m(k) *)
Lemma normal_central_succ s2 j : normal_central s2 (S j) = dseq (fun i => s2 * normal_central s2 i) j.
Proof. destruct j as [|j]; [reflexivity|]. cbn [normal_central dseq]. ring. Qed.

Lemma normal_moment_0 mu s2 : normal_moment mu s2 0 = 1.
Proof. reflexivity. Qed.
Lemma normal_moment_1 mu s2 : normal_moment mu s2 1 = mu.
Proof. unfold normal_moment. rewrite shift_fast_eq. cbn [shift normal_central]. ring. Qed.
Lemma normal_moment_rec mu s2 k :
  normal_moment mu s2 (S (S k)) = mu * normal_moment mu s2 (S k) + qnat (S k) * s2 * normal_moment mu s2 k.
Proof.
  unfold normal_moment. rewrite !shift_fast_eq, (shift_S mu (normal_central s2) (S k)).
  rewrite (shift_ext mu (fun j => normal_central s2 (S j)) (dseq (fun i => s2 * normal_central s2 i)) (S k)
             (normal_central_succ s2)).
  rewrite shift_dseq, shift_scale. ring.
Qed.
Lemma normal_moment_centred s2 k : normal_moment 0 s2 k = normal_central s2 k.
Proof. unfold normal_moment. rewrite shift_fast_eq. apply shift_zero_loc. Qed.

(* closed form of the central moments: s2^i (2i-1)!! at 2i, 0 at odd orders *)
Fixpoint odd_dfact (i : nat) : Qc := match i with O => 1 | S i' => qnat (S (2 * i')) * odd_dfact i' end.
Lemma normal_central_closed s2 i :
  normal_central s2 (2 * i) = qpow s2 i * odd_dfact i /\ normal_central s2 (S (2 * i)) = 0.
Proof.
  induction i as [|i [IH1 IH2]]; [split; reflexivity|].
  replace (2 * S i)%nat with (S (S (2 * i))) by lia. split.
  - rewrite normal_central_SS, IH1. cbn [qpow odd_dfact]. ring.
  - rewrite normal_central_SS, IH2. ring.
Qed.

(* Laplace:  m0 = 1, m1 = mu, m(k+2) = mu^(k+2) + (k+2)(k+1) b^2 m(k) *)
Lemma laplace_central_decomp b j :
  laplace_central b j = delta0 j + dseq (dseq (fun i => b * b * laplace_central b i)) j.
Proof.
  destruct j as [|[|j]]; cbn [laplace_central delta0 dseq]; try ring.
Qed.

Lemma laplace_moment_0 mu b : laplace_moment mu b 0 = 1.
Proof. reflexivity. Qed.
Lemma laplace_moment_1 mu b : laplace_moment mu b 1 = mu.
Proof. unfold laplace_moment. rewrite shift_fast_eq. cbn [shift laplace_central]. ring. Qed.
Lemma laplace_moment_rec mu b k :
  laplace_moment mu b (S (S k)) = qpow mu (S (S k)) + qnat (S (S k)) * qnat (S k) * (b * b) * laplace_moment mu b k.
Proof.
  unfold laplace_moment. rewrite !shift_fast_eq.
  rewrite (shift_ext mu (laplace_central b) _ (S (S k)) (laplace_central_decomp b)).
  rewrite shift_add, shift_delta0, !shift_dseq, shift_scale. ring.
Qed.
Lemma laplace_moment_centred b k : laplace_moment 0 b k = laplace_central b k.
Proof. unfold laplace_moment. rewrite shift_fast_eq. apply shift_zero_loc. Qed.

Lemma laplace_central_closed b i :
  laplace_central b (2 * i) = qfact (2 * i) * qpow b (2 * i) /\ laplace_central b (S (2 * i)) = 0.
Proof.
  induction i as [|i [IH1 IH2]]; [split; cbn; ring|].
  replace (2 * S i)%nat with (S (S (2 * i))) by lia. split.
  - rewrite laplace_central_SS, IH1. cbn [qfact qpow]. ring.
  - rewrite laplace_central_SS, IH2. ring.
Qed.

(* linear forms  l0 + l1 * z  in a fresh draw z (dist_transformer.py).
   Values live in Q(sqrt s) : pairs (rational part, coefficient of the square root). *)
Record lin := mklin { l0 : Qc; l1 : sqv }.

Definition sqv_pow (s : sqv) (j : nat) : Qc * Qc :=
  match s with
  | Rat q => (qpow q j, 0)
  | Sqrt q => if Nat.even j then (qpow q (Nat.div2 j), 0) else (0, qpow q (Nat.div2 j))
  end.

(* E[(l0 + l1 z)^k] by expanding the power and replacing z^j by the j-th moment m j of the
   new draw — what Polar computes after the rewriting *)
Definition lin_moment (l : lin) (m : nat -> Qc) (k : nat) : Qc * Qc :=
  (sumn (fun j => qbinom k j * qpow (l0 l) (k - j) * fst (sqv_pow (l1 l) j) * m j) (S k),
   sumn (fun j => qbinom k j * qpow (l0 l) (k - j) * snd (sqv_pow (l1 l) j) * m j) (S k)).

Lemma sumn_zero f n : (forall j, (j < n)%nat -> f j = 0) -> sumn f n = 0.
Proof. induction n as [|n IH]; intros E; cbn [sumn]; [reflexivity|]. rewrite IH, E by auto. ring. Qed.

Lemma lin_moment_split a l m r k :
  (forall j, fst (sqv_pow l j) * m j = r j * m j) -> (forall j, snd (sqv_pow l j) * m j = 0) ->
  lin_moment (mklin a l) m k = (binsum a (fun j => r j * m j) k, 0).
Proof.
  intros H1 H2. unfold lin_moment, binsum. cbn [l0 l1].
  f_equal; [apply sumn_ext | apply sumn_zero]; intros j _; rewrite <- Qcmult_assoc.
  - rewrite H1. reflexivity.
  - rewrite H2. ring.
Qed.

Lemma lin_moment_rat a s m k :
  lin_moment (mklin a (Rat s)) m k = (binsum a (fun j => qpow s j * m j) k, 0).
Proof. apply lin_moment_split; intros j; cbn [sqv_pow fst snd]; ring. Qed.

Lemma odd_moment_zero (m : nat -> Qc) j : (forall i, m (S (2 * i)) = 0) -> Nat.even j = false -> m j = 0.
Proof.
  intros Hm E. assert (O : Nat.odd j = true) by (rewrite <- Nat.negb_even, E; reflexivity).
  apply Nat.odd_spec in O. destruct O as [i ->]. rewrite Nat.add_1_r. apply Hm.
Qed.

(* the same for l1 = sqrt s, when the odd moments of the draw vanish: (sqrt s)^j is s^(j/2) for even j
   and multiplies a zero moment for odd j *)
Lemma lin_moment_sqrt a s m k : (forall i, m (S (2 * i)) = 0) ->
  lin_moment (mklin a (Sqrt s)) m k = (binsum a (fun j => qpow s (Nat.div2 j) * m j) k, 0).
Proof.
  intros Hm. apply lin_moment_split; intros j; cbn [sqv_pow]; destruct (Nat.even j) eqn:E; cbn [fst snd];
    rewrite ?(odd_moment_zero m j Hm E); ring.
Qed.
