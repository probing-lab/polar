(* Commutative rings with a sound boolean equality test, as records, so that the
   validators can be instantiated at Qc, at quadratic extensions, and at towers of them. *)
From Coq Require Import List Bool Ring Ring_theory QArith Qcanon.
Import ListNotations.

Record cring := {
  car :> Type;
  r0 : car; r1 : car;
  radd : car -> car -> car;
  rmul : car -> car -> car;
  rsub : car -> car -> car;
  ropp : car -> car;
  reqb : car -> car -> bool;
  rth : ring_theory r0 r1 radd rmul rsub ropp (@eq car);
  reqb_eq : forall x y, reqb x y = true -> x = y }.

Arguments r0 {_}. Arguments r1 {_}.
Arguments radd {_} _ _. Arguments rmul {_} _ _. Arguments rsub {_} _ _.
Arguments ropp {_} _. Arguments reqb {_} _ _.

Declare Scope cr_scope.
Delimit Scope cr_scope with cr.
Infix "+" := radd : cr_scope.
Infix "*" := rmul : cr_scope.
Infix "-" := rsub : cr_scope.
Notation "- x" := (ropp x) : cr_scope.

Lemma Qc_eqb_eq : forall x y : Qc, Qc_eq_bool x y = true -> x = y.
Proof. intros x y H. apply Qc_eq_bool_correct. exact H. Qed.

Definition Qc_cring : cring :=
  {| car := Qc; r0 := 0%Qc; r1 := 1%Qc; radd := Qcplus; rmul := Qcmult;
     rsub := Qcminus; ropp := Qcopp; reqb := Qc_eq_bool;
     rth := Qcrt; reqb_eq := Qc_eqb_eq |}.

(* the quadratic extension R[t]/(t^2 - d), elements a + b t as pairs *)
Section Quad.
  Variable R : cring.
  Variable d : R.
  Add Ring Rring : (rth R).
  Local Open Scope cr_scope.

  Definition qcar : Type := (R * R)%type.
  Definition q0 : qcar := (r0, r0).
  Definition q1 : qcar := (r1, r0).
  Definition qadd (x y : qcar) : qcar := (fst x + fst y, snd x + snd y).
  Definition qmul (x y : qcar) : qcar :=
    (fst x * fst y + d * (snd x * snd y), fst x * snd y + snd x * fst y).
  Definition qopp (x : qcar) : qcar := (- fst x, - snd x).
  Definition qsub (x y : qcar) : qcar := (fst x - fst y, snd x - snd y).
  Definition qeqb (x y : qcar) : bool := reqb (fst x) (fst y) && reqb (snd x) (snd y).

  Lemma quad_rth : ring_theory q0 q1 qadd qmul qsub qopp (@eq qcar).
  Proof.
    constructor; intros; apply injective_projections;
      cbn [fst snd q0 q1 qadd qmul qsub qopp]; ring.
  Qed.

  Lemma qeqb_eq : forall x y, qeqb x y = true -> x = y.
  Proof.
    intros [a b] [a' b']; unfold qeqb; simpl; intros H.
    apply andb_true_iff in H; destruct H as [H1 H2].
    apply reqb_eq in H1; apply reqb_eq in H2; subst; reflexivity.
  Qed.

  Definition quad_cring : cring :=
    {| car := qcar; r0 := q0; r1 := q1; radd := qadd; rmul := qmul; rsub := qsub;
       ropp := qopp; reqb := qeqb; rth := quad_rth; reqb_eq := qeqb_eq |}.

  Lemma quad_gen_sq : qmul (r0, r1) (r0, r1) = (d, r0).
  Proof. unfold qmul; simpl; f_equal; ring. Qed.
End Quad.
