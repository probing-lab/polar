(* C02, pass ConstantsTransformer (program/transformer/constants_transformer.py).

   Python, on a flat program:
     loop_body_vars = variables assigned in the loop body
     for assign in initial (in order):
        variable assigned in the loop             -> keep
        PolyAssignment, condition true, ONE alternative:
             value = polynomial.subs(fixed_constants)          (earlier fixed constants)
             the folding rule accepts var, value   -> fixed_constants[var] = value ; DROP
        otherwise                                  -> other_constants.add(var) ; keep
     substitute fixed_constants in (guard,) kept initial assignments and loop body
     append  c = c  to the loop body for every other constant

   The folding rule is the parameter [rule] of the model (its four values, and the /repo commits
   they belong to, are listed there).  [constants] = rule RCond is the model of the code; RFix is
   sound as well; RCur and ROld are refuted.  Hypothesis [constants_ok] (boolean) is what the
   proof needs; for RCond it holds BY CONSTRUCTION on structurally well-formed flat programs
   ([constants_ok_gen_by_construction]).  Theorems, for every rule but ROld:
     [constants_gen_coupled]    the two programs are coupled at every iteration
     [constants_gen_preserves]  same expectation of every f that ignores the folded variables
     [constants_gen_invariant]  in the original program every folded variable equals its folded
                                expression in the current state at every iteration boundary
     [constants_old_refuted]    rule ROld is unsound (x=3; k=x+1; while true: x=x+k). *)
From Coq Require Import List String QArith Qcanon ZArith Bool Ring.
From Polar Require Import Qcx Dist Syntax Sem Types Poly PassCNBase.
Import ListNotations.
Local Open Scope Qc_scope.

Definition body_vars (fp : flatprog) : list var := map ga_var (fp_body fp).

(* when an unconditional initial assignment with one alternative, to a variable the loop does
   not assign, is folded; in brackets the /repo commits between which the code followed the rule:
   ROld   always  (before 3e6440d, "fix: do not fold initial constants that refer to variables
          changing in the loop")
   RCur   the value mentions no loop-body variable  (3e6440d .. 5e78f4d)
   RFix   additionally the variable has a single initial assignment, was not read by an earlier
          kept initial assignment, and its value mentions nothing that is assigned later in the
          initial part  (5e78f4d .. 99cc64b; proposed_fixes/constants_init_reassign.diff)
   RCond  additionally the variable occurs in no condition of the initial block or the loop
          body, so that reduced atoms keep their form  (from 99cc64b: the rule /repo follows) *)
Inductive rule := ROld | RCur | RFix | RCond.
Definition strict (r : rule) : bool := match r with ROld => false | _ => true end.
Definition is_fix (r : rule) : bool := match r with RFix | RCond => true | _ => false end.

(* [Some v]: the assignment is folded at this point with value v.
   [seen]: variables assigned so far or read by a kept assignment so far (read_so_far and the
   assignment counts of the patch); [rest]: variables assigned later in the initial part *)
Definition fold_value (r : rule) (bv seen rest : list var) (F : smap) (g : gassign) : option expr :=
  if mem_var (ga_var g) bv then None
  else match ga_cond g, ga_rhs g with
       | CTrue, RChoice [(_, e)] =>
           let v := subst_e F e in
           match r with
           | ROld => Some v
           | RCur => if disjointb (evars v) bv then Some v else None
           | RFix | RCond =>
               if disjointb (evars v) bv && negb (mem_var (ga_var g) seen) && negb (mem_var (ga_var g) rest)
                  && disjointb (evars v) rest then Some v else None
           end
       | _, _ => None
       end.

Definition seen_kept (g : gassign) (seen : list var) : list var :=
  ga_var g :: ga_default g :: ga_reads g ++ seen.

(* returns the final map of fixed constants (latest first) and the kept assignments *)
Fixpoint scan (r : rule) (bv seen : list var) (F : smap) (l : list gassign) : smap * list gassign :=
  match l with
  | [] => (F, [])
  | g :: l' =>
      match fold_value r bv seen (map ga_var l') F g with
      | Some v => scan r bv (ga_var g :: seen) ((ga_var g, v) :: F) l'
      | None => let '(F', k) := scan r bv (seen_kept g seen) F l' in (F', g :: k)
      end
  end.

Definition self_assign (k : var) : gassign :=
  {| ga_var := k; ga_cond := CTrue; ga_default := k; ga_rhs := RDet (EVar k) |}.

Fixpoint dedup (l : list var) : list var :=
  match l with [] => [] | x :: l' => if mem_var x l' then dedup l' else x :: dedup l' end.

(* other_constants: kept initial variables that are not assigned in the loop (a Python set:
   the order of the appended assignments is unspecified) *)
Definition others (bv : list var) (kept : list gassign) : list var :=
  dedup (filter (fun x => negb (mem_var x bv)) (map ga_var kept)).

(* condition_symbols of 99cc64b: variables of all conditions (the loop guard is `true` here); they
   enter the scan as initially "seen" variables, which rule RFix/RCond never folds *)
Definition cond_syms (fp : flatprog) : list var :=
  flat_map (fun g => cvars (ga_cond g)) (fp_init fp ++ fp_body fp).
Definition seen0 (r : rule) (fp : flatprog) : list var :=
  match r with RCond => cond_syms fp | _ => [] end.

Definition constants_gen (r : rule) (fp : flatprog) : flatprog :=
  let bv := body_vars fp in
  let '(F, kept) := scan r bv (seen0 r fp) [] (fp_init fp) in
  {| fp_init := map (subst_ga F) kept;
     fp_body := map (subst_ga F) (fp_body fp) ++ map self_assign (others bv kept) |}.

Definition constants : flatprog -> flatprog := constants_gen RCond.
Definition constants_old : flatprog -> flatprog := constants_gen ROld.
Definition constants_cur : flatprog -> flatprog := constants_gen RCur.
Definition constants_fix : flatprog -> flatprog := constants_gen RFix.

Definition fixed_gen (r : rule) (fp : flatprog) : smap := fst (scan r (body_vars fp) (seen0 r fp) [] (fp_init fp)).
Definition fixed : flatprog -> smap := fixed_gen RCond.
Definition folded (fp : flatprog) : list var := sdom (fixed fp).

(* the single alternative has probability 1, as a literal *)
Definition prob_one (g : gassign) : bool :=
  match ga_rhs g with RChoice [(EConst q, _)] => Qc_eqb q 1 | _ => false end.

(* x is not a fixed constant and no fixed value mentions it *)
Definition fresh_for (F : smap) (x : var) : bool :=
  negb (mem_var x (sdom F)) && forallb (fun ke => negb (mem_var x (evars (snd ke)))) F.

(* follows [scan]: a folded assignment has probability 1 and its variable was read by no kept
   assignment before it ([rd]: variables read by the kept assignments met so far); the variable
   of a kept assignment is fresh for the map at that point and its default is not folded *)
Fixpoint scan_ok (r : rule) (bv seen : list var) (F : smap) (rd : list var) (l : list gassign) : bool :=
  match l with
  | [] => true
  | g :: l' =>
      match fold_value r bv seen (map ga_var l') F g with
      | Some v => prob_one g && negb (mem_var (ga_var g) rd)
                  && scan_ok r bv (ga_var g :: seen) ((ga_var g, v) :: F) rd l'
      | None => fresh_for F (ga_var g) && negb (mem_var (ga_default g) (sdom F))
                && scan_ok r bv (seen_kept g seen) F (ga_reads g ++ rd) l'
      end
  end.

(* needed for the invariant only: no folded value depends on a folded variable *)
Definition closed_map (F : smap) : bool := forallb (fun ke => disjointb (evars (snd ke)) (sdom F)) F.

(* the hypothesis of the theorems: [scan_ok] on the initial part, and no body assignment has a
   folded variable as its default *)
Definition constants_ok_gen (r : rule) (fp : flatprog) : bool :=
  scan_ok r (body_vars fp) (seen0 r fp) [] [] (fp_init fp)
  && forallb (fun g => negb (mem_var (ga_default g) (sdom (fixed_gen r fp)))) (fp_body fp).
Definition constants_ok : flatprog -> bool := constants_ok_gen RCond.

(* structural well-formedness of the flat programs Polar builds (Assignment.__init__: the default
   of an initial assignment is its own variable; MultiAssignTransformer: the default of a body
   assignment is the variable itself or its previous version, both assigned in the body; a
   PolyAssignment with one alternative has probability 1) *)
Definition wf_init_ga (g : gassign) : bool :=
  var_eqb (ga_default g) (ga_var g) &&
  match ga_cond g, ga_rhs g with
  | CTrue, RChoice [(p, _)] => match p with EConst q => Qc_eqb q 1 | _ => false end
  | _, _ => true
  end.
Definition wf_flat (fp : flatprog) : bool :=
  forallb wf_init_ga (fp_init fp) && forallb (fun g => mem_var (ga_default g) (body_vars fp)) (fp_body fp).

(* s : state of the original program, s' : state of the transformed program *)
Definition Sub (F : smap) (s s' : state) : Prop := forall x, agree F s s' x.

Lemma Sub_nil s : Sub [] s s.
Proof. intros x. reflexivity. Qed.

Lemma Sub_none F s s' x : Sub F s s' -> slookup F x = None -> s' x = s x.
Proof. intros HS Hx. specialize (HS x). unfold agree in HS. rewrite Hx in HS. exact HS. Qed.
Lemma Sub_some F s s' x v : Sub F s s' -> slookup F x = Some v -> eval v s' = s x.
Proof. intros HS Hx. specialize (HS x). unfold agree in HS. rewrite Hx in HS. exact HS. Qed.

Lemma eval_upd_indep v s x val : ~ In x (vars_of v) -> eval v (upd s x val) = eval v s.
Proof. apply eval_upd_notin. Qed.
Lemma eval_upd_indep_e v s x val : ~ In x (evars v) -> eval v (upd s x val) = eval v s.
Proof. intros H. apply eval_evars_ext. intros y Hy. apply upd_other. intros ->. exact (H Hy). Qed.

Definition fresh_in (F : smap) (x : var) : Prop :=
  slookup F x = None /\ forall k v, In (k, v) F -> ~ In x (evars v).

Lemma fresh_for_spec F x : fresh_for F x = true -> fresh_in F x.
Proof.
  unfold fresh_for. intros H. apply andb_true_iff in H as [H1 H2]. split.
  - apply slookup_none, negb_true_iff, H1.
  - intros k v Hin Hx. rewrite forallb_forall in H2. specialize (H2 (k, v) Hin). cbn [snd] in H2.
    rewrite (mem_var_In _ _ Hx) in H2. discriminate.
Qed.

Lemma fresh_for_cons k v F x :
  var_eqb x k = false -> mem_var x (evars v) = false -> fresh_for F x = true ->
  fresh_for ((k, v) :: F) x = true.
Proof.
  unfold fresh_for. cbn [sdom map fst mem_var existsb forallb snd]. intros -> -> H. exact H.
Qed.

Lemma Sub_upd F s s' x val : Sub F s s' -> fresh_in F x -> Sub F (upd s x val) (upd s' x val).
Proof.
  intros HS [Hx Hvals] y. specialize (HS y). unfold agree in *.
  destruct (slookup F y) as [v|] eqn:Ey.
  - rewrite (eval_upd_indep_e v s' x val (Hvals y v (slookup_some_in _ _ _ Ey))), HS.
    symmetry. apply upd_other. intros ->. congruence.
  - unfold upd. destruct (var_eqb y x); [reflexivity | exact HS].
Qed.

(* folding: the original program executes  k = e , the transformed one nothing *)
Lemma Sub_fold F s s' k e :
  Sub F s s' -> Sub ((k, subst_e F e) :: F) (upd s k (eval e s)) s'.
Proof.
  intros HS y. unfold agree. cbn [slookup]. destruct (var_eqb y k) eqn:E.
  - apply var_eqb_eq in E. subst. rewrite upd_same, eval_subst_e.
    apply eval_ext. intros x _. apply agree_sub_state, HS.
  - apply var_eqb_neq in E. rewrite (upd_other _ _ _ _ E). apply HS.
Qed.

(* the appended  c = c : the transformed program rewrites a variable with its own value *)
Lemma Sub_upd_self F s s' k : Sub F s s' -> Sub F s (upd s' k (s' k)).
Proof.
  intros HS x. specialize (HS x). unfold agree in *. destruct (slookup F x) as [v|].
  - rewrite <- HS. apply eval_ext. intros y _. apply upd_self.
  - rewrite upd_self. exact HS.
Qed.

(* what a successful [fold_value] says about the assignment, and what each rule adds *)
Lemma fold_value_some r bv seen rest F g v :
  fold_value r bv seen rest F g = Some v ->
  mem_var (ga_var g) bv = false /\ ga_cond g = CTrue /\
  exists p e, ga_rhs g = RChoice [(p, e)] /\ v = subst_e F e /\
    (strict r = true -> disjointb (evars v) bv = true) /\
    (is_fix r = true -> mem_var (ga_var g) seen = false /\ mem_var (ga_var g) rest = false /\
                        disjointb (evars v) rest = true).
Proof.
  unfold fold_value. destruct (mem_var (ga_var g) bv); [discriminate|].
  destruct (ga_cond g); try discriminate. destruct (ga_rhs g) as [[|[p e] [|]]|]; try discriminate.
  intros H. split; [reflexivity|]. split; [reflexivity|]. exists p, e. split; [reflexivity|].
  destruct r; cbn [strict is_fix].
  - injection H as <-. repeat split; discriminate.
  - destruct (disjointb (evars (subst_e F e)) bv) eqn:Ed; [|discriminate]. injection H as <-.
    split; [reflexivity|]. split; [intros _; exact Ed | discriminate].
  - destruct (_ && _ && _ && _) eqn:Ec; [|discriminate]. injection H as <-.
    rewrite !andb_true_iff, !negb_true_iff in Ec. destruct Ec as [[[Hb Hs] Hr] Hd]. auto.
  - destruct (_ && _ && _ && _) eqn:Ec; [|discriminate]. injection H as <-.
    rewrite !andb_true_iff, !negb_true_iff in Ec. destruct Ec as [[[Hb Hs] Hr] Hd]. auto.
Qed.

Lemma is_fix_strict r : is_fix r = true -> strict r = true.
Proof. destruct r; cbn [is_fix strict]; auto. Qed.

(* variables read by the kept assignments are not folded (again) later *)
Lemma scan_stable r bv l : forall seen F rd F' kept,
  scan r bv seen F l = (F', kept) -> scan_ok r bv seen F rd l = true ->
  forall x, In x rd -> slookup F' x = slookup F x.
Proof.
  induction l as [|g l IH]; cbn [scan scan_ok]; intros seen F rd F' kept Hs Hok x Hx.
  - injection Hs as <- _. reflexivity.
  - destruct (fold_value r bv seen (map ga_var l) F g) as [v|] eqn:Ef.
    + apply andb_true_iff in Hok as [Hok Hl]. apply andb_true_iff in Hok as [_ Hrd].
      rewrite (IH _ _ _ _ _ Hs Hl x Hx). cbn [slookup].
      destruct (var_eqb x (ga_var g)) eqn:E; [|reflexivity].
      apply var_eqb_eq in E. subst. rewrite (mem_var_In _ _ Hx) in Hrd. discriminate.
    + destruct (scan r bv (seen_kept g seen) F l) as [F1 k1] eqn:Es. injection Hs as <- _.
      apply andb_true_iff in Hok as [_ Hl].
      apply (IH _ _ _ _ _ Es Hl x). apply in_or_app; right; exact Hx.
Qed.

Definition body_indep (bv : list var) (F : smap) : Prop :=
  forall k v, In (k, v) F -> mem_var k bv = false /\ disjointb (evars v) bv = true.
Lemma body_indep_nil bv : body_indep bv [].
Proof. intros k v []. Qed.
Lemma scan_body_indep r bv l : strict r = true -> forall seen F F' kept,
  scan r bv seen F l = (F', kept) -> body_indep bv F -> body_indep bv F'.
Proof.
  intros Hr. induction l as [|g l IH]; cbn [scan]; intros seen F F' kept Hs HF.
  - injection Hs as <- _. exact HF.
  - destruct (fold_value r bv seen (map ga_var l) F g) as [v|] eqn:Ef.
    + apply (IH _ _ _ _ Hs). intros k v0 [Hin|Hin]; [|apply HF; exact Hin].
      injection Hin as <- <-. destruct (fold_value_some _ _ _ _ _ _ _ Ef) as (Hb & _ & p & e & _ & _ & Hd & _).
      split; [exact Hb | apply Hd; exact Hr].
    + destruct (scan r bv (seen_kept g seen) F l) as [F1 k1] eqn:Es. injection Hs as <- _. eapply IH; eauto.
Qed.

Lemma body_indep_fresh bv F x : body_indep bv F -> In x bv -> fresh_in F x.
Proof.
  intros HF Hx. split.
  - destruct (slookup F x) as [v|] eqn:Ev; [|reflexivity].
    destruct (HF _ _ (slookup_some_in _ _ _ Ev)) as [Hm _]. rewrite (mem_var_In _ _ Hx) in Hm. discriminate.
  - intros k v Hin Hxv. destruct (HF k v Hin) as [_ Hdis]. exact (disjointb_spec _ _ Hdis _ Hxv Hx).
Qed.

Section Constants.
  Variable law : string -> list Qc -> dist Qc.

  (* a kept assignment against its substituted version; the map F' that is substituted may be
     larger than the map F of the current point as long as both agree on what g reads *)
  Lemma kept_sim F F' g s s' :
    Sub F s s' -> (forall x, In x (ga_reads g) -> slookup F' x = slookup F x) ->
    fresh_in F (ga_var g) -> mem_var (ga_default g) (sdom F) = false ->
    coupled (Sub F) (exec_ga law g s) (exec_ga law (subst_ga F' g) s').
  Proof.
    intros HS HF' Hfr Hd. apply exec_ga_subst.
    - intros x Hx. unfold agree. rewrite (HF' x Hx). apply HS.
    - apply (Sub_none F), slookup_none; assumption.
    - intros val. apply Sub_upd; assumption.
  Qed.

  Lemma init_sim r bv l : forall seen F rd F' kept,
    scan r bv seen F l = (F', kept) -> scan_ok r bv seen F rd l = true ->
    forall s s', Sub F s s' ->
    coupled (Sub F') (exec_gas law l s) (exec_gas law (map (subst_ga F') kept) s').
  Proof.
    induction l as [|g l IH]; cbn [scan scan_ok]; intros seen F rd F' kept Hs Hok s s' HS.
    - injection Hs as <- <-. apply coupled_ret, HS.
    - destruct (fold_value r bv seen (map ga_var l) F g) as [v|] eqn:Ef.
      + (* folded *)
        apply andb_true_iff in Hok as [Hok Hl]. apply andb_true_iff in Hok as [Hp _].
        destruct (fold_value_some _ _ _ _ _ _ _ Ef) as (_ & Hc & p & e & Hr & -> & _).
        unfold prob_one in Hp. rewrite Hr in Hp. destruct p as [q| | | |]; try discriminate.
        apply Qc_eqb_true in Hp. subst q.
        cbn [exec_gas]. rewrite (exec_ga_det law g e s Hc Hr), bind_ret_l.
        apply (IH _ _ _ _ _ Hs Hl), Sub_fold, HS.
      + (* kept *)
        destruct (scan r bv (seen_kept g seen) F l) as [F1 k1] eqn:Es. injection Hs as <- <-.
        apply andb_true_iff in Hok as [Hok Hl]. apply andb_true_iff in Hok as [Hfr Hdef].
        cbn [map exec_gas]. apply (coupled_bind (Sub F)).
        * apply kept_sim; [exact HS | | apply fresh_for_spec, Hfr | apply negb_true_iff, Hdef].
          intros x Hx. apply (scan_stable _ _ _ _ _ _ _ _ Es Hl), in_or_app. left; exact Hx.
        * intros t t' Ht. apply (IH _ _ _ _ _ Es Hl), Ht.
  Qed.

  Lemma exec_self k s : exec_ga law (self_assign k) s = ret (upd s k (s k)).
  Proof. apply (exec_ga_det law (self_assign k) (EVar k)); [reflexivity | apply RDet_1]. Qed.

  (* the appended  c = c  assignments do nothing observable *)
  Lemma tail_sim F ks : forall s s', Sub F s s' ->
    coupled (Sub F) (ret s) (exec_gas law (map self_assign ks) s').
  Proof.
    induction ks as [|k ks IH]; cbn [map exec_gas]; intros s s' HS; [apply coupled_ret, HS|].
    rewrite exec_self, bind_ret_l. apply IH, Sub_upd_self, HS.
  Qed.

  Lemma body_sim bv F ks l :
    body_indep bv F ->
    (forall g, In g l -> In (ga_var g) bv /\ mem_var (ga_default g) (sdom F) = false) ->
    forall s s', Sub F s s' ->
    coupled (Sub F) (exec_gas law l s) (exec_gas law (map (subst_ga F) l ++ map self_assign ks) s').
  Proof.
    intros HF. induction l as [|g l IH]; cbn [map app exec_gas]; intros Hl s s' HS.
    - apply tail_sim, HS.
    - destruct (Hl g (or_introl eq_refl)) as [Hv Hd].
      apply (coupled_bind (Sub F)).
      + apply kept_sim; [exact HS | reflexivity | exact (body_indep_fresh _ _ _ HF Hv) | exact Hd].
      + intros t t' Ht. apply IH; [|exact Ht]. intros g0 Hg0. apply Hl. right; exact Hg0.
  Qed.

  Theorem constants_gen_coupled r fp : strict r = true -> constants_ok_gen r fp = true ->
    forall n s0, coupled (Sub (fixed_gen r fp)) (frun law fp n s0) (frun law (constants_gen r fp) n s0).
  Proof.
    unfold constants_ok_gen, constants_gen, fixed_gen. intros Hr Hok.
    apply andb_true_iff in Hok as [Hscan Hdef].
    set (bv := body_vars fp) in *.
    destruct (scan r bv (seen0 r fp) [] (fp_init fp)) as [F kept] eqn:Es. cbn [fst] in *.
    intros n s0. induction n as [|n IH]; cbn [frun fp_init fp_body].
    - apply (init_sim r bv _ _ _ _ _ _ Es Hscan s0 s0). apply Sub_nil.
    - apply (coupled_bind (Sub F)); [exact IH|].
      intros s s' HS. unfold fstep. cbn [fp_body]. apply (body_sim bv); [| |exact HS].
      + apply (scan_body_indep r bv _ Hr _ _ _ _ Es), body_indep_nil.
      + intros g Hg. split.
        * unfold bv, body_vars. apply in_map. exact Hg.
        * rewrite forallb_forall in Hdef. apply negb_true_iff, Hdef, Hg.
  Qed.

  (* a function of the state that does not read the folded variables (in particular it
     does not distinguish states that are equal at every variable) *)
  Definition ignores (vs : list var) (f : state -> Qc) : Prop :=
    forall s s', (forall x, mem_var x vs = false -> s x = s' x) -> f s = f s'.

  Theorem constants_gen_preserves r fp : strict r = true -> constants_ok_gen r fp = true ->
    forall n s0 f, ignores (sdom (fixed_gen r fp)) f ->
    E (frun law (constants_gen r fp) n s0) f = E (frun law fp n s0) f.
  Proof.
    intros Hr Hok n s0 f Hf. symmetry.
    apply (coupled_E _ _ _ _ _ (constants_gen_coupled r fp Hr Hok n s0)).
    intros s s' HS. apply Hf. intros x Hx. symmetry. apply (Sub_none _ _ _ _ HS), slookup_none, Hx.
  Qed.

  (* the invariant that makes the substitution right *)
  Theorem constants_gen_invariant r fp : strict r = true -> constants_ok_gen r fp = true ->
    closed_map (fixed_gen r fp) = true ->
    forall n s0 s, supp (frun law fp n s0) s ->
    forall k v, slookup (fixed_gen r fp) k = Some v -> s k = eval v s.
  Proof.
    intros Hr Hok Hcl n s0 s Hs k v Hk.
    destruct (coupled_supp_l _ _ _ _ (constants_gen_coupled r fp Hr Hok n s0) Hs) as [s' [_ HS]].
    rewrite <- (Sub_some _ _ _ _ _ HS Hk).
    unfold closed_map in Hcl. rewrite forallb_forall in Hcl.
    specialize (Hcl (k, v) (slookup_some_in _ _ _ Hk)). cbn [snd] in Hcl.
    apply eval_evars_ext. intros x Hx.
    apply (Sub_none _ _ _ _ HS), slookup_none, (disjointb_mem _ _ _ Hcl Hx).
  Qed.

  (* rules RFix and RCond: the hypothesis holds by construction.  Invariant of the scan: every
     variable still to be assigned in the initial block is fresh for the constants fixed so far *)
  Lemma scan_ok_fix r bv l : is_fix r = true -> forall seen F rd,
    forallb wf_init_ga l = true -> incl rd seen ->
    (forall x, In x (map ga_var l) -> fresh_for F x = true) ->
    scan_ok r bv seen F rd l = true.
  Proof.
    intros Hfix. induction l as [|g l IH]; intros seen F rd Hwf Hrd HF; [reflexivity|].
    cbn [forallb] in Hwf. apply andb_true_iff in Hwf as [Hg Hl].
    apply andb_true_iff in Hg as [Hd Hp]. apply var_eqb_eq in Hd.
    cbn [scan_ok map] in *. pose proof (HF _ (or_introl eq_refl)) as Hfr.
    destruct (fold_value r bv seen (map ga_var l) F g) as [v|] eqn:Ef; rewrite !andb_true_iff.
    - destruct (fold_value_some _ _ _ _ _ _ _ Ef) as (_ & Hc & p & e & Hr & _ & _ & Hfx).
      destruct (Hfx Hfix) as (Hseen & Hrest & Hdis). split; [split|].
      + unfold prob_one. rewrite Hc, Hr in Hp. rewrite Hr. exact Hp.
      + apply negb_true_iff. destruct (mem_var (ga_var g) rd) eqn:Em; [|reflexivity].
        rewrite (mem_var_In _ _ (Hrd _ (mem_var_true _ _ Em))) in Hseen. discriminate.
      + apply IH; [exact Hl | apply incl_tl, Hrd |].
        intros x Hx. apply fresh_for_cons; [| |apply HF; right; exact Hx].
        * apply var_eqb_neq. intros ->. exact (mem_var_false _ _ Hrest Hx).
        * destruct (mem_var x (evars v)) eqn:Em; [|reflexivity].
          exfalso. exact (disjointb_spec _ _ Hdis x (mem_var_true _ _ Em) Hx).
    - split; [split|].
      + exact Hfr.
      + rewrite Hd. unfold fresh_for in Hfr. apply andb_true_iff in Hfr as [Hfr _]. exact Hfr.
      + apply IH; [exact Hl | | intros x Hx; apply HF; right; exact Hx].
        unfold seen_kept. apply incl_tl, incl_tl, incl_app_app; [apply incl_refl | exact Hrd].
  Qed.

  Theorem constants_ok_gen_by_construction r fp :
    is_fix r = true -> wf_flat fp = true -> constants_ok_gen r fp = true.
  Proof.
    unfold wf_flat, constants_ok_gen, fixed_gen. intros Hfix H.
    apply andb_true_iff in H as [Hi Hb]. apply andb_true_iff. split.
    - apply scan_ok_fix; [exact Hfix | exact Hi | intros y [] | reflexivity].
    - apply forallb_forall. intros g Hg. rewrite forallb_forall in Hb. specialize (Hb g Hg).
      destruct (scan r (body_vars fp) (seen0 r fp) [] (fp_init fp)) as [F kept] eqn:Es. cbn [fst].
      pose proof (scan_body_indep r _ _ (is_fix_strict r Hfix) _ _ _ _ Es (body_indep_nil _)) as HF.
      destruct (mem_var (ga_default g) (sdom F)) eqn:Em; [|reflexivity].
      apply mem_var_true, in_map_iff in Em. destruct Em as [[k v] [Hk Hin]]. cbn [fst] in Hk. subst k.
      destruct (HF _ _ Hin) as [Hm _]. congruence.
  Qed.

  (* the code as it is now (rule RCond) *)
  Theorem constants_coupled fp : constants_ok fp = true ->
    forall n s0, coupled (Sub (fixed fp)) (frun law fp n s0) (frun law (constants fp) n s0).
  Proof. apply (constants_gen_coupled RCond fp eq_refl). Qed.
End Constants.

(* the pre-repair rule is unsound *)
Open Scope string_scope.
Definition refute_prog : flatprog :=
  {| fp_init := [ {| ga_var := "x"; ga_cond := CTrue; ga_default := "x"; ga_rhs := RDet (EConst (mkq 3 1)) |};
                  {| ga_var := "k"; ga_cond := CTrue; ga_default := "k";
                     ga_rhs := RDet (EAdd (EVar "x") (EConst (mkq 1 1))) |} ];
     fp_body := [ {| ga_var := "x"; ga_cond := CTrue; ga_default := "x";
                     ga_rhs := RDet (EAdd (EVar "x") (EVar "k")) |} ] |}.
Definition obs (x : var) : state -> Qc := fun s => s x.

Theorem constants_old_refuted :
  exists fp n s0 f, ignores (sdom (fixed_gen ROld fp)) f /\
    E (frun no_law (constants_old fp) n s0) f <> E (frun no_law fp n s0) f.
Proof.
  exists refute_prog, 2%nat, st0, (obs "x"). split.
  - intros s s' H. apply H. vm_compute. reflexivity.
  - assert (H1 : E (frun no_law (constants_old refute_prog) 2 st0) (obs "x") = mkq 15 1) by (vm_compute; reflexivity).
    assert (H2 : E (frun no_law refute_prog 2 st0) (obs "x") = mkq 11 1) by (vm_compute; reflexivity).
    rewrite H1, H2. intros H. discriminate H.
Qed.

(* rule RCur (/repo 3e6440d .. 5e78f4d) does not guarantee its hypothesis [constants_ok_gen RCur]
   and is wrong without it *)
Definition det (x : var) (e : expr) : gassign :=
  {| ga_var := x; ga_cond := CTrue; ga_default := x; ga_rhs := RDet e |}.
Definition qc (z : Z) : expr := EConst (mkq z 1).
Definition wit_a : flatprog :=
  {| fp_init := [det "k" (qc 1); det "y" (EVar "k"); det "k" (qc 2)];
     fp_body := [det "y" (EAdd (EVar "y") (EVar "k"))] |}.
Definition wit_b : flatprog :=
  {| fp_init := [det "k" (qc 1);
                 {| ga_var := "k"; ga_cond := CTrue; ga_default := "k"; ga_rhs := RDraw (DBern (EConst (mkq 1 2))) |};
                 det "x" (qc 0)];
     fp_body := [det "x" (EAdd (EVar "x") (EVar "k"))] |}.

Theorem constants_cur_without_ok_refuted :
  exists (fp : flatprog) (n : nat) (s0 : state) (f : state -> Qc),
    ignores (sdom (fixed_gen RCur fp)) f /\ E (frun no_law (constants_cur fp) n s0) f <> E (frun no_law fp n s0) f.
Proof.
  exists wit_a, 0%nat, st0, (obs "y"). split.
  - intros s s' H. apply H. vm_compute. reflexivity.
  - assert (H1 : E (frun no_law (constants_cur wit_a) 0 st0) (obs "y") = mkq 2 1) by (vm_compute; reflexivity).
    assert (H2 : E (frun no_law wit_a 0 st0) (obs "y") = mkq 1 1) by (vm_compute; reflexivity).
    rewrite H1, H2. intros H. discriminate H.
Qed.

(* structural comparison with Polar's output (correspondence check) *)
Fixpoint cond_eq_poly (c d : cond) : bool :=
  match c, d with
  | CTrue, CTrue | CFalse, CFalse => true
  | CAtom a o b, CAtom a' o' b' =>
      poly_eqb a a' && poly_eqb b b' &&
      match o, o' with Ceq, Ceq | Cle, Cle | Cge, Cge | Clt, Clt | Cgt, Cgt => true | _, _ => false end
  | CNot c1, CNot d1 => cond_eq_poly c1 d1
  | CAnd c1 c2, CAnd d1 d2 | COr c1 c2, COr d1 d2 => cond_eq_poly c1 d1 && cond_eq_poly c2 d2
  | _, _ => false
  end.
Fixpoint list_eqb {A} (eqb : A -> A -> bool) (l1 l2 : list A) : bool :=
  match l1, l2 with
  | [], [] => true
  | a :: l1', b :: l2' => eqb a b && list_eqb eqb l1' l2'
  | _, _ => false
  end.
Definition draw_eq_poly (d e : draw) : bool :=
  match d, e with
  | DBern p, DBern q => poly_eqb p q
  | DCat ps, DCat qs => list_eqb poly_eqb ps qs
  | DUnif a b, DUnif a' b' => Z.eqb a a' && Z.eqb b b'
  | DCont f args, DCont f' args' => String.eqb f f' && list_eqb poly_eqb args args'
  | _, _ => false
  end.
Definition rhs_eq_poly (r r' : rhs) : bool :=
  match r, r' with
  | RChoice a, RChoice b => list_eqb (fun x y => poly_eqb (fst x) (fst y) && poly_eqb (snd x) (snd y)) a b
  | RDraw d, RDraw e => draw_eq_poly d e
  | _, _ => false
  end.
Definition ga_eq_poly (g h : gassign) : bool :=
  var_eqb (ga_var g) (ga_var h) && var_eqb (ga_default g) (ga_default h)
  && cond_eq_poly (ga_cond g) (ga_cond h) && rhs_eq_poly (ga_rhs g) (ga_rhs h).

(* body: the model's  c = c  tail may come in any order (Python set) *)
Fixpoint remove_first (g : gassign) (l : list gassign) : option (list gassign) :=
  match l with
  | [] => None
  | h :: l' => if ga_eq_poly g h then Some l'
               else match remove_first g l' with Some r => Some (h :: r) | None => None end
  end.
Fixpoint perm_eq (l1 l2 : list gassign) : bool :=
  match l1 with
  | [] => match l2 with [] => true | _ => false end
  | g :: l1' => match remove_first g l2 with Some r => perm_eq l1' r | None => false end
  end.
(* Assignment.subs also substitutes the DEFAULT variable; the result is a variable only if no
   default is a folded constant — otherwise the output is not a flat program of the model
   (this only happens outside [constants_ok]) *)
Definition constants_in_model_gen (r : rule) (fp : flatprog) : bool :=
  let '(F, kept) := scan r (body_vars fp) (seen0 r fp) [] (fp_init fp) in
  forallb (fun g => negb (mem_var (ga_default g) (sdom F))) (kept ++ fp_body fp).

Definition constants_matches_gen (r : rule) (fp out : flatprog) : bool :=
  let m := constants_gen r fp in
  let nb := List.length (fp_body fp) in
  list_eqb ga_eq_poly (fp_init m) (fp_init out)
  && list_eqb ga_eq_poly (firstn nb (fp_body m)) (firstn nb (fp_body out))
  && perm_eq (skipn nb (fp_body m)) (skipn nb (fp_body out)).

Definition constants_in_model : flatprog -> bool := constants_in_model_gen RCond.
Definition constants_matches : flatprog -> flatprog -> bool := constants_matches_gen RCond.
