(* Shared by the pass proofs (PassConstants, PassDist, PassAbstraction) and the typer:
   - [coupled R d d']: two finitely supported laws are the same weighted list up to a
     relation R on outcomes (a pointwise coupling).  It gives equality of expectations of
     R-compatible functions AND support facts (invariants), and composes through [bind];
   - simultaneous substitution of variables by expressions in expressions, conditions,
     right-hand sides and guarded assignments, with the substitution lemma (evaluating the
     substituted term in s' is evaluating the term in [sub_state F s']); conditions and
     right-hand sides depend on the variables they read only ([holds_ext], [sample_ext]);
   - the variables an expression really depends on ([evars], variables of the polynomial
     normal form, as symengine's free_symbols after automatic simplification). *)
From Coq Require Import List String QArith Qcanon ZArith Bool Ring.
From Polar Require Import Qcx Dist Syntax Sem Types Poly.
From Polar Require PassFlat.
Import ListNotations.
Local Open Scope Qc_scope.

Definition coupled {A B} (R : A -> B -> Prop) (d : dist A) (d' : dist B) : Prop :=
  Forall2 (fun a b => fst a = fst b /\ R (snd a) (snd b)) d d'.

Lemma coupled_ret {A B} (R : A -> B -> Prop) a b : R a b -> coupled R (ret a) (ret b).
Proof. intros H. constructor; [split; [reflexivity | exact H] | constructor]. Qed.

Lemma coupled_dscale {A B} (R : A -> B -> Prop) w d d' :
  coupled R d d' -> coupled R (dscale w d) (dscale w d').
Proof.
  unfold coupled, dscale. induction 1 as [|[u a] [u' b] d d' [Hw HR] _ IH]; cbn [map]; constructor.
  - cbn [fst snd] in *. subst. split; [reflexivity | exact HR].
  - exact IH.
Qed.

Lemma coupled_app {A B} (R : A -> B -> Prop) d1 d1' d2 d2' :
  coupled R d1 d1' -> coupled R d2 d2' -> coupled R (d1 ++ d2) (d1' ++ d2').
Proof. unfold coupled. apply Forall2_app. Qed.

Lemma coupled_bind {A A' B B'} (R : A -> A' -> Prop) (R' : B -> B' -> Prop) d d' k k' :
  coupled R d d' -> (forall a a', R a a' -> coupled R' (k a) (k' a')) ->
  coupled R' (bind d k) (bind d' k').
Proof.
  intros Hd Hk. induction Hd as [|[u a] [u' a'] d d' [Hw HR] _ IH]; cbn [bind]; [constructor|].
  cbn [fst snd] in *. subst. apply coupled_app; [apply coupled_dscale, Hk, HR | exact IH].
Qed.

Lemma coupled_E {A B} (R : A -> B -> Prop) d d' f g :
  coupled R d d' -> (forall a b, R a b -> f a = g b) -> E d f = E d' g.
Proof.
  intros Hd H. induction Hd as [|[u a] [u' b] d d' [Hw HR] _ IH]; cbn [E]; [reflexivity|].
  cbn [fst snd] in *. subst. rewrite (H a b HR), IH. reflexivity.
Qed.

Lemma coupled_supp_l {A B} (R : A -> B -> Prop) d d' a :
  coupled R d d' -> supp d a -> exists b, supp d' b /\ R a b.
Proof.
  intros Hd [w Hin]. induction Hd as [|[u a0] [u' b0] d d' [Hw HR] _ IH]; [destruct Hin|].
  destruct Hin as [Hin|Hin].
  - injection Hin as -> ->. exists b0. split; [exists u'; left; reflexivity | exact HR].
  - destruct (IH Hin) as [b [[w' Hb] Hr]]. exists b. split; [exists w'; right; exact Hb | exact Hr].
Qed.

Lemma coupled_mono {A B} (R R' : A -> B -> Prop) d d' :
  (forall a b, R a b -> R' a b) -> coupled R d d' -> coupled R' d d'.
Proof.
  intros H Hd. induction Hd as [|x y d d' [Hw HR] _ IH]; constructor; [split; auto | exact IH].
Qed.

Lemma coupled_eq_refl {A} (d : dist A) : coupled eq d d.
Proof. induction d as [|[w a] d IH]; constructor; [split; reflexivity | exact IH]. Qed.

Definition disjointb (a b : list var) : bool := forallb (fun x => negb (mem_var x b)) a.
Lemma disjointb_mem a b x : disjointb a b = true -> In x a -> mem_var x b = false.
Proof. unfold disjointb. rewrite forallb_forall. intros H Ha. apply negb_true_iff, H, Ha. Qed.
Lemma disjointb_spec a b : disjointb a b = true -> forall x, In x a -> ~ In x b.
Proof. intros H x Ha. apply mem_var_false, (disjointb_mem a b x H Ha). Qed.

Fixpoint cvars (c : cond) : list var :=
  match c with
  | CTrue | CFalse => []
  | CAtom a _ b => vars_of a ++ vars_of b
  | CNot c1 => cvars c1
  | CAnd c1 c2 | COr c1 c2 => cvars c1 ++ cvars c2
  end.
Definition dvars (d : draw) : list var :=
  match d with
  | DBern p => vars_of p
  | DCat ps => flat_map vars_of ps
  | DUnif _ _ => []
  | DCont _ args => flat_map vars_of args
  end.
Definition rvars (r : rhs) : list var :=
  match r with
  | RChoice alts => flat_map (fun pe => vars_of (fst pe) ++ vars_of (snd pe)) alts
  | RDraw d => dvars d
  end.
Definition ga_reads (g : gassign) : list var := cvars (ga_cond g) ++ rvars (ga_rhs g).

Definition smap := list (var * expr).
Fixpoint slookup (F : smap) (x : var) : option expr :=
  match F with
  | [] => None
  | (y, e) :: F' => if var_eqb x y then Some e else slookup F' x
  end.
Definition sdom (F : smap) : list var := map fst F.

Lemma slookup_none F x : mem_var x (sdom F) = false -> slookup F x = None.
Proof.
  induction F as [|[y e] F IH]; cbn [sdom map fst mem_var existsb slookup]; intros H; [reflexivity|].
  apply orb_false_iff in H. destruct H as [H1 H2]. rewrite H1. apply IH. exact H2.
Qed.
Lemma slookup_some_dom F x e : slookup F x = Some e -> In x (sdom F).
Proof.
  induction F as [|[y e'] F IH]; cbn [slookup sdom map fst]; intros H; [discriminate|].
  destruct (var_eqb x y) eqn:E; [left; symmetry; apply String.eqb_eq; exact E | right; apply IH; exact H].
Qed.
Lemma slookup_some_in F x e : slookup F x = Some e -> In (x, e) F.
Proof.
  induction F as [|[y e'] F IH]; cbn [slookup]; intros H; [discriminate|].
  destruct (var_eqb x y) eqn:E.
  - apply String.eqb_eq in E. subst. injection H as <-. left; reflexivity.
  - right; apply IH; exact H.
Qed.

Fixpoint subst_e (F : smap) (e : expr) : expr :=
  match e with
  | EConst q => EConst q
  | EVar x => match slookup F x with Some e' => e' | None => EVar x end
  | EAdd a b => EAdd (subst_e F a) (subst_e F b)
  | EMul a b => EMul (subst_e F a) (subst_e F b)
  | EPow a k => EPow (subst_e F a) k
  end.
Fixpoint subst_c (F : smap) (c : cond) : cond :=
  match c with
  | CTrue => CTrue
  | CFalse => CFalse
  | CAtom a o b => CAtom (subst_e F a) o (subst_e F b)
  | CNot c1 => CNot (subst_c F c1)
  | CAnd c1 c2 => CAnd (subst_c F c1) (subst_c F c2)
  | COr c1 c2 => COr (subst_c F c1) (subst_c F c2)
  end.
Definition subst_d (F : smap) (d : draw) : draw :=
  match d with
  | DBern p => DBern (subst_e F p)
  | DCat ps => DCat (map (subst_e F) ps)
  | DUnif a b => DUnif a b
  | DCont f args => DCont f (map (subst_e F) args)
  end.
Definition subst_r (F : smap) (r : rhs) : rhs :=
  match r with
  | RChoice alts => RChoice (map (fun pe => (subst_e F (fst pe), subst_e F (snd pe))) alts)
  | RDraw d => RDraw (subst_d F d)
  end.
(* Assignment.subs: condition, right-hand side (and the default variable, which is never a
   substituted variable where the theorems apply) *)
Definition subst_ga (F : smap) (g : gassign) : gassign :=
  {| ga_var := ga_var g; ga_cond := subst_c F (ga_cond g); ga_default := ga_default g;
     ga_rhs := subst_r F (ga_rhs g) |}.

(* [s] is a state of the original program, [s'] of the substituted one: at x they agree
   through the substitution *)
Definition agree (F : smap) (s s' : state) (x : var) : Prop :=
  match slookup F x with Some v => eval v s' = s x | None => s' x = s x end.

(* the state in which the substituted program, run from [s'], reads its variables *)
Definition sub_state (F : smap) (s' : state) : state :=
  fun x => match slookup F x with Some v => eval v s' | None => s' x end.

Lemma agree_sub_state F s s' x : agree F s s' x <-> sub_state F s' x = s x.
Proof. unfold agree, sub_state. destruct (slookup F x); reflexivity. Qed.

Lemma eval_subst_e F e s : eval (subst_e F e) s = eval e (sub_state F s).
Proof.
  induction e as [q|x|a IHa b IHb|a IHa b IHb|a IHa k]; cbn [subst_e eval].
  - reflexivity.
  - unfold sub_state. destruct (slookup F x); reflexivity.
  - rewrite IHa, IHb. reflexivity.
  - rewrite IHa, IHb. reflexivity.
  - rewrite IHa. reflexivity.
Qed.

Lemma holds_subst_c F c s : holds (subst_c F c) s = holds c (sub_state F s).
Proof.
  induction c as [| |a o b|c1 IH|c1 IH1 c2 IH2|c1 IH1 c2 IH2]; cbn [subst_c holds].
  - reflexivity.
  - reflexivity.
  - rewrite !eval_subst_e. reflexivity.
  - rewrite IH. reflexivity.
  - rewrite IH1, IH2. reflexivity.
  - rewrite IH1, IH2. reflexivity.
Qed.

Lemma map_eval_subst F l s :
  map (fun e => eval e s) (map (subst_e F) l) = map (fun e => eval e (sub_state F s)) l.
Proof. rewrite map_map. apply map_ext. intros e. apply eval_subst_e. Qed.

(* [cvars], [dvars] and [rvars] are PassFlat's cond_vars, draw_vars and rhs_vars, so its lemmas carry over *)
Lemma holds_ext c s s' : (forall x, In x (cvars c) -> s x = s' x) -> holds c s = holds c s'.
Proof. exact (PassFlat.holds_ext c s s'). Qed.

Lemma RDet_1 e : RDet e = RChoice [(EConst 1, e)].
Proof. unfold RDet. rewrite mkq_1_1. reflexivity. Qed.

Section Subst.
  Variable law : string -> list Qc -> dist Qc.

  Lemma sample_ext r s s' : (forall x, In x (rvars r) -> s x = s' x) -> sample law r s = sample law r s'.
  Proof. exact (PassFlat.sample_ext law r s s'). Qed.

  Lemma sample_subst_r F r s : sample law (subst_r F r) s = sample law r (sub_state F s).
  Proof.
    destruct r as [alts|[p|ps|a b|f args]]; cbn [subst_r subst_d sample draw_law].
    - rewrite map_map. apply map_ext. intros [p e]. cbn [fst snd]. rewrite !eval_subst_e. reflexivity.
    - rewrite eval_subst_e. reflexivity.
    - rewrite map_eval_subst. reflexivity.
    - reflexivity.
    - rewrite map_eval_subst. reflexivity.
  Qed.

  Lemma exec_ga_det g e s :
    ga_cond g = CTrue -> ga_rhs g = RChoice [(EConst 1, e)] ->
    exec_ga law g s = ret (upd s (ga_var g) (eval e s)).
  Proof.
    intros Hc Hr. unfold exec_ga. rewrite Hc, Hr. cbn [holds sample map fst snd eval].
    exact (bind_ret_l (eval e s) (fun v => ret (upd s (ga_var g) v))).
  Qed.

  (* one guarded assignment and its substituted version, from states that agree through F on
     everything the assignment reads: the results are coupled by any relation that is kept
     by writing the same value to the assigned variable on both sides *)
  Lemma exec_ga_subst F g s s' (R : state -> state -> Prop) :
    (forall x, In x (ga_reads g) -> agree F s s' x) ->
    s' (ga_default g) = s (ga_default g) ->
    (forall v, R (upd s (ga_var g) v) (upd s' (ga_var g) v)) ->
    coupled R (exec_ga law g s) (exec_ga law (subst_ga F g) s').
  Proof.
    intros Hr Hd HR. unfold exec_ga, subst_ga, ga_reads in *. cbn [ga_cond ga_var ga_default ga_rhs].
    rewrite holds_subst_c, sample_subst_r.
    rewrite (holds_ext (ga_cond g) (sub_state F s') s), (sample_ext (ga_rhs g) (sub_state F s') s)
      by (intros x Hx; apply agree_sub_state, Hr, in_or_app; auto).
    destruct (holds (ga_cond g) s).
    - apply (coupled_bind eq R); [apply coupled_eq_refl|].
      intros v v' <-. apply coupled_ret, HR.
    - apply coupled_ret. rewrite Hd. apply HR.
  Qed.
End Subst.

Definition pvars (p : poly) : list var := flat_map (fun t => map fst (snd t)) p.
Definition evars (e : expr) : list var := pvars (pclean (of_expr e)).

Lemma eval_mono_ext m s s' : (forall x, In x (map fst m) -> s x = s' x) -> eval_mono m s = eval_mono m s'.
Proof.
  induction m as [|[x k] m IH]; cbn [eval_mono map fst]; intros H; [reflexivity|].
  rewrite (H x (or_introl eq_refl)), IH; [reflexivity|]. intros y Hy; apply H; right; exact Hy.
Qed.
Lemma eval_poly_ext p s s' : (forall x, In x (pvars p) -> s x = s' x) -> eval_poly p s = eval_poly p s'.
Proof.
  unfold pvars. induction p as [|[c m] p IH]; cbn [eval_poly flat_map snd]; intros H; [reflexivity|].
  rewrite (eval_mono_ext m s s'), IH; [reflexivity| |]; intros x Hx; apply H, in_or_app; auto.
Qed.

Theorem eval_evars_ext e s s' : (forall x, In x (evars e) -> s x = s' x) -> eval e s = eval e s'.
Proof.
  intros H. rewrite <- !eval_of_expr, <- (eval_pclean _ s), <- (eval_pclean _ s').
  apply eval_poly_ext. exact H.
Qed.

(* equality of expressions as polynomials (complete: monomials and terms are normalised) *)
Definition poly_eqb (a b : expr) : bool := pzero (psub (of_expr a) (of_expr b)).
Lemma poly_eqb_sound a b : poly_eqb a b = true -> forall s, eval a s = eval b s.
Proof.
  intros H s. rewrite <- !eval_of_expr. apply pzero_psub_sound. exact H.
Qed.
