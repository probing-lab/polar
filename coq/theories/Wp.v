(* C03: weakest pre-expectation of polynomials through flat programs — the model of
   RecBuilder.get_recurrence (backward substitution of guarded assignments, arithmetisation
   of normalised conditions by Lagrange polynomials, power reduction of finitely typed
   variables) — with its exactness theorem on typed states, and the verified validator
   [check_system] that decides whether a linear system (Polar's own) is an exact one-step
   identity of a flat program. *)
From Coq Require Import List String QArith Qcanon ZArith Bool Ring Field Arith Lia.
From Polar Require Import Qcx CRing ExpPoly ClosedForm Dist Syntax Sem Types Poly Pipeline.
Import ListNotations.
Local Open Scope Qc_scope.

Section Wp.
  Variable law : string -> list Qc -> dist Qc.
  (* moments of the continuous families, as used by the analysis; the assumption that they
     are the moments of [law] is the hypothesis [cmom_ok] of the theorems below (C08 is about
     these formulas) *)
  Variable cmom : string -> list Qc -> nat -> Qc.
  Definition cmom_ok : Prop :=
    forall f args k, E (law f args) (fun v => qpow v k) = cmom f args k.

  Fixpoint lagrange (x : var) (c : Qc) (vs : list Qc) : poly :=
    match vs with
    | [] => pconst 1
    | v :: vs' =>
        if Qc_eqb v c then lagrange x c vs'
        else pmul (pscale (/ (c - v)) (psub (pvar x) (pconst v))) (lagrange x c vs')
    end.

  Lemma lagrange_at_c x c vs s : s x = c -> eval_poly (lagrange x c vs) s = 1.
  Proof.
    intros Hx; induction vs as [|v vs IH]; cbn [lagrange]; [apply eval_pconst|].
    destruct (Qc_eqb_spec v c) as [->|Hne]; [exact IH|].
    rewrite eval_pmul, eval_pscale, eval_psub, eval_pvar, eval_pconst, IH, Hx.
    field. intros H; apply Hne. transitivity (v + (c - v)); [rewrite H|]; ring.
  Qed.

  Lemma lagrange_off x c vs s : In (s x) vs -> s x <> c -> eval_poly (lagrange x c vs) s = 0.
  Proof.
    intros Hin Hne; induction vs as [|v vs IH]; [destruct Hin|].
    cbn [lagrange]. destruct (Qc_eqb_spec v c) as [->|Hvc].
    - destruct Hin as [Hin|Hin]; [congruence | apply IH; exact Hin].
    - rewrite eval_pmul, eval_pscale, eval_psub, eval_pvar, eval_pconst.
      destruct Hin as [Hin|Hin].
      + subst v. ring.
      + rewrite (IH Hin). ring.
  Qed.

  Definition ind (b : bool) : Qc := if b then 1 else 0.

  Lemma lagrange_ind x c vs s : In (s x) vs -> eval_poly (lagrange x c vs) s = ind (Qc_eqb (s x) c).
  Proof.
    intros Hin. destruct (Qc_eqb_spec (s x) c) as [Heq|Hne]; [apply lagrange_at_c | apply lagrange_off]; assumption.
  Qed.

  Fixpoint arith (T : tenv) (c : cond) : option poly :=
    match c with
    | CTrue => Some (pconst 1)
    | CFalse => Some (pconst 0)
    | CAtom (EVar x) Ceq (EConst q) =>
        match tlookup T x with
        | Some vs => if mem q vs then Some (lagrange x q vs) else Some (pconst 0)
        | None => None
        end
    | CAtom _ _ _ => None
    | CNot c1 => match arith T c1 with Some p => Some (psub (pconst 1) p) | None => None end
    | CAnd c1 c2 =>
        match arith T c1, arith T c2 with Some p, Some q => Some (pmul p q) | _, _ => None end
    | COr c1 c2 =>
        match arith T c1, arith T c2 with
        | Some p, Some q => Some (psub (pconst 1) (pmul (psub (pconst 1) p) (psub (pconst 1) q)))
        | _, _ => None
        end
    end.

  Theorem arith_sound T s c p : typed T s -> arith T c = Some p -> eval_poly p s = ind (holds c s).
  Proof.
    intros HT; revert p; induction c as [| |a o b|c1 IH|c1 IH1 c2 IH2|c1 IH1 c2 IH2]; cbn [arith]; intros p H.
    - injection H as <-; apply eval_pconst.
    - injection H as <-; apply eval_pconst.
    - destruct a as [|x| | |]; try discriminate. destruct o; try discriminate. destruct b as [q| | | |]; try discriminate.
      destruct (tlookup T x) as [vs|] eqn:Ex; [|discriminate].
      cbn [holds eval cop_holds]. pose proof (HT x vs Ex) as Hin.
      destruct (mem q vs) eqn:Em; injection H as <-; [apply lagrange_ind; exact Hin|].
      rewrite eval_pconst. destruct (Qc_eqb_spec (s x) q) as [Heq|Hne]; [|reflexivity].
      rewrite Heq in Hin. destruct (mem_false _ _ Em Hin).
    - destruct (arith T c1) as [p1|]; [|discriminate]. injection H as <-.
      rewrite eval_psub, eval_pconst, (IH p1 eq_refl). cbn [holds]. destruct (holds c1 s); simpl; ring.
    - destruct (arith T c1) as [p1|]; [|discriminate]. destruct (arith T c2) as [p2|]; [|discriminate].
      injection H as <-. rewrite eval_pmul, (IH1 p1 eq_refl), (IH2 p2 eq_refl). cbn [holds].
      destruct (holds c1 s), (holds c2 s); simpl; ring.
    - destruct (arith T c1) as [p1|]; [|discriminate]. destruct (arith T c2) as [p2|]; [|discriminate].
      injection H as <-. rewrite eval_psub, eval_pmul, !eval_psub, eval_pconst, (IH1 p1 eq_refl), (IH2 p2 eq_refl).
      cbn [holds]. destruct (holds c1 s), (holds c2 s); simpl; ring.
  Qed.

  Lemma eval_pite a p q s b : eval_poly a s = ind b ->
    eval_poly (padd (pmul a p) (pmul (psub (pconst 1) a) q)) s = if b then eval_poly p s else eval_poly q s.
  Proof.
    intros Ha. rewrite eval_padd, !eval_pmul, eval_psub, eval_pconst, Ha. destruct b; cbn [ind]; ring.
  Qed.

  (* k-th moment of a right-hand side as a polynomial of the pre-state *)
  Fixpoint choice_moment (alts : list (expr * expr)) (k : nat) : poly :=
    match alts with
    | [] => []
    | (p, e) :: alts' => padd (pmul (of_expr p) (ppow (of_expr e) k)) (choice_moment alts' k)
    end.
  Fixpoint cat_moment (ps : list expr) (i : nat) (k : nat) : poly :=
    match ps with
    | [] => []
    | p :: ps' => padd (pscale (qpow (qnat i) k) (of_expr p)) (cat_moment ps' (S i) k)
    end.
  Definition closed (e : expr) : bool := match vars_of e with [] => true | _ => false end.

  Definition rhs_moment (r : rhs) (k : nat) : option poly :=
    match r with
    | RChoice alts => Some (choice_moment alts k)
    | RDraw (DBern p) =>
        Some (padd (pscale (qpow 1 k) (of_expr p)) (pscale (qpow 0 k) (psub (pconst 1) (of_expr p))))
    | RDraw (DCat ps) => Some (cat_moment ps 0 k)
    | RDraw (DUnif a b) =>
        let n := Z.to_nat (b - a + 1) in
        Some (pconst (E (unif_law (/ qnat n) a n) (fun v => qpow v k)))
    | RDraw (DCont f args) =>
        if forallb closed args then Some (pconst (cmom f (map (fun e => eval e st0) args) k)) else None
    end.

  Lemma closed_eval e s s' : closed e = true -> eval e s = eval e s'.
  Proof.
    unfold closed; intros H. apply eval_ext. destruct (vars_of e); [intros x []|discriminate].
  Qed.

  Lemma closed_args_eval args s :
    forallb closed args = true -> map (fun e => eval e s) args = map (fun e => eval e st0) args.
  Proof.
    intros H. apply map_ext_in. intros e He. apply closed_eval. exact (proj1 (forallb_forall _ _) H e He).
  Qed.

  Lemma cat_law_moment ps i k s :
    E (cat_law (map (fun e => eval e s) ps) i) (fun v => qpow v k) = eval_poly (cat_moment ps i k) s.
  Proof.
    revert i; induction ps as [|p ps IH]; intros i; cbn [map cat_law cat_moment E]; [reflexivity|].
    rewrite eval_padd, eval_pscale, eval_of_expr, IH. ring.
  Qed.

  Lemma choice_law_moment alts k s :
    E (sample law (RChoice alts) s) (fun v => qpow v k) = eval_poly (choice_moment alts k) s.
  Proof.
    cbn [sample]. induction alts as [|[pe e] alts IH]; cbn [map E choice_moment]; [reflexivity|].
    rewrite eval_padd, eval_pmul, eval_ppow, !eval_of_expr, IH. simpl. ring.
  Qed.

  Theorem rhs_moment_sound r k p s : cmom_ok -> rhs_moment r k = Some p ->
    E (sample law r s) (fun v => qpow v k) = eval_poly p s.
  Proof.
    intros Hc H. destruct r as [alts|d]; cbn [rhs_moment] in H.
    - injection H as <-. apply choice_law_moment.
    - cbn [sample]. destruct d as [pe|ps|a b|f args]; cbn [draw_law] in *.
      + injection H as <-. cbn [E]. rewrite eval_padd, !eval_pscale, eval_psub, eval_pconst, eval_of_expr. ring.
      + injection H as <-. apply cat_law_moment.
      + injection H as <-. rewrite eval_pconst. reflexivity.
      + destruct (forallb closed args) eqn:Ecl; [|discriminate]. injection H as <-.
        rewrite eval_pconst, <- Hc, (closed_args_eval args s Ecl). reflexivity.
  Qed.

  (* total weight of a right-hand side *)
  Fixpoint sum_consts (es : list expr) : Qc :=
    match es with [] => 0 | e :: es' => eval e st0 + sum_consts es' end.
  Definition mass_oneb (r : rhs) : bool :=
    match r with
    | RChoice alts => forallb (fun pe => closed (fst pe)) alts && Qc_eqb (sum_consts (map fst alts)) 1
    | RDraw (DBern _) => true
    | RDraw (DCat ps) => forallb closed ps && Qc_eqb (sum_consts ps) 1
    | RDraw (DUnif a b) =>
        let n := Z.to_nat (b - a + 1) in Qc_eqb (E (unif_law (/ qnat n) a n) (fun _ => 1)) 1
    | RDraw (DCont f args) =>
        forallb closed args && Qc_eqb (cmom f (map (fun e => eval e st0) args) 0) 1
    end.

  Lemma cat_law_mass ps i s :
    forallb closed ps = true ->
    E (cat_law (map (fun e => eval e s) ps) i) (fun _ => 1) = sum_consts ps.
  Proof.
    revert i; induction ps as [|p ps IH]; intros i Hc; cbn [map cat_law E sum_consts forallb] in *; [reflexivity|].
    apply andb_true_iff in Hc; destruct Hc as [Hp Hps].
    rewrite (IH (S i) Hps), (closed_eval p s st0 Hp). ring.
  Qed.

  Lemma choice_law_mass alts s :
    forallb (fun pe => closed (fst pe)) alts = true ->
    E (sample law (RChoice alts) s) (fun _ => 1) = sum_consts (map fst alts).
  Proof.
    cbn [sample]. induction alts as [|[pe e] alts IH]; cbn [map E sum_consts forallb fst]; intros Hc; [reflexivity|].
    apply andb_true_iff in Hc; destruct Hc as [Hp Hps].
    rewrite (IH Hps), (closed_eval pe s st0 Hp). simpl. ring.
  Qed.

  Lemma mass_oneb_sound r s : cmom_ok -> mass_oneb r = true -> E (sample law r s) (fun _ => 1) = 1.
  Proof.
    intros Hc H. destruct r as [alts|d]; cbn [mass_oneb] in H.
    - apply andb_true_iff in H; destruct H as [Hcl Hs]. apply Qc_eqb_true in Hs.
      rewrite choice_law_mass by exact Hcl. exact Hs.
    - cbn [sample]. destruct d as [pe|ps|a b|f args]; cbn [draw_law] in *.
      + cbn [E]. ring.
      + apply andb_true_iff in H; destruct H as [Hcl Hs]. apply Qc_eqb_true in Hs.
        rewrite cat_law_mass by exact Hcl. exact Hs.
      + apply Qc_eqb_true in H. exact H.
      + apply andb_true_iff in H; destruct H as [Hcl Hs]. apply Qc_eqb_true in Hs.
        transitivity (cmom f (map (fun e => eval e st0) args) 0); [|exact Hs].
        rewrite <- Hc, (closed_args_eval args s Hcl). reflexivity.
  Qed.

  (* a monomial without x passes unchanged through an assignment to x of total mass 1, whatever
     its condition is: this case needs no [arith] of the condition *)
  Definition wp_term (T : tenv) (g : gassign) (t : Qc * mono) : option poly :=
    let x := ga_var g in
    let k := mdeg x (snd t) in
    if Nat.eqb k 0 && mass_oneb (ga_rhs g) then Some [t]
    else
      match arith T (ga_cond g), rhs_moment (ga_rhs g) k with
      | Some a, Some mom =>
          Some (pmul (padd (pmul a mom) (pmul (psub (pconst 1) a) (ppow (pvar (ga_default g)) k)))
                     [(fst t, mrest x (snd t))])
      | _, _ => None
      end.

  Fixpoint wp_ga (T : tenv) (g : gassign) (p : poly) : option poly :=
    match p with
    | [] => Some []
    | t :: p' =>
        match wp_term T g t, wp_ga T g p' with
        | Some q, Some q' => Some (padd q q') | _, _ => None
        end
    end.

  Lemma wp_term_exact T g s c m :
    cmom_ok -> typed T s ->
    forall q, wp_term T g (c, m) = Some q ->
    E (exec_ga law g s) (fun s' => c * eval_mono m s') = eval_poly q s.
  Proof.
    intros Hc HT q H. unfold wp_term in H. cbn [fst snd] in H.
    set (x := ga_var g) in *. set (k := mdeg x m) in *.
    (* once the value v is assigned the monomial is  c * (the part without x) * v^k *)
    transitivity (c * eval_mono (mrest x m) s *
                  (if holds (ga_cond g) s then E (sample law (ga_rhs g) s) (fun v => qpow v k)
                   else qpow (s (ga_default g)) k)).
    { rewrite E_exec_ga. fold x. destruct (holds (ga_cond g) s).
      - rewrite <- E_cmul. apply E_ext. intros v. rewrite (eval_mono_upd x). fold k. ring.
      - rewrite (eval_mono_upd x). fold k. ring. }
    destruct (Nat.eqb k 0 && mass_oneb (ga_rhs g)) eqn:Eb.
    - apply andb_true_iff in Eb as [Ek Hm]. apply Nat.eqb_eq in Ek. injection H as <-.
      cbn [eval_poly]. rewrite (eval_mono_split x m s). fold k. rewrite Ek.
      change (fun v : Qc => qpow v 0) with (fun _ : Qc => 1). rewrite (mass_oneb_sound _ s Hc Hm).
      destruct (holds (ga_cond g) s); cbn [qpow]; ring.
    - destruct (arith T (ga_cond g)) as [a|] eqn:Ea; [|discriminate].
      destruct (rhs_moment (ga_rhs g) k) as [mom|] eqn:Em; [|discriminate].
      injection H as <-.
      rewrite eval_pmul, (eval_pite _ _ _ _ _ (arith_sound T s _ _ HT Ea)), eval_ppow, eval_pvar.
      rewrite (rhs_moment_sound _ _ _ s Hc Em). cbn [eval_poly fst snd]. ring.
  Qed.

  Theorem wp_ga_exact T g s p q :
    cmom_ok -> typed T s -> wp_ga T g p = Some q ->
    E (exec_ga law g s) (eval_poly p) = eval_poly q s.
  Proof.
    intros Hc HT; revert q; induction p as [|[c m] p IH]; cbn [wp_ga]; intros q H.
    - injection H as <-. cbn [eval_poly]. apply E_zero.
    - destruct (wp_term T g (c, m)) as [q1|] eqn:E1; [|discriminate].
      destruct (wp_ga T g p) as [q2|] eqn:E2; [|discriminate].
      injection H as <-. rewrite eval_padd. cbn [eval_poly].
      rewrite E_add, (IH q2 eq_refl). f_equal.
      apply (wp_term_exact T g s c m Hc HT q1 E1).
  Qed.

  (* a list of guarded assignments, backwards; intermediate results are reduced modulo
     the types and cleaned, which preserves the value on typed states *)
  Definition ptidy (T : tenv) (p : poly) : poly := pclean (preduce T p).

  Lemma eval_ptidy T p s : typed T s -> eval_poly (ptidy T p) s = eval_poly p s.
  Proof. intros HT. unfold ptidy. rewrite eval_pclean, eval_preduce by exact HT. reflexivity. Qed.

  (* sequencing: the expectation through [bind d k] of p is that through d of any q1 that is
     the expectation of p through k on the states d reaches *)
  Lemma wp_seq T (d : dist state) (k : state -> dist state) p q1 q2 s :
    typed T s -> E d (eval_poly q1) = eval_poly q2 s ->
    (forall s1, supp d s1 -> E (k s1) (eval_poly p) = eval_poly q1 s1) ->
    E (bind d k) (eval_poly p) = eval_poly (ptidy T q2) s.
  Proof.
    intros HT H1 H2. rewrite eval_ptidy, E_bind, <- H1 by exact HT.
    apply E_ext_in. intros w s1 Hin. apply H2. exists w; exact Hin.
  Qed.

  Fixpoint wp_gas (T : tenv) (l : list gassign) (p : poly) : option poly :=
    match l with
    | [] => Some (ptidy T p)
    | g :: l' =>
        match wp_gas T l' p with
        | Some q => match wp_ga T g q with Some q' => Some (ptidy T q') | None => None end
        | None => None
        end
    end.

  Theorem wp_gas_exact T l : cmom_ok -> forallb (check_ga T) l = true ->
    forall p q s, typed T s -> wp_gas T l p = Some q ->
    E (exec_gas law l s) (eval_poly p) = eval_poly q s.
  Proof.
    intros Hc; induction l as [|g l IH]; cbn [forallb wp_gas exec_gas]; intros Hck p q s HT H.
    - injection H as <-. rewrite E_ret, eval_ptidy by exact HT. reflexivity.
    - apply andb_true_iff in Hck; destruct Hck as [Hg Hl].
      destruct (wp_gas T l p) as [q1|] eqn:E1; [|discriminate].
      destruct (wp_ga T g q1) as [q2|] eqn:E2; [|discriminate].
      injection H as <-. apply (wp_seq T _ _ p q1 q2 s HT (wp_ga_exact T g s q1 q2 Hc HT E2)).
      intros s1 Hs1. exact (IH Hl p q1 s1 (check_ga_sound law T g s Hg HT s1 Hs1) E1).
  Qed.

  Fixpoint row_poly (ms : list mono) (r : list Qc) : poly :=
    match r, ms with c :: r', m :: ms' => (c, m) :: row_poly ms' r' | _, _ => [] end.
  Lemma eval_row_poly ms r s : eval_poly (row_poly ms r) s = dotQ r (mono_vals ms s).
  Proof.
    revert ms; induction r as [|c r IH]; intros [|m ms]; cbn [row_poly eval_poly]; try reflexivity.
    rewrite IH. reflexivity.
  Qed.

  Definition check_row (T : tenv) (body : list gassign) (ms : list mono) (m : mono) (r : list Qc) : bool :=
    match wp_gas T body [(1, m)] with
    | Some q => pequiv T q (row_poly ms r)
    | None => false
    end.
  Definition check_system (fp : flatprog) (T : tenv) (ms : list mono) (A : list (list Qc)) : bool :=
    Nat.eqb (List.length A) (List.length ms)
    && forallb (fun mr => check_row T (fp_body fp) ms (fst mr) (snd mr)) (combine ms A).

  Lemma eval_single m s : eval_poly [(1, m)] s = eval_mono m s.
  Proof. cbn [eval_poly]. ring. Qed.

  (* what check_system and its counterpart on source programs share: [wp] computes exact
     expectations through [step] on typed states, and each row is compared with wp of its monomial *)
  Lemma system_exact (wp : poly -> option poly) (step : state -> dist state) T ms A :
    (forall p q s, typed T s -> wp p = Some q -> E (step s) (eval_poly p) = eval_poly q s) ->
    Nat.eqb (List.length A) (List.length ms)
    && forallb (fun mr => match wp [(1, fst mr)] with
                          | Some q => pequiv T q (row_poly ms (snd mr))
                          | None => false
                          end) (combine ms A) = true ->
    exact_on (typed T) step ms A.
  Proof.
    intros Hwp H. apply andb_true_iff in H as [Hlen Hrows]. apply Nat.eqb_eq in Hlen. split; [exact Hlen|].
    intros s Hs m r Hin. pose proof (proj1 (forallb_forall _ _) Hrows (m, r) Hin) as Hrow. cbn [fst snd] in Hrow.
    destruct (wp [(1, m)]) as [q|] eqn:Eq; [|discriminate].
    rewrite <- eval_row_poly, <- (pequiv_sound T _ _ Hrow s Hs), <- (Hwp _ q s Hs Eq).
    apply E_ext. intros s'. symmetry. apply eval_single.
  Qed.

  Theorem check_system_sound fp T ms A :
    cmom_ok -> check_types fp T = true -> check_system fp T ms A = true ->
    one_step_exact law fp T ms A.
  Proof.
    intros Hc HT H.
    apply (system_exact (wp_gas T (fp_body fp)) (fstep law fp) T ms A); [|exact H].
    intros p q s. apply (wp_gas_exact T (fp_body fp) Hc (check_types_body fp T HT)).
  Qed.

  (* initial values: the moments before the first iteration.  No types ([T := []]): the start
     state is arbitrary, and initial assignments are unconditional ([Types.check_init]) *)
  Definition check_init_val (init : list gassign) (m : mono) (v : Qc) : bool :=
    match wp_gas [] init [(1, m)] with
    | Some q => pequiv [] q (pconst v)
    | None => false
    end.
  Fixpoint check_init_vals (init : list gassign) (ms : list mono) (v : list Qc) : bool :=
    match ms, v with
    | [], [] => true
    | m :: ms', x :: v' => check_init_val init m x && check_init_vals init ms' v'
    | _, _ => false
    end.

  Lemma check_init_val_sound init m v s0 :
    cmom_ok -> check_init_val init m v = true -> E (exec_gas law init s0) (eval_mono m) = v.
  Proof.
    intros Hc H. unfold check_init_val in H.
    destruct (wp_gas [] init [(1, m)]) as [q|] eqn:Eq; [|discriminate].
    transitivity (eval_poly q s0); [|rewrite (pequiv_sound [] _ _ H s0 (typed_nil s0)); apply eval_pconst].
    rewrite <- (wp_gas_exact [] init Hc (check_ga_nil _) _ q s0 (typed_nil s0) Eq).
    apply E_ext. intros s'. symmetry. apply eval_single.
  Qed.

  Lemma check_init_vals_exact init ms v :
    cmom_ok -> check_init_vals init ms v = true ->
    forall s0, moments_of (exec_gas law init s0) ms = v.
  Proof.
    intros Hc; revert v; induction ms as [|m ms IH]; intros [|x v]; cbn [check_init_vals]; intros H s0; try discriminate.
    - reflexivity.
    - apply andb_true_iff in H as [H1 H2]. cbn [moments_of map].
      f_equal; [exact (check_init_val_sound init m x s0 Hc H1) | exact (IH v H2 s0)].
  Qed.

  Theorem check_init_vals_sound fp ms v :
    cmom_ok -> check_init_vals (fp_init fp) ms v = true ->
    forall s0, moments_vec law fp ms 0 s0 = v.
  Proof. apply check_init_vals_exact. Qed.

  (* everything together: one executable test for Polar's whole output on a flat program *)
  Definition check_pipeline (fp : flatprog) (T : tenv) (ms : list mono) (A : list (list Qc)) (v : list Qc)
             (F : list (epoly Qc_cring)) (sp : list (list Qc)) : bool :=
    check_types fp T && check_system fp T ms A && check_init_vals (fp_init fp) ms v
    && check_solution (R := Qc_cring) A v F sp.

  Theorem check_pipeline_sound fp T ms A v F sp :
    cmom_ok -> check_pipeline fp T ms A v F sp = true ->
    forall s0, init_ok fp T s0 ->
    forall n, pw_eval (R := Qc_cring) F sp n = moments_vec law fp ms n s0.
  Proof.
    intros Hc H s0 H0 n. unfold check_pipeline in H.
    apply andb_true_iff in H as [H H4].
    apply andb_true_iff in H as [H H3].
    apply andb_true_iff in H as [H1 H2].
    apply (pipeline_flat_sound law fp T ms A F sp H1 (check_system_sound fp T ms A Hc H1 H2) s0 H0).
    rewrite (check_init_vals_sound fp ms v Hc H3 s0). exact H4.
  Qed.

  Lemma check_pipeline_types fp T ms A v F sp :
    check_pipeline fp T ms A v F sp = true -> check_types fp T = true.
  Proof. unfold check_pipeline. destruct (check_types fp T); [reflexivity | discriminate]. Qed.

  Lemma closed_form_moment fp T ms A v F sp :
    cmom_ok -> check_pipeline fp T ms A v F sp = true ->
    forall s0, init_ok fp T s0 ->
    forall i m, nth_error ms i = Some m ->
    forall n, nth_error (pw_eval (R := Qc_cring) F sp n) i = Some (E (frun law fp n s0) (eval_mono m)).
  Proof.
    intros Hc H s0 H0 i m Hi n. rewrite (check_pipeline_sound fp T ms A v F sp Hc H s0 H0 n).
    unfold moments_vec. rewrite nth_error_map, Hi. reflexivity.
  Qed.
End Wp.
