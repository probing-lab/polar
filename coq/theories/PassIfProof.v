(* C02, IfTransformer: the models [PassIf.if_flatten_old] (every assignment of a branch gets the
   branch condition) and [PassIf.if_flatten] (auxiliary assignments stay unconditional) preserve
   the semantics.  Both are instances of one rule with two parameters: [skip], the assignments
   that are left unconditional, and [aux], the variables the observer does not read (old rule:
   nothing is skipped, the generated _old names are hidden; new rule: both are [is_aux]).
   The block simulation of DESIGN.md 5/C02, for one if-statement whose branches are flat:
   a renamed condition evaluated after the copies is the condition at the entry state
   ([holds_rename]); in a block that is not taken the guarded assignments are no-ops, the skipped
   ones run, write hidden variables only and have total mass 1 ([strengthen_skip]); the taken
   block runs as in the source ([strengthen_s_true]); else branch, no true condition and mutually
   exclusive conditions are one induction over the emitted blocks ([emit_sim]).
   Nested statements are a mutual induction over stmt/block/branches (here for the old rule, in
   PassIfAux.v for the new one); all iterations by [Sem.run_sim]. *)
From Coq Require Import List String Ascii QArith Qcanon ZArith Bool Arith Lia DecimalString DecimalNat FinFun.
From Polar Require Import Qcx Dist Syntax Sem PassGuard PassIf.
Import ListNotations.
Local Open Scope Qc_scope.

Lemma mem_In x l : mem x l = true <-> In x l.
Proof.
  unfold mem. rewrite existsb_exists. split.
  - intros [y [Hy He]]. apply var_eqb_eq in He. subst; exact Hy.
  - intros H. exists x; split; [exact H | apply var_eqb_refl].
Qed.
Lemma mem_nIn x l : mem x l = false <-> ~ In x l.
Proof. rewrite <- mem_In. symmetry. apply not_true_iff_false. Qed.

Lemma is_gen_old k : is_gen (old_name k) = true.
Proof.
  unfold is_gen, old_name. cbn. destruct (NilEmpty.string_of_uint (Nat.to_uint k)); reflexivity.
Qed.

Lemma old_name_inj j j' : old_name j = old_name j' -> j = j'.
Proof.
  unfold old_name. intros H. cbn in H. injection H as H.
  apply (f_equal NilEmpty.uint_of_string) in H. rewrite !NilEmpty.usu in H.
  injection H as H. apply (f_equal Nat.of_uint) in H. rewrite !Unsigned.of_to in H. exact H.
Qed.

Lemma wf_vars_In l x : wf_vars l = true -> In x l -> is_gen x = false.
Proof.
  unfold wf_vars. rewrite forallb_forall. intros H Hi. apply negb_true_iff, H, Hi.
Qed.
Lemma wf_vars_app l1 l2 : wf_vars (l1 ++ l2) = true -> wf_vars l1 = true /\ wf_vars l2 = true.
Proof. unfold wf_vars. rewrite forallb_app. apply andb_true_iff. Qed.

Definition agree (s t : state) : Prop := forall x, is_gen x = false -> t x = s x.
(* observation functions that do not read generated variables *)
Definition blind (f : state -> Qc) : Prop := forall s t, agree s t -> f t = f s.
Definition frame (V : list var) (t t' : state) : Prop := forall y, ~ In y V -> t' y = t y.

Lemma frame_refl V t : frame V t t.
Proof. intros y _. reflexivity. Qed.
Lemma frame_sub V V' t t' : incl V V' -> frame V t t' -> frame V' t t'.
Proof. intros Hs H y Hy. apply H. intros Hin. apply Hy, Hs, Hin. Qed.
Lemma frame_trans V t t1 t2 : frame V t t1 -> frame V t1 t2 -> frame V t t2.
Proof. intros H1 H2 y Hy. rewrite (H2 y Hy). apply H1, Hy. Qed.
Lemma frame_app V1 V2 t t1 t2 : frame V1 t t1 -> frame V2 t1 t2 -> frame (V1 ++ V2) t t2.
Proof.
  intros H1 H2. apply (frame_trans _ t t1 t2).
  - exact (frame_sub _ _ _ _ (incl_appl V2 (incl_refl V1)) H1).
  - exact (frame_sub _ _ _ _ (incl_appr V1 (incl_refl V2)) H2).
Qed.
Lemma frame_upd V t y v : In y V -> frame V t (upd t y v).
Proof. intros Hy z Hz. apply upd_other. intros ->. exact (Hz Hy). Qed.

Lemma eval_rename R e s t : (forall x, In x (evars e) -> t (rn R x) = s x) -> eval (rename_e R e) t = eval e s.
Proof.
  induction e as [q|x|a IHa b IHb|a IHa b IHb|a IHa k]; cbn [eval evars rename_e]; intros H.
  - reflexivity.
  - apply H; left; reflexivity.
  - rewrite IHa, IHb; [reflexivity| |]; intros x Hx; apply H; apply in_or_app; auto.
  - rewrite IHa, IHb; [reflexivity| |]; intros x Hx; apply H; apply in_or_app; auto.
  - rewrite IHa; [reflexivity|exact H].
Qed.

(* a renamed condition read in a state t that holds, under the new names, the values s has
   under the old ones, is the condition at s *)
Lemma holds_rename Rf c s t : forall R,
  (forall x, In x (cvars c) -> t (rn R x) = s x) ->
  (forall x, In x (cvars c) -> t (rn Rf x) = s x) ->
  holds (rename_c R Rf c) t = holds c s.
Proof.
  induction c as [| |a o b|c IH|c1 IH1 c2 IH2|c1 IH1 c2 IH2]; intros R H Hf; cbn [holds rename_c cvars] in *.
  - reflexivity.
  - reflexivity.
  - rewrite (eval_rename R a s t), (eval_rename R b s t); [reflexivity| |]; intros x Hx; apply H; apply in_or_app; auto.
  - rewrite (IH Rf); [reflexivity|exact Hf|exact Hf].
  - rewrite (IH1 R), (IH2 R); [reflexivity| | | |]; intros x Hx; (apply H || apply Hf); apply in_or_app; auto.
  - rewrite (IH1 R), (IH2 R); [reflexivity| | | |]; intros x Hx; (apply H || apply Hf); apply in_or_app; auto.
Qed.

(* reading a state directly is reading it through the empty rename map *)
Lemma rename_e_nil e : rename_e [] e = e.
Proof. induction e; cbn [rename_e rn rlookup]; congruence. Qed.
Lemma rename_c_nil c : rename_c [] [] c = c.
Proof. induction c; cbn [rename_c]; rewrite ?rename_e_nil; congruence. Qed.

Lemma eval_ext e s t : (forall x, In x (evars e) -> t x = s x) -> eval e t = eval e s.
Proof. intros H. rewrite <- (rename_e_nil e) at 1. apply eval_rename. exact H. Qed.

Lemma holds_ext c s t : (forall x, In x (cvars c) -> t x = s x) -> holds c t = holds c s.
Proof. intros H. rewrite <- (rename_c_nil c) at 1. apply holds_rename; exact H. Qed.

Lemma holds_mk_and a b s : holds (mk_and a b) s = holds a s && holds b s.
Proof. destruct a, b; cbn [mk_and holds]; try reflexivity; try (rewrite andb_true_r; reflexivity). Qed.
Lemma holds_mk_or a b s : holds (mk_or a b) s = holds a s || holds b s.
Proof. destruct a, b; cbn [mk_or holds]; try reflexivity; try (rewrite orb_false_r; reflexivity). Qed.
Lemma cvars_mk_and a b : incl (cvars (mk_and a b)) (cvars a ++ cvars b).
Proof.
  destruct a, b; cbn [mk_and]; try apply incl_refl; try apply incl_appl, incl_refl; apply incl_appr, incl_refl.
Qed.
Lemma cvars_mk_or a b : incl (cvars (mk_or a b)) (cvars a ++ cvars b).
Proof.
  destruct a, b; cbn [mk_or]; try apply incl_refl; try apply incl_appl, incl_refl; apply incl_appr, incl_refl.
Qed.

Lemma holds_csimp c s : holds (csimp c) s = holds c s.
Proof.
  induction c as [| |a o b|c IH|c1 IH1 c2 IH2|c1 IH1 c2 IH2]; cbn [csimp holds]; try reflexivity.
  - rewrite IH; reflexivity.
  - rewrite holds_mk_and, IH1, IH2; reflexivity.
  - rewrite holds_mk_or, IH1, IH2; reflexivity.
Qed.

Lemma cvars_csimp c : incl (cvars (csimp c)) (cvars c).
Proof.
  induction c as [| |a o b|c IH|c1 IH1 c2 IH2|c1 IH1 c2 IH2]; cbn [csimp cvars]; try apply incl_refl.
  - exact IH.
  - eapply incl_tran; [apply cvars_mk_and | apply incl_app; [apply incl_appl, IH1 | apply incl_appr, IH2]].
  - eapply incl_tran; [apply cvars_mk_or | apply incl_app; [apply incl_appl, IH1 | apply incl_appr, IH2]].
Qed.

(* the rule with a parameter: assignments to [skip] variables are left as they are *)
Section Rule.
  Variable skip : var -> bool.

  Definition strengthen_s (extra : cond) (g : gassign) : gassign :=
    if skip (ga_var g) then g else strengthen extra g.

  Fixpoint emit_s (mx : bool) (CS : list var) (Rf : rmap) (NP : cond) (brs : list fbranch) (R : rmap) (k : nat)
    : list gassign :=
    match brs with
    | [] => []
    | cl :: brs' =>
        let '(R', k') := extend CS (snd cl) R k in
        let cur := if mx then fst cl else CAnd NP (fst cl) in
        let extra := rename_c R' (if mx then R' else Rf) (csimp cur) in
        map (strengthen_s extra) (snd cl) ++ emit_s mx CS Rf (CAnd NP (CNot (fst cl))) brs' R' k'
    end.

  Definition flatten_s (mx : bool) (brs : list fbranch) (k : nat) : list gassign * nat :=
    let CS := flat_map (fun cl : fbranch => cvars (fst cl)) brs in
    let '(Rf, kf) := final_R CS brs [] k in
    (map copy_ga Rf ++ emit_s mx CS Rf CTrue brs [] k, kf).

  (* the variables that a list of assignments writes whatever the branch condition says *)
  Definition auxv (l : list gassign) : list var := filter skip (gvars l).

  Lemma gvars_app l1 l2 : gvars (l1 ++ l2) = gvars l1 ++ gvars l2.
  Proof. apply map_app. Qed.
  Lemma gvars_strengthen_s e l : gvars (map (strengthen_s e) l) = gvars l.
  Proof.
    unfold gvars. rewrite map_map. apply map_ext. intros g. unfold strengthen_s.
    destruct (skip (ga_var g)); reflexivity.
  Qed.
  Lemma gvars_emit_s mx CS Rf : forall brs NP R k,
    gvars (emit_s mx CS Rf NP brs R k) = flat_map (fun cl : fbranch => gvars (snd cl)) brs.
  Proof.
    induction brs as [|cl brs IH]; intros NP R k; cbn [emit_s flat_map]; [reflexivity|].
    destruct (extend CS (snd cl) R k) as [R' k']. rewrite gvars_app, gvars_strengthen_s, IH. reflexivity.
  Qed.

  Lemma auxv_In l y : In y (auxv l) <-> In y (gvars l) /\ skip y = true.
  Proof. unfold auxv. apply filter_In. Qed.
  Lemma auxv_incl l : incl (auxv l) (gvars l).
  Proof. intros y Hy. apply auxv_In in Hy. apply Hy. Qed.
  Lemma auxv_app l1 l2 : auxv (l1 ++ l2) = auxv l1 ++ auxv l2.
  Proof. unfold auxv. rewrite gvars_app. apply filter_app. Qed.
  Lemma auxv_strengthen_s e l : auxv (map (strengthen_s e) l) = auxv l.
  Proof. unfold auxv. rewrite gvars_strengthen_s. reflexivity. Qed.
End Rule.

Lemma emit_old_rule mx CS Rf : forall brs NP R k,
  emit mx CS Rf NP brs R k = emit_s (fun _ => false) mx CS Rf NP brs R k.
Proof.
  induction brs as [|cl brs IH]; intros NP R k; cbn [emit emit_s]; [reflexivity|].
  destruct (extend CS (snd cl) R k) as [R' k']. rewrite IH. reflexivity.
Qed.
Lemma emit_new_rule mx CS Rf : forall brs NP R k,
  emit_n mx CS Rf NP brs R k = emit_s is_aux mx CS Rf NP brs R k.
Proof.
  induction brs as [|cl brs IH]; intros NP R k; cbn [emit_n emit_s]; [reflexivity|].
  destruct (extend CS (snd cl) R k) as [R' k']. rewrite IH. reflexivity.
Qed.
Lemma flatten_old_rule mx brs k : flatten_if mx brs k = flatten_s (fun _ => false) mx brs k.
Proof. unfold flatten_if, flatten_s. destruct (final_R _ brs [] k). rewrite emit_old_rule. reflexivity. Qed.
Lemma flatten_new_rule mx brs k : flatten_if_n mx brs k = flatten_s is_aux mx brs k.
Proof. unfold flatten_if_n, flatten_s. destruct (final_R _ brs [] k). rewrite emit_new_rule. reflexivity. Qed.

Lemma rlookup_app_some R X x o : rlookup R x = Some o -> rlookup (R ++ X) x = Some o.
Proof.
  induction R as [|[y o'] R IH]; cbn [rlookup app]; [discriminate|].
  destruct (var_eqb x y); [intros H; exact H | exact IH].
Qed.
Lemma rlookup_none R x : rlookup R x = None <-> ~ In x (map fst R).
Proof.
  induction R as [|[y o'] R IH]; cbn [rlookup map fst In].
  - split; [intros _ [] | reflexivity].
  - destruct (var_eqb x y) eqn:E.
    + apply var_eqb_eq in E. subst. split; [discriminate | intros H; exfalso; apply H; left; reflexivity].
    + apply var_eqb_neq in E. rewrite IH. split; [intros H [H1|H1]; [apply E; symmetry; exact H1 | exact (H H1)] | intros H H1; apply H; right; exact H1].
Qed.
Lemma rlookup_In R x o : rlookup R x = Some o -> In (x, o) R.
Proof.
  induction R as [|[y o'] R IH]; cbn [rlookup]; [discriminate|].
  destruct (var_eqb x y) eqn:E.
  - apply var_eqb_eq in E. intros H; inversion H; subst. left; reflexivity.
  - intros H. right. exact (IH H).
Qed.

Lemma extend_prefix CS l : forall R k R' k', extend CS l R k = (R', k') -> exists X, R' = R ++ X.
Proof.
  induction l as [|g l IH]; intros R k R' k'; cbn [extend].
  - intros H; inversion H; subst. exists []. rewrite app_nil_r. reflexivity.
  - destruct (mem (ga_var g) CS && negb (mem (ga_var g) (map fst R))).
    + intros H. destruct (IH _ _ _ _ H) as [X HX]. exists ((ga_var g, old_name k) :: X).
      rewrite HX, <- app_assoc. reflexivity.
    + apply IH.
Qed.

Lemma extend_complete CS l : forall R k R' k', extend CS l R k = (R', k') ->
  forall x, In x CS -> In x (gvars l) -> In x (map fst R').
Proof.
  induction l as [|g l IH]; intros R k R' k' H x Hcs Hx; cbn [extend gvars map] in *; [destruct Hx|].
  destruct Hx as [Hx|Hx].
  - subst x. destruct (mem (ga_var g) CS && negb (mem (ga_var g) (map fst R))) eqn:Eb.
    + destruct (extend_prefix _ _ _ _ _ _ H) as [X HX]. rewrite HX, !map_app. apply in_or_app. left.
      apply in_or_app. right. left. reflexivity.
    + destruct (extend_prefix _ _ _ _ _ _ H) as [X HX]. rewrite HX, map_app. apply in_or_app. left.
      apply andb_false_iff in Eb. destruct Eb as [Eb|Eb].
      * apply mem_nIn in Eb. contradiction.
      * apply negb_false_iff in Eb. apply mem_In in Eb. exact Eb.
  - destruct (mem (ga_var g) CS && negb (mem (ga_var g) (map fst R))); eapply IH; eauto.
Qed.

(* the targets of a rename map are consecutive generated names; keys are condition symbols *)
Definition Rinv (CS : list var) (k0 : nat) (R : rmap) (k : nat) : Prop :=
  map snd R = map old_name (seq k0 (List.length R)) /\ k = (k0 + List.length R)%nat /\ (forall x, In x (map fst R) -> In x CS).

Lemma Rinv_nil CS k : Rinv CS k [] k.
Proof. split; [reflexivity|]. split; [cbn; lia | intros x []]. Qed.
Lemma Rinv_target CS k R kf o : Rinv CS k R kf -> In o (map snd R) -> exists j, (k <= j < kf)%nat /\ o = old_name j.
Proof.
  intros [Ht [Hk _]] Ho. rewrite Ht in Ho. apply in_map_iff in Ho. destruct Ho as [j [<- Hj]]. apply in_seq in Hj.
  exists j. split; [lia | reflexivity].
Qed.
Lemma Rinv_nongen CS k R kf x : Rinv CS k R kf -> is_gen x = false -> ~ In x (map snd R).
Proof.
  intros Hinv Hx Hin. destruct (Rinv_target _ _ _ _ _ Hinv Hin) as [j [_ ->]]. rewrite is_gen_old in Hx. discriminate.
Qed.
Lemma Rinv_NoDup CS k R kf : Rinv CS k R kf -> NoDup (map snd R).
Proof.
  intros [Ht _]. rewrite Ht. apply FinFun.Injective_map_NoDup; [intros a b; apply old_name_inj | apply seq_NoDup].
Qed.

Lemma extend_inv CS k0 l : forall R k R' k', Rinv CS k0 R k -> extend CS l R k = (R', k') -> Rinv CS k0 R' k'.
Proof.
  induction l as [|g l IH]; intros R k R' k' Hi; cbn [extend].
  - intros H; inversion H; subst. exact Hi.
  - destruct (mem (ga_var g) CS && negb (mem (ga_var g) (map fst R))) eqn:Eb; [|apply IH; exact Hi].
    apply IH. destruct Hi as [H1 [H2 H3]]. unfold Rinv. rewrite !map_app, app_length. cbn [List.length map fst snd].
    replace (List.length R + 1)%nat with (S (List.length R)) by lia. rewrite seq_S, map_app. cbn [map].
    split; [rewrite H1, H2; reflexivity|]. split; [lia|].
    intros x Hx. apply in_app_or in Hx. destruct Hx as [Hx|[Hx|[]]]; [apply H3; exact Hx|].
    subst x. apply andb_true_iff in Eb. destruct Eb as [Eb _]. apply mem_In in Eb. exact Eb.
Qed.

(* the map after the last branch is [extend] over all assignments of all branches *)
Lemma extend_app CS l1 l2 : forall R k,
  extend CS (l1 ++ l2) R k = let '(R', k') := extend CS l1 R k in extend CS l2 R' k'.
Proof.
  induction l1 as [|g l1 IH]; intros R k; cbn [app extend]; [reflexivity|].
  destruct (mem (ga_var g) CS && negb (mem (ga_var g) (map fst R))); apply IH.
Qed.
Lemma final_R_extend CS brs : forall R k, final_R CS brs R k = extend CS (flat_map snd brs) R k.
Proof.
  induction brs as [|cl brs IH]; intros R k; cbn [final_R flat_map]; [reflexivity|].
  rewrite extend_app. destruct (extend CS (snd cl) R k) as [R' k']. apply IH.
Qed.

Lemma final_prefix CS brs : forall R k Rf kf, final_R CS brs R k = (Rf, kf) -> exists X, Rf = R ++ X.
Proof. intros R k Rf kf. rewrite final_R_extend. apply extend_prefix. Qed.

Lemma final_inv CS k0 brs : forall R k Rf kf, Rinv CS k0 R k -> final_R CS brs R k = (Rf, kf) -> Rinv CS k0 Rf kf.
Proof. intros R k Rf kf. rewrite final_R_extend. apply extend_inv. Qed.

Lemma final_complete CS brs : forall R k Rf kf, final_R CS brs R k = (Rf, kf) ->
  forall cl x, In cl brs -> In x CS -> In x (gvars (snd cl)) -> In x (map fst Rf).
Proof.
  intros R k Rf kf. rewrite final_R_extend. intros H cl x Hcl Hcs Hx. apply (extend_complete _ _ _ _ _ _ H x Hcs).
  apply in_map_iff in Hx. destruct Hx as [g [<- Hg]]. apply in_map, in_flat_map. exists cl. split; assumption.
Qed.

(* what the source does with a list of flattened branches, each paired with the semantics of its block *)
Definition item := (fbranch * (state -> dist state))%type.
Fixpoint first_match (items : list item) (s : state) : option (dist state) :=
  match items with
  | [] => None
  | it :: r => if holds (fst (fst it)) s then Some (snd it s) else first_match r s
  end.
Definition sem_items (items : list item) (s : state) : dist state :=
  match first_match items s with Some d => d | None => ret s end.

Lemma first_match_app items it s :
  first_match (items ++ [it]) s =
  match first_match items s with Some d => Some d | None => if holds (fst (fst it)) s then Some (snd it s) else None end.
Proof.
  induction items as [|i items IH]; cbn [app first_match]; [reflexivity|].
  destruct (holds (fst (fst i)) s); [reflexivity | exact IH].
Qed.

Fixpoint excl (s : state) (cs : list cond) : Prop :=
  match cs with
  | [] => True
  | c :: cs' => (holds c s = true -> forall c', In c' cs' -> holds c' s = false) /\ excl s cs'
  end.

Lemma atom_const_shape x c q : atom_const x c = Some q -> c = CAtom (EVar x) Ceq (EConst q).
Proof.
  destruct c as [| |a o b| | |]; cbn [atom_const]; try discriminate.
  destruct a as [|y| | |]; try discriminate. destruct o; try discriminate. destruct b as [q'| | | |]; try discriminate.
  destruct (var_eqb x y) eqn:E; [|discriminate]. apply var_eqb_eq in E. subst. intros H; inversion H; reflexivity.
Qed.

Lemma atom_consts_In x c : forall cs qs, atom_consts x cs = Some qs -> In c cs ->
  exists q, c = CAtom (EVar x) Ceq (EConst q) /\ In q qs.
Proof.
  induction cs as [|c0 cs IH]; intros qs H Hin; [destruct Hin|].
  cbn [atom_consts] in H. destruct (atom_const x c0) as [q0|] eqn:E0; [|discriminate].
  destruct (atom_consts x cs) as [qs1|]; [|discriminate]. inversion H; subst qs.
  destruct Hin as [->|Hin].
  - exists q0. split; [apply atom_const_shape; exact E0 | left; reflexivity].
  - destruct (IH qs1 eq_refl Hin) as [q [H1 H2]]. exists q. split; [exact H1 | right; exact H2].
Qed.

Lemma atom_consts_excl x s : forall cs qs, atom_consts x cs = Some qs -> distinctb qs = true -> excl s cs.
Proof.
  induction cs as [|c cs IH]; intros qs Hq Hd; cbn [excl]; [exact I|].
  cbn [atom_consts] in Hq. destruct (atom_const x c) as [q|] eqn:Ec; [|discriminate].
  destruct (atom_consts x cs) as [qs'|] eqn:Ecs; [|discriminate]. inversion Hq; subst qs. clear Hq.
  cbn [distinctb] in Hd. apply andb_true_iff in Hd. destruct Hd as [Hd1 Hd2]. split; [|eapply IH; eauto].
  apply atom_const_shape in Ec. subst c. cbn [holds eval cop_holds]. intros Hc c' Hin.
  apply Qc_eqb_true in Hc.
  destruct (atom_consts_In x c' cs qs' Ecs Hin) as [q' [-> Hq']]. cbn [holds eval cop_holds].
  destruct (Qc_eqb (s x) q') eqn:E; [|reflexivity]. apply Qc_eqb_true in E.
  apply negb_true_iff in Hd1. rewrite <- Hd1. symmetry. apply existsb_exists. exists q'. split; [exact Hq'|].
  rewrite <- Hc, <- E. apply Qc_eqb_refl.
Qed.

Lemma mutex_conds_excl cs : mutex_conds cs = true -> forall s, excl s cs.
Proof.
  unfold mutex_conds. destruct cs as [|c cs]; [discriminate|].
  destruct c as [| |a o b| | |]; try discriminate. destruct a as [|x| | |]; try discriminate.
  destruct o; try discriminate. destruct b as [q| | | |]; try discriminate.
  intros H s. apply andb_true_iff in H. destruct H as [_ H].
  destruct (atom_consts x (CAtom (EVar x) Ceq (EConst q) :: cs)) as [qs|] eqn:E; [|discriminate].
  eapply atom_consts_excl; eauto.
Qed.

Section Blocks.
  Variable law : string -> list Qc -> dist Qc.

  Lemma sample_ext r s t : (forall x, In x (rhs_vars r) -> t x = s x) -> sample law r t = sample law r s.
  Proof.
    destruct r as [alts|d]; cbn [sample rhs_vars]; intros H.
    - apply map_ext_in. intros [p e] Hin. cbn [fst snd].
      rewrite (eval_ext p s t), (eval_ext e s t); [reflexivity| |]; intros x Hx; apply H; apply in_flat_map;
        exists (p, e); (split; [exact Hin | cbn [fst snd]; apply in_or_app; auto]).
    - destruct d as [p|ps|a b|f args]; cbn [draw_law draw_vars] in *.
      + rewrite (eval_ext p s t) by exact H. reflexivity.
      + f_equal. apply map_ext_in. intros e Hin. apply eval_ext. intros x Hx. apply H. apply in_flat_map. exists e; auto.
      + reflexivity.
      + f_equal. apply map_ext_in. intros e Hin. apply eval_ext. intros x Hx. apply H. apply in_flat_map. exists e; auto.
  Qed.

  Lemma E_exec_ga_upd g t F G :
    (forall v, F (upd t (ga_var g) v) = G (upd t (ga_var g) v)) -> E (exec_ga law g t) F = E (exec_ga law g t) G.
  Proof. intros H. rewrite !E_exec_ga. destruct (holds (ga_cond g) t); [apply E_ext; intros v|]; apply H. Qed.

  Lemma holds_strengthen e g t : holds (ga_cond (strengthen e g)) t = holds (ga_cond g) t && holds e t.
  Proof. unfold strengthen; cbn [ga_cond]. rewrite holds_csimp. reflexivity. Qed.

  Lemma E_exec_strengthen e g t F :
    E (exec_ga law (strengthen e g) t) F =
    if holds e t then E (exec_ga law g t) F else F (upd t (ga_var g) (t (ga_default g))).
  Proof.
    rewrite !E_exec_ga, holds_strengthen. cbn [strengthen ga_rhs ga_var ga_default].
    destruct (holds (ga_cond g) t), (holds e t); reflexivity.
  Qed.

  (* the taken block: the extra condition stays true at every intermediate state *)
  Lemma strengthen_s_true skip (I : state -> Prop) e l :
    (forall t, I t -> holds e t = true) ->
    (forall t y v, I t -> In y (gvars l) -> I (upd t y v)) ->
    forall t F, I t -> E (exec_gas law (map (strengthen_s skip e) l) t) F = E (exec_gas law l t) F.
  Proof.
    intros He. induction l as [|g l IH]; intros Hupd t F Ht; [reflexivity|].
    cbn [map]. rewrite !E_exec_gas_cons.
    transitivity (E (exec_ga law g t) (fun t' => E (exec_gas law (map (strengthen_s skip e) l) t') F)).
    - unfold strengthen_s at 1. destruct (skip (ga_var g)); [reflexivity|].
      rewrite E_exec_strengthen, (He t Ht). reflexivity.
    - apply E_exec_ga_upd. intros v. apply IH; [|apply Hupd; [exact Ht | left; reflexivity]].
      intros t0 y v0 H0 Hy. apply Hupd; [exact H0 | right; exact Hy].
  Qed.

  Lemma strengthen_true (I : state -> Prop) e l :
    (forall t, I t -> holds e t = true) ->
    (forall t y v, I t -> In y (gvars l) -> I (upd t y v)) ->
    forall t F, I t -> E (exec_gas law (map (strengthen e) l) t) F = E (exec_gas law l t) F.
  Proof. exact (strengthen_s_true (fun _ => false) I e l). Qed.

  (* what the rule needs of one flat assignment: the default is the variable itself (a guarded
     assignment whose condition fails is a no-op), and a skipped assignment has total mass 1 *)
  Definition ga_ok skip (g : gassign) : Prop :=
    ga_default g = ga_var g /\
    (skip (ga_var g) = true -> forall t c, E (sample law (ga_rhs g) t) (fun _ => c) = c).

  Lemma ga_ok_strengthen_s skip e g : ga_ok skip g -> ga_ok skip (strengthen_s skip e g).
  Proof.
    unfold strengthen_s. intros H. destruct (skip (ga_var g)) eqn:Ea; [exact H|].
    split; [apply H | cbn [strengthen ga_var]; rewrite Ea; discriminate].
  Qed.

  (* a block that is not taken: guarded assignments are no-ops, skipped assignments run
     and change only the variables V, with total mass 1 *)
  Lemma strengthen_skip skip (I : state -> Prop) (V : list var) e l :
    (forall t, I t -> holds e t = false) ->
    (forall t t', I t -> frame V t t' -> I t') ->
    Forall (ga_ok skip) l -> incl (auxv skip l) V ->
    forall t, I t -> forall F c, (forall t', I t' -> frame V t t' -> F t' = c) ->
      E (exec_gas law (map (strengthen_s skip e) l) t) F = c.
  Proof.
    intros He Hcl. induction l as [|g l IH]; intros Hok HV t Ht F c HF.
    - cbn [map]. rewrite E_exec_gas_nil. apply HF; [exact Ht | apply frame_refl].
    - apply Forall_cons_iff in Hok. destruct Hok as [[Hd Hm] Hok].
      assert (HV' : incl (auxv skip l) V).
      { intros y Hy. apply HV. apply auxv_In in Hy. apply auxv_In. split; [right; apply Hy | apply Hy]. }
      assert (Hin : forall t1, frame V t t1 -> E (exec_gas law (map (strengthen_s skip e) l) t1) F = c).
      { intros t1 Hfr. apply (IH Hok HV' t1 (Hcl _ _ Ht Hfr)). intros t' Ht' Hfr'.
        apply HF; [exact Ht' | exact (frame_trans _ _ _ _ Hfr Hfr')]. }
      cbn [map]. rewrite E_exec_gas_cons. unfold strengthen_s at 1. destruct (skip (ga_var g)) eqn:Ea.
      + assert (HyV : In (ga_var g) V) by (apply HV, auxv_In; split; [left; reflexivity | exact Ea]).
        rewrite E_exec_ga. destruct (holds (ga_cond g) t).
        * rewrite (E_ext _ _ (fun _ => c)); [apply (Hm eq_refl)|]. intros v. apply Hin, frame_upd, HyV.
        * apply Hin, frame_upd, HyV.
      + rewrite E_exec_strengthen, (He t Ht), Hd. apply Hin. intros y _. apply upd_self.
  Qed.

  (* the copies  _old<k> = x  are deterministic and write the targets of R only *)
  Lemma copies_exec (R : rmap) :
    NoDup (map snd R) -> (forall x, In x (map fst R) -> ~ In x (map snd R)) ->
    forall t, exists t1, (forall F, E (exec_gas law (map copy_ga R) t) F = F t1)
      /\ (forall x o, In (x, o) R -> t1 o = t x) /\ frame (map snd R) t t1.
  Proof.
    induction R as [|[x o] R IH]; intros Hnd Hkt t.
    - exists t. split; [intros F; apply E_ret|]. split; [intros x o []| apply frame_refl].
    - cbn [map fst snd] in *. inversion Hnd as [|o' l' Hno Hnd']; subst.
      destruct (IH Hnd' (fun x0 Hx0 Hin => Hkt x0 (or_intror Hx0) (or_intror Hin)) (upd t o (t x)))
        as [t1 [HE [Hcp Hfr]]].
      exists t1. split; [|split].
      + intros F. rewrite E_exec_gas_cons, E_exec_ga. cbn [copy_ga ga_cond ga_rhs ga_var fst snd holds].
        rewrite sample_det, E_ret. apply HE.
      + intros x0 o0 [Heq|Hin].
        * inversion Heq; subst. rewrite (Hfr o0 Hno). apply upd_same.
        * rewrite (Hcp x0 o0 Hin). apply upd_other. intros ->.
          apply (Hkt o (or_intror (in_map fst _ _ Hin))). left; reflexivity.
      + intros y Hy. rewrite Hfr by (intros Hin; apply Hy; right; exact Hin).
        apply upd_other. intros ->. apply Hy. left; reflexivity.
  Qed.

End Blocks.

Section Sim.
  Variable law : string -> list Qc -> dist Qc.
  (* [aux]: the variables that may differ between the two runs; [skip]: see [strengthen_s] *)
  Variables aux skip : var -> bool.
  Hypothesis skip_aux : forall x, skip x = true -> aux x = true.
  Hypothesis gen_aux : forall x, aux x = false -> is_gen x = false.

  (* Lv: hidden variables that nevertheless hold the same value in both runs *)
  Definition vis (Lv : list var) (x : var) : Prop := aux x = false \/ In x Lv.
  Definition agreeL (Lv : list var) (s t : state) : Prop := forall x, vis Lv x -> t x = s x.
  Definition simL (Lv Lv' : list var) (l : list gassign) (D : state -> dist state) : Prop :=
    forall s t, agreeL Lv s t -> forall g h,
      (forall t' s', agreeL Lv' s' t' -> frame (gvars l) t t' -> g t' = h s') ->
      E (exec_gas law l t) g = E (D s) h.

  Lemma agreeL_frame Lv V s t t' :
    agreeL Lv s t -> frame V t t' -> (forall x, In x V -> aux x = true /\ ~ In x Lv) -> agreeL Lv s t'.
  Proof.
    intros Hag Hfr HV x Hx. rewrite Hfr; [apply Hag, Hx|]. intros Hin. destruct (HV x Hin) as [Ha Hn].
    destruct Hx as [Hx|Hx]; [congruence | exact (Hn Hx)].
  Qed.

  Lemma auxv_hidden Lv l : (forall x, In x Lv -> ~ In x (gvars l)) ->
    forall x, In x (auxv skip l) -> aux x = true /\ ~ In x Lv.
  Proof.
    intros H x Hx. apply auxv_In in Hx. destruct Hx as [Hx Hs]. split; [apply skip_aux, Hs|].
    intros Hin. exact (H x Hin Hx).
  Qed.

  Section OneIf.
    Variables (mx : bool) (CS : list var) (Rf : rmap) (s : state).

    (* every condition variable, read through R, still has its entry value *)
    Definition renamed (R : rmap) (t : state) : Prop := forall x, In x CS -> t (rn R x) = s x.
    Definition Good (R : rmap) (t : state) : Prop := renamed Rf t /\ renamed R t.
    Definition clear (R : rmap) (l : list gassign) : Prop := forall x, In x CS -> ~ In (rn R x) (gvars l).

    Lemma good_frame R l t t' : clear Rf l -> clear R l -> Good R t -> frame (gvars l) t t' -> Good R t'.
    Proof.
      intros Hcf Hcr [Hf Hr] Hfr. split; intros x Hx.
      - rewrite Hfr; [apply Hf, Hx | apply Hcf, Hx].
      - rewrite Hfr; [apply Hr, Hx | apply Hcr, Hx].
    Qed.

    Lemma extra_truth R t c : Good R t -> incl (cvars c) CS ->
      holds (rename_c R (if mx then R else Rf) (csimp c)) t = holds c s.
    Proof.
      intros [Hf Hr] Hi. rewrite <- (holds_csimp c s).
      apply holds_rename; [|destruct mx]; intros x Hx; (apply Hr || apply Hf); apply Hi, cvars_csimp, Hx.
    Qed.

    (* the condition of a branch as the pass builds it, and what is known of the conditions that
       are still to come: before a branch is taken ([alive]), and after ([dead]) *)
    Definition cur (NP c : cond) : cond := if mx then c else CAnd NP c.
    Definition alive (NP : cond) (cs : list cond) : Prop := if mx then excl s cs else holds NP s = true.
    Definition dead (NP : cond) (cs : list cond) : Prop := forall c, In c cs -> holds (cur NP c) s = false.

    Lemma cvars_cur NP c : incl (cvars NP) CS -> incl (cvars c) CS -> incl (cvars (cur NP c)) CS.
    Proof. unfold cur. destruct mx; intros HN Hc; [exact Hc | cbn [cvars]; apply incl_app; assumption]. Qed.
    Lemma cvars_next NP c : incl (cvars NP) CS -> incl (cvars c) CS -> incl (cvars (CAnd NP (CNot c))) CS.
    Proof. intros HN Hc. cbn [cvars]. apply incl_app; assumption. Qed.

    Lemma alive_hit NP c cs : alive NP (c :: cs) -> holds c s = true ->
      holds (cur NP c) s = true /\ dead (CAnd NP (CNot c)) cs.
    Proof.
      unfold alive, dead, cur. destruct mx; cbn [excl holds]; intros Ha Hc.
      - split; [exact Hc | apply Ha, Hc].
      - rewrite Ha, Hc. split; [reflexivity | intros c' _; reflexivity].
    Qed.

    Lemma alive_miss NP c cs : alive NP (c :: cs) -> holds c s = false ->
      holds (cur NP c) s = false /\ alive (CAnd NP (CNot c)) cs.
    Proof.
      unfold alive, cur. destruct mx; cbn [excl holds]; intros Ha Hc.
      - split; [exact Hc | apply Ha].
      - rewrite Ha, Hc. split; reflexivity.
    Qed.

    Lemma dead_step NP c cs : dead NP (c :: cs) -> holds (cur NP c) s = false /\ dead (CAnd NP (CNot c)) cs.
    Proof.
      intros H. split; [apply H; left; reflexivity|]. intros c' Hc'. specialize (H c' (or_intror Hc')).
      revert H. unfold cur. destruct mx; [intros H; exact H|]. cbn [holds]. intros H.
      rewrite <- andb_assoc, (andb_comm (negb (holds c s))), andb_assoc, H. reflexivity.
    Qed.

    Definition br_ok (cl : fbranch) : Prop :=
      incl (cvars (fst cl)) CS /\ Forall (ga_ok law skip) (snd cl) /\ clear Rf (snd cl).

    (* one turn of the loop of [emit_s]: the map R' that the branch is emitted with is a prefix of
       Rf, so it renames a variable as Rf does or not at all, and then R did not either; it renames
       every condition variable that the branch writes *)
    Lemma turn l brs R k R' k' kf t :
      extend CS l R k = (R', k') -> final_R CS brs R' k' = (Rf, kf) -> clear Rf l -> Good R t ->
      Good R' t /\ clear R' l.
    Proof.
      intros Ee Hfin Hcl [Hf Hr]. destruct (extend_prefix _ _ _ _ _ _ Ee) as [X HX].
      destruct (final_prefix _ _ _ _ _ _ Hfin) as [Y HY].
      assert (Hrn : forall x, rn R' x = rn Rf x \/ rlookup R' x = None /\ rn R' x = x /\ rn R x = x).
      { intros x. unfold rn. destruct (rlookup R' x) as [o|] eqn:El.
        - left. rewrite HY, (rlookup_app_some R' Y x o El). reflexivity.
        - right. split; [reflexivity|]. split; [reflexivity|]. destruct (rlookup R x) as [o|] eqn:El'; [|reflexivity].
          rewrite HX, (rlookup_app_some R X x o El') in El. discriminate. }
      split; [split; [exact Hf|]|]; intros x Hx.
      - destruct (Hrn x) as [->|[_ [-> E]]]; [apply Hf, Hx | rewrite <- E at 1; apply Hr, Hx].
      - intros Hin. destruct (Hrn x) as [E|[El [E _]]]; rewrite E in Hin; [exact (Hcl x Hx Hin)|].
        apply rlookup_none in El. exact (El (extend_complete _ _ _ _ _ _ Ee x Hx Hin)).
    Qed.

    (* the branch (c, l) as emitted with the map R: while it runs, [Good R] is kept and the extra
       condition has the truth value that [cur NP c] had at s: false in [branch_skipped], true in
       [branch_taken] *)
    Lemma branch_skipped NP R c l t : incl (cvars NP) CS -> br_ok (c, l) -> clear R l ->
      holds (cur NP c) s = false -> Good R t ->
      forall F v, (forall t', Good R t' -> frame (auxv skip l) t t' -> F t' = v) ->
        E (exec_gas law (map (strengthen_s skip (rename_c R (if mx then R else Rf) (csimp (cur NP c)))) l) t) F = v.
    Proof.
      intros HNP [Hc [Hok Hcf]] Hcl Hfalse Hg F v HF.
      apply (strengthen_skip law skip (Good R) (auxv skip l)); [| |exact Hok|apply incl_refl|exact Hg|exact HF].
      - exact (fun t0 H0 => eq_trans (extra_truth R t0 _ H0 (cvars_cur _ _ HNP Hc)) Hfalse).
      - intros t0 t0' H0 Hfr. exact (good_frame R l t0 t0' Hcf Hcl H0 (frame_sub _ _ _ _ (auxv_incl skip l) Hfr)).
    Qed.

    Lemma branch_taken NP R c l t : incl (cvars NP) CS -> br_ok (c, l) -> clear R l ->
      holds (cur NP c) s = true -> Good R t ->
      forall F, E (exec_gas law (map (strengthen_s skip (rename_c R (if mx then R else Rf) (csimp (cur NP c)))) l) t) F
                = E (exec_gas law l t) F.
    Proof.
      intros HNP [Hc [_ Hcf]] Hcl Htrue Hg F.
      apply (strengthen_s_true law skip (Good R)); [| |exact Hg].
      - exact (fun t0 H0 => eq_trans (extra_truth R t0 _ H0 (cvars_cur _ _ HNP Hc)) Htrue).
      - exact (fun t0 y v H0 Hy => good_frame R l t0 _ Hcf Hcl H0 (frame_upd _ t0 y v Hy)).
    Qed.

    (* once a branch has been taken, every remaining block changes only variables written by skipped assignments *)
    Lemma emit_noop kf : forall brs NP R k t,
      final_R CS brs R k = (Rf, kf) ->
      Forall br_ok brs -> incl (cvars NP) CS -> dead NP (map fst brs) -> Good R t ->
      forall F v, (forall t', frame (auxv skip (emit_s skip mx CS Rf NP brs R k)) t t' -> F t' = v) ->
        E (exec_gas law (emit_s skip mx CS Rf NP brs R k) t) F = v.
    Proof.
      induction brs as [|[c l] brs IH]; intros NP R k t Hfin Hbrs HNP Hdead Hg F v HF.
      - cbn [emit_s]. rewrite E_exec_gas_nil. apply HF, frame_refl.
      - cbn [final_R emit_s map fst snd] in *. destruct (extend CS l R k) as [R' k'] eqn:Ee.
        apply Forall_cons_iff in Hbrs. destruct Hbrs as [Hb Hbrs].
        destruct (dead_step _ _ _ Hdead) as [Hfalse Hdead'].
        destruct (turn l brs R k R' k' kf t Ee Hfin (proj2 (proj2 Hb)) Hg) as [Hg' Hcl'].
        rewrite E_exec_gas_app. apply (branch_skipped NP R' c l t HNP Hb Hcl' Hfalse Hg').
        intros t1 Hg1 Hfr1.
        apply (IH _ _ k' t1 Hfin Hbrs (cvars_next NP c HNP (proj1 Hb)) Hdead' Hg1).
        intros t' Hfr'. apply HF. rewrite auxv_app, auxv_strengthen_s. exact (frame_app _ _ _ _ _ Hfr1 Hfr').
    Qed.

    Variable Lv0 : list var.

    Definition item_ok (it : item) : Prop :=
      br_ok (fst it) /\ simL Lv0 Lv0 (snd (fst it)) (snd it)
      /\ (forall x, In x Lv0 -> ~ In x (gvars (snd (fst it)))).

    Lemma emit_hidden items NP R k : Forall item_ok items ->
      forall x, In x (auxv skip (emit_s skip mx CS Rf NP (map fst items) R k)) -> aux x = true /\ ~ In x Lv0.
    Proof.
      intros Hok. apply auxv_hidden. intros x Hx Hin. rewrite gvars_emit_s in Hin. apply in_flat_map in Hin.
      destruct Hin as [cl [Hcl Hy]]. apply in_map_iff in Hcl. destruct Hcl as [it [<- Hit]].
      rewrite Forall_forall in Hok. exact (proj2 (proj2 (Hok it Hit)) x Hx Hy).
    Qed.

    (* blocks before the first true condition only run their skipped assignments, the taken
       block runs as the source branch, the remaining ones again only the skipped ones; with no true
       condition, an else branch or mutually exclusive conditions this is the same induction *)
    Lemma emit_sim kf : forall items NP R k t,
      final_R CS (map fst items) R k = (Rf, kf) ->
      Forall item_ok items -> incl (cvars NP) CS ->
      alive NP (map (fun it : item => fst (fst it)) items) ->
      agreeL Lv0 s t -> Good R t ->
      forall g h,
        (forall t' s', agreeL Lv0 s' t' -> frame (gvars (emit_s skip mx CS Rf NP (map fst items) R k)) t t' -> g t' = h s') ->
        E (exec_gas law (emit_s skip mx CS Rf NP (map fst items) R k) t) g = E (sem_items items s) h.
    Proof.
      induction items as [|[[c l] D] items IH]; intros NP R k t Hfin Hok HNP Hal Hag Hg g h Hgh.
      - cbn [map emit_s]. unfold sem_items; cbn [first_match]. rewrite E_exec_gas_nil, E_ret.
        apply Hgh; [exact Hag | apply frame_refl].
      - cbn [map fst snd final_R emit_s] in *. destruct (extend CS l R k) as [R' k'] eqn:Ee.
        apply Forall_cons_iff in Hok. destruct Hok as [[Hb [Hsim HLv]] Hok]. cbn [fst snd] in *.
        destruct (turn l _ R k R' k' kf t Ee Hfin (proj2 (proj2 Hb)) Hg) as [Hg' Hcl'].
        pose proof (cvars_next NP c HNP (proj1 Hb)) as HNP'.
        rewrite E_exec_gas_app. unfold sem_items. cbn [first_match fst snd].
        destruct (holds c s) eqn:Ec.
        + destruct (alive_hit _ _ _ Hal Ec) as [Htrue Hdead].
          rewrite (branch_taken NP R' c l t HNP Hb Hcl' Htrue Hg').
          apply Hsim; [exact Hag|]. intros t2 s2 Hag2 Hfr2.
          apply (emit_noop kf (map fst items) _ _ k' t2 Hfin).
          * apply Forall_map. eapply Forall_impl; [|exact Hok]. intros it' H. apply H.
          * exact HNP'.
          * rewrite map_map. exact Hdead.
          * exact (good_frame _ l t t2 (proj2 (proj2 Hb)) Hcl' Hg' Hfr2).
          * intros t3 Hfr3. apply Hgh.
            -- exact (agreeL_frame _ _ _ _ _ Hag2 Hfr3 (emit_hidden items _ _ _ Hok)).
            -- rewrite gvars_app, gvars_strengthen_s.
               exact (frame_app _ _ _ _ _ Hfr2 (frame_sub _ _ _ _ (auxv_incl skip _) Hfr3)).
        + destruct (alive_miss _ _ _ Hal Ec) as [Hfalse Hal'].
          apply (branch_skipped NP R' c l t HNP Hb Hcl' Hfalse Hg').
          intros t1 Hg1 Hfr1.
          apply (IH _ _ k' t1 Hfin Hok HNP' Hal' (agreeL_frame _ _ _ _ _ Hag Hfr1 (auxv_hidden Lv0 l HLv)) Hg1).
          intros t' s' Hag' Hfr'. apply Hgh; [exact Hag'|]. rewrite gvars_app, gvars_strengthen_s.
          exact (frame_app _ _ _ _ _ (frame_sub _ _ _ _ (auxv_incl skip _) Hfr1) Hfr').
    Qed.
  End OneIf.

  (* a written variable is one of the source variables A or one of the first k generated names *)
  Definition names_ok (A : list var) (k : nat) (l : list gassign) : Prop :=
    forall y, In y (gvars l) -> In y A \/ exists j, (j < k)%nat /\ y = old_name j.
  Definition flat_ok (A : list var) (k : nat) (Lv Lv' : list var) (l : list gassign) (D : state -> dist state) : Prop :=
    Forall (ga_ok law skip) l /\ names_ok A k l /\ simL Lv Lv' l D.
  Definition nongen (Lv : list var) : Prop := forall x, In x Lv -> is_gen x = false.

  Lemma names_ok_weaken A A' k k' l : incl A A' -> (k <= k')%nat -> names_ok A k l -> names_ok A' k' l.
  Proof.
    intros HA Hk Hn y Hy.
    destruct (Hn y Hy) as [H1|[j [Hj H1]]]; [left; apply HA, H1 | right; exists j; split; [lia | exact H1]].
  Qed.
  Lemma names_ok_app A k l1 l2 : names_ok A k l1 -> names_ok A k l2 -> names_ok A k (l1 ++ l2).
  Proof. intros H1 H2 y Hy. rewrite gvars_app in Hy. apply in_app_or in Hy. destruct Hy; [apply H1 | apply H2]; assumption. Qed.

  Lemma vis_nongen Lv x : nongen Lv -> vis Lv x -> is_gen x = false.
  Proof. intros HL [Hx|Hx]; [apply gen_aux, Hx | apply HL, Hx]. Qed.
  Lemma agreeL_sub Lv Lv' s t : incl Lv' Lv -> agreeL Lv s t -> agreeL Lv' s t.
  Proof. intros HL Hag x [Hx|Hx]; apply Hag; [left; exact Hx | right; apply HL, Hx]. Qed.

  Lemma flat_ok_weaken A A' k k' Lv Lv1 Lv2 l D :
    incl A A' -> (k <= k')%nat -> incl Lv2 Lv1 ->
    flat_ok A k Lv Lv1 l D -> flat_ok A' k' Lv Lv2 l D.
  Proof.
    intros HA Hk HL [Hga [Hn Hs]]. split; [exact Hga|]. split; [exact (names_ok_weaken A A' k k' l HA Hk Hn)|].
    intros s t Hag g h Hgh. apply Hs; [exact Hag|]. intros t' s' Hag' Hfr.
    exact (Hgh t' s' (agreeL_sub _ _ _ _ HL Hag') Hfr).
  Qed.

  Lemma flat_ok_ext A k Lv Lv' l D D' : (forall s, D s = D' s) -> flat_ok A k Lv Lv' l D -> flat_ok A k Lv Lv' l D'.
  Proof.
    intros He [Hga [Hn Hs]]. split; [exact Hga|]. split; [exact Hn|].
    intros s t Hag g h Hgh. rewrite <- He. apply Hs; assumption.
  Qed.

  Lemma flat_ok_nil A k Lv : flat_ok A k Lv Lv [] (exec_block law BNil).
  Proof.
    split; [constructor|]. split; [intros y []|].
    intros s t Hag g h Hgh. cbn [exec_block]. rewrite E_exec_gas_nil, E_ret. apply Hgh; [exact Hag | apply frame_refl].
  Qed.

  Lemma flat_ok_app {A1 A2 k1 k2 Lv Lv1 Lv2 l1 l2 st b} :
    flat_ok A1 k1 Lv Lv1 l1 (exec_stmt law st) -> flat_ok A2 k2 Lv1 Lv2 l2 (exec_block law b) -> (k1 <= k2)%nat ->
    flat_ok (A1 ++ A2) k2 Lv Lv2 (l1 ++ l2) (exec_block law (BCons st b)).
  Proof.
    intros [Hga1 [Hn1 Hs1]] [Hga2 [Hn2 Hs2]] Hk. split; [apply Forall_app; split; assumption|]. split.
    { apply names_ok_app; [exact (names_ok_weaken _ _ k1 k2 l1 (incl_appl A2 (incl_refl A1)) Hk Hn1)|].
      exact (names_ok_weaken _ _ k2 k2 l2 (incl_appr A1 (incl_refl A2)) (Nat.le_refl k2) Hn2). }
    intros s t Hag g h Hgh. rewrite E_exec_gas_app, exec_block_cons, E_bind.
    apply Hs1; [exact Hag|]. intros t1 s1 Hag1 Hfr1.
    apply Hs2; [exact Hag1|]. intros t2 s2 Hag2 Hfr2. apply Hgh; [exact Hag2|].
    rewrite gvars_app. exact (frame_app _ _ _ _ _ Hfr1 Hfr2).
  Qed.

  Lemma flat_ok_assign A k Lv Lv' x r :
    (forall y, In y (rhs_vars r) -> vis Lv y) ->
    (skip x = true -> forall t c, E (sample law r t) (fun _ => c) = c) -> In x A -> incl Lv' (x :: Lv) ->
    flat_ok A k Lv Lv'
      [{| ga_var := x; ga_cond := CTrue; ga_default := x; ga_rhs := r |}] (exec_stmt law (SAssign x r)).
  Proof.
    intros Hr Hm HP HL. split; [constructor; [split; [reflexivity | exact Hm] | constructor]|]. split.
    - intros y [<-|[]]. left. exact HP.
    - intros s t Hag g h Hgh.
      rewrite E_exec_gas_cons, E_exec_ga. cbn [ga_cond ga_rhs ga_var holds exec_stmt]. rewrite E_bind.
      rewrite (sample_ext law r s t) by (intros y Hy; apply Hag, Hr, Hy).
      apply E_ext. intros v. rewrite E_exec_gas_nil, E_ret. apply Hgh; [|apply frame_upd; left; reflexivity].
      intros y Hy. unfold upd. destruct (var_eqb y x) eqn:Eyx; [reflexivity|]. apply Hag.
      destruct Hy as [Hy|Hy]; [left; exact Hy|]. right.
      destruct (HL y Hy) as [<-|Hy']; [rewrite var_eqb_refl in Eyx; discriminate | exact Hy'].
  Qed.

  (* the flattened branches of an if-statement, each with the source block it stands for *)
  Definition item_flat (A : list var) (k : nat) (Lv Lv0 : list var) (it : item) : Prop :=
    (forall x, In x (cvars (fst (fst it))) -> vis Lv x) /\ flat_ok A k Lv0 Lv0 (snd (fst it)) (snd it).

  Lemma item_flat_weaken A A' k k' Lv Lv0 it :
    incl A A' -> (k <= k')%nat -> item_flat A k Lv Lv0 it -> item_flat A' k' Lv Lv0 it.
  Proof. intros HA Hk [H1 H2]. split; [exact H1 | exact (flat_ok_weaken A A' k k' _ _ _ _ _ HA Hk (incl_refl _) H2)]. Qed.

  (* the copies: afterwards every condition variable, read directly or through Rf, has its entry value *)
  Lemma copies_sim CS k Rf kf Lv s t :
    Rinv CS k Rf kf -> (forall x, In x CS -> vis Lv x) -> nongen Lv -> agreeL Lv s t ->
    exists t1, (forall F, E (exec_gas law (map copy_ga Rf) t) F = F t1) /\ frame (map snd Rf) t t1
      /\ agreeL Lv s t1 /\ Good CS Rf s [] t1.
  Proof.
    intros Hinv Hcs HLg Hag.
    pose proof (fun x Hx => Rinv_nongen CS k Rf kf x Hinv (vis_nongen Lv x HLg Hx)) as Hng.
    destruct (copies_exec law Rf (Rinv_NoDup _ _ _ _ Hinv)) with (t := t) as [t1 [HE [Hcp Hfr]]].
    { intros x Hx. apply Hng, Hcs. destruct Hinv as [_ [_ Hkeys]]. apply Hkeys, Hx. }
    assert (Hag1 : agreeL Lv s t1) by (intros x Hx; rewrite (Hfr x (Hng x Hx)); apply Hag, Hx).
    exists t1. split; [exact HE|]. split; [exact Hfr|]. split; [exact Hag1|].
    split; intros x Hx; [|apply Hag1, Hcs, Hx].
    unfold rn. destruct (rlookup Rf x) as [o|] eqn:El; [|apply Hag1, Hcs, Hx].
    rewrite (Hcp x o (rlookup_In _ _ _ El)). apply Hag, Hcs, Hx.
  Qed.

  (* freshness: what a branch writes is neither a copy made here (its generated names are older) nor a
     condition variable that Rf leaves unrenamed *)
  Lemma written_clear CS k brs Rf kf A cl :
    final_R CS brs [] k = (Rf, kf) -> (forall y, In y A -> is_gen y = false) ->
    In cl brs -> names_ok A k (snd cl) -> clear CS Rf (snd cl).
  Proof.
    intros Efin HP Hin Hn x Hx Hy.
    pose proof (final_inv CS k brs [] k Rf kf (Rinv_nil CS k) Efin) as Hinv.
    unfold rn in Hy. destruct (rlookup Rf x) as [o|] eqn:El.
    - apply rlookup_In, (in_map snd) in El. cbn [snd] in El. destruct (Hn _ Hy) as [Hp|[j' [Hj' Hyj']]].
      + exact (Rinv_nongen _ _ _ _ _ Hinv (HP o Hp) El).
      + destruct (Rinv_target _ _ _ _ _ Hinv El) as [j [Hj Hyj]]. rewrite Hyj in Hyj'. apply old_name_inj in Hyj'. lia.
    - apply rlookup_none in El. apply El. exact (final_complete CS brs [] k Rf kf Efin cl x Hin Hx Hy).
  Qed.

  Lemma written_hidden A k Lv0 l :
    names_ok A k l -> nongen Lv0 -> (forall y, In y A -> ~ In y Lv0) -> forall x, In x Lv0 -> ~ In x (gvars l).
  Proof.
    intros Hn HLg HP x Hx Hy. destruct (Hn _ Hy) as [Hp|[j [_ ->]]]; [exact (HP x Hp Hx)|].
    apply HLg in Hx. rewrite is_gen_old in Hx. discriminate.
  Qed.

  Lemma copies_ga_ok R : Forall (ga_ok law skip) (map copy_ga R).
  Proof.
    apply Forall_map, Forall_forall. intros xo _. split; [reflexivity|]. intros _ t c.
    cbn [copy_ga ga_rhs]. rewrite sample_det. apply E_ret.
  Qed.
  Lemma emit_ga_ok mx CS Rf : forall brs NP R k,
    Forall (fun cl : fbranch => Forall (ga_ok law skip) (snd cl)) brs -> Forall (ga_ok law skip) (emit_s skip mx CS Rf NP brs R k).
  Proof.
    induction brs as [|cl brs IH]; intros NP R k H; cbn [emit_s]; [constructor|].
    destruct (extend CS (snd cl) R k) as [R' k']. apply Forall_cons_iff in H. destruct H as [H1 H2].
    apply Forall_app. split; [|apply IH, H2].
    apply Forall_map. eapply Forall_impl; [|exact H1]. intros g. apply ga_ok_strengthen_s.
  Qed.

  Lemma copies_names_ok CS k R kf A : Rinv CS k R kf -> names_ok A kf (map copy_ga R).
  Proof.
    intros Hinv y Hy. unfold gvars in Hy. rewrite map_map in Hy. cbn [copy_ga ga_var] in Hy.
    destruct (Rinv_target _ _ _ _ _ Hinv Hy) as [j [Hj ->]]. right. exists j. split; [lia | reflexivity].
  Qed.
  Lemma emit_names_ok mx CS Rf A k brs NP R k0 :
    Forall (fun cl : fbranch => names_ok A k (snd cl)) brs -> names_ok A k (emit_s skip mx CS Rf NP brs R k0).
  Proof.
    intros H y Hy. rewrite gvars_emit_s in Hy. apply in_flat_map in Hy. destruct Hy as [cl [Hcl Hy]].
    rewrite Forall_forall in H. exact (H cl Hcl y Hy).
  Qed.

  Lemma flatten_if_sim mx (items : list item) k out kf A (Lv Lv0 : list var) :
    flatten_s skip mx (map fst items) k = (out, kf) ->
    incl Lv0 Lv -> nongen Lv ->
    (forall y, In y A -> is_gen y = false /\ ~ In y Lv0) ->
    Forall (item_flat A k Lv Lv0) items ->
    (mx = true -> forall s, excl s (map (fun it : item => fst (fst it)) items)) ->
    (k <= kf)%nat /\ flat_ok A kf Lv Lv0 out (sem_items items).
  Proof.
    unfold flatten_s. set (brs := map fst items). set (CS := flat_map (fun cl : fbranch => cvars (fst cl)) brs).
    destruct (final_R CS brs [] k) as [Rf kf'] eqn:Efin. intros Heq HLsub HLgen HP Hit Hmx.
    injection Heq as <- <-. rewrite Forall_forall in Hit.
    pose proof (final_inv CS k brs [] k Rf kf' (Rinv_nil CS k) Efin) as Hinv.
    assert (Hk : (k <= kf')%nat) by (destruct Hinv as [_ [Hk _]]; lia).
    assert (Hcs : forall x, In x CS -> vis Lv x).
    { intros x Hx. apply in_flat_map in Hx. destruct Hx as [cl [Hcl Hx]].
      apply in_map_iff in Hcl. destruct Hcl as [it [<- Hin]]. apply (Hit it Hin), Hx. }
    assert (Hok : Forall (item_ok CS Rf Lv0) items).
    { apply Forall_forall. intros it Hin. destruct (Hit it Hin) as [_ [Hga [Hn Hs]]].
      split; [split; [|split; [exact Hga|]] | split; [exact Hs|]].
      - intros x Hx. apply in_flat_map. exists (fst it). split; [apply in_map, Hin | exact Hx].
      - exact (written_clear CS k brs Rf kf' A (fst it) Efin (fun y Hy => proj1 (HP y Hy)) (in_map fst _ _ Hin) Hn).
      - exact (written_hidden A k Lv0 _ Hn (fun x Hx => HLgen x (HLsub x Hx)) (fun y Hy => proj2 (HP y Hy))). }
    split; [exact Hk|]. split; [|split].
    - apply Forall_app. split; [apply copies_ga_ok|].
      apply emit_ga_ok, Forall_map, Forall_forall. intros it Hin. apply (Hit it Hin).
    - apply names_ok_app; [exact (copies_names_ok CS k Rf kf' A Hinv)|].
      apply emit_names_ok, Forall_map, Forall_forall. intros it Hin.
      exact (names_ok_weaken A A k kf' _ (incl_refl A) Hk (proj1 (proj2 (proj2 (Hit it Hin))))).
    - intros s t Hag g h Hgh.
      destruct (copies_sim CS k Rf kf' Lv s t Hinv Hcs HLgen Hag) as [t1 [HE1 [Hfr [Hag1 Hg1]]]].
      rewrite E_exec_gas_app, HE1.
      apply (emit_sim mx CS Rf s Lv0 kf' items CTrue [] k t1 Efin Hok).
      + intros x [].
      + unfold alive. destruct mx; [apply Hmx; reflexivity | reflexivity].
      + exact (agreeL_sub Lv Lv0 s t1 HLsub Hag1).
      + exact Hg1.
      + intros t' s' Hag' Hfr'. apply Hgh; [exact Hag'|]. rewrite gvars_app.
        refine (frame_app _ _ _ _ _ _ Hfr'). unfold gvars. rewrite map_map. exact Hfr.
  Qed.

  (* the branches of an if-statement once their blocks are flat: brs stands for bs *)
  Definition branches_ok (A : list var) (k : nat) (Lv Lv0 : list var) (bs : branches) (brs : list fbranch) : Prop :=
    exists items : list item,
      map fst items = brs /\ map (fun it : item => fst (fst it)) items = br_conds bs
      /\ Forall (item_flat A k Lv Lv0) items
      /\ forall s, first_match items s = exec_branches law bs s.

  Lemma branches_ok_nil A k Lv Lv0 : branches_ok A k Lv Lv0 BrNil [].
  Proof. exists []. split; [reflexivity|]. split; [reflexivity|]. split; [constructor | reflexivity]. Qed.

  Lemma branches_ok_cons {A A1 A2 k1 k2 Lv Lv0 Lvb c b l bs brs} :
    flat_ok A1 k1 Lv0 Lvb l (exec_block law b) -> branches_ok A2 k2 Lv Lv0 bs brs -> (k1 <= k2)%nat ->
    (forall x, In x (cvars c) -> vis Lv x) -> incl Lv0 Lvb -> incl (A1 ++ A2) A ->
    branches_ok A k2 Lv Lv0 (BrCons c b bs) ((c, l) :: brs).
  Proof.
    intros Hb [items [Hmap [Hconds [Hitems Hfm]]]] Hk Hc HL HA. apply incl_app_inv in HA. destruct HA as [HA1 HA2].
    exists (((c, l), exec_block law b) :: items).
    split; [cbn [map fst]; rewrite Hmap; reflexivity|].
    split; [cbn [map fst br_conds]; rewrite Hconds; reflexivity|]. split.
    - constructor.
      + split; [exact Hc | exact (flat_ok_weaken A1 A k1 k2 _ _ _ _ _ HA1 Hk HL Hb)].
      + eapply Forall_impl; [|exact Hitems]. intros it. apply item_flat_weaken; [exact HA2 | apply Nat.le_refl].
    - intros s. rewrite exec_branches_cons. cbn [first_match fst snd]. rewrite Hfm. reflexivity.
  Qed.

  (* the if-statement itself: the else block, if any, is one more branch with condition True.
     Every branch starts from Lv0, a part of Lv that the statement does not write, and keeps at least that *)
  Lemma flatten_stmt_sim {Ab Ae bs els brs le k1 k2 out kf Lv Lv0 Lve} :
    flatten_s skip (mutex_shape bs els) (match els with BNil => brs | _ => brs ++ [(CTrue, le)] end) k2 = (out, kf) ->
    branches_ok Ab k1 Lv Lv0 bs brs -> flat_ok Ae k2 Lv0 Lve le (exec_block law els) -> (k1 <= k2)%nat ->
    incl Lv0 Lv -> incl Lv0 Lve -> nongen Lv ->
    (forall y, In y (Ab ++ Ae) -> is_gen y = false /\ ~ In y Lv0) ->
    (k2 <= kf)%nat /\ flat_ok (Ab ++ Ae) kf Lv Lv0 out (exec_stmt law (SIf bs els)).
  Proof.
    intros Hfl [items [Hmap [Hconds [Hitems Hfm]]]] Hels Hk HLsub HLe HLgen HA.
    set (items' := match els with BNil => items | _ => items ++ [((CTrue, le), exec_block law els)] end).
    assert (Hmap' : map fst items' = match els with BNil => brs | _ => brs ++ [(CTrue, le)] end).
    { unfold items'. destruct els; [exact Hmap | rewrite map_app; apply f_equal2; [exact Hmap | reflexivity]]. }
    rewrite <- Hmap' in Hfl.
    destruct (flatten_if_sim _ items' k2 out kf (Ab ++ Ae) Lv Lv0 Hfl HLsub HLgen HA) as [Hk' Hok].
    - assert (Hold : Forall (item_flat (Ab ++ Ae) k2 Lv Lv0) items).
      { eapply Forall_impl; [|exact Hitems]. intros it. apply item_flat_weaken; [apply incl_appl, incl_refl | exact Hk]. }
      unfold items'. destruct els; [exact Hold|]. apply Forall_app. split; [exact Hold|]. constructor; [|constructor].
      split; [intros x []|].
      exact (flat_ok_weaken Ae _ k2 k2 _ _ _ _ _ (incl_appr Ab (incl_refl Ae)) (Nat.le_refl _) HLe Hels).
    - intros Emx s. unfold mutex_shape in Emx. unfold items'. destruct els; try discriminate.
      rewrite Hconds. apply mutex_conds_excl. exact Emx.
    - split; [exact Hk'|]. eapply flat_ok_ext; [|exact Hok]. intros s. rewrite exec_stmt_if. unfold sem_items, items'.
      destruct els as [|st0 b0].
      + rewrite Hfm. reflexivity.
      + rewrite first_match_app, Hfm. cbn [fst snd holds]. destruct (exec_branches law bs s); reflexivity.
  Qed.
End Sim.

(* the rule of the tree before /repo 0de310e: nothing is skipped, generated names are hidden *)
Section OldRule.
  Variable law : string -> list Qc -> dist Qc.

  Definition flat_old (A : list var) (k : nat) (l : list gassign) (D : state -> dist state) : Prop :=
    flat_ok law is_gen (fun _ => false) A k [] [] l D.

  Lemma wf_vis l : wf_vars l = true -> forall x, In x l -> vis is_gen [] x.
  Proof. intros H x Hx. left. exact (wf_vars_In l x H Hx). Qed.
  Lemma no_skip (x : var) : false = true -> is_gen x = true.
  Proof. discriminate. Qed.

  (* nested statements: TreeTransformer's bottom-up traversal *)
  Lemma fl_correct :
    (forall st k l k', fl_stmt k st = Some (l, k') -> wf_vars (stmt_vars st) = true ->
       (k <= k')%nat /\ flat_old (stmt_vars st) k' l (exec_stmt law st))
    /\ (forall b k l k', fl_block k b = Some (l, k') -> wf_vars (block_vars b) = true ->
       (k <= k')%nat /\ flat_old (block_vars b) k' l (exec_block law b))
    /\ (forall bs k brs k', fl_branches k bs = Some (brs, k') -> wf_vars (branches_vars bs) = true ->
       (k <= k')%nat /\ branches_ok law is_gen (fun _ => false) (branches_vars bs) k' [] [] bs brs).
  Proof.
    apply stmt_block_branches_ind.
    - intros x r k l k' H Hwf. cbn [fl_stmt] in H. injection H as <- <-. split; [lia|].
      apply flat_ok_assign.
      + intros y Hy. exact (wf_vis _ Hwf y (or_intror Hy)).
      + discriminate.
      + left; reflexivity.
      + intros y [].
    - intros l k l' k' H. cbn [fl_stmt] in H. discriminate.
    - intros bs IHbs els IHels k l k' H Hwf. cbn [fl_stmt] in H.
      destruct (fl_branches k bs) as [[brs k1]|] eqn:E1; [|discriminate].
      destruct (fl_block k1 els) as [[le k2]|] eqn:E2; [|discriminate]. injection H as Hfl.
      destruct (wf_vars_app _ _ Hwf) as [Hwf1 Hwf2].
      destruct (IHbs k brs k1 E1 Hwf1) as [Hk1 Hbrs]. destruct (IHels k1 le k2 E2 Hwf2) as [Hk2 Hels].
      rewrite flatten_old_rule in Hfl.
      destruct (flatten_stmt_sim law is_gen (fun _ => false) no_skip (fun _ H => H) Hfl Hbrs Hels Hk2) as [Hk' Hok].
      (* this rule tracks no hidden variable: Lv = Lv0 = Lve = [] *)
      + apply incl_refl.
      + apply incl_refl.
      + intros y [].
      + intros y Hy. split; [exact (wf_vars_In _ y Hwf Hy) | intros []].
      + split; [lia | exact Hok].
    - intros k l k' H _. cbn [fl_block] in H. injection H as <- <-. split; [lia | apply flat_ok_nil].
    - intros st IHst b IHb k l k' H Hwf. cbn [fl_block] in H.
      destruct (fl_stmt k st) as [[l1 k1]|] eqn:E1; [|discriminate].
      destruct (fl_block k1 b) as [[l2 k2]|] eqn:E2; [|discriminate]. injection H as <- <-.
      destruct (wf_vars_app _ _ Hwf) as [Hwf1 Hwf2].
      destruct (IHst k l1 k1 E1 Hwf1) as [Hk1 Hs1]. destruct (IHb k1 l2 k2 E2 Hwf2) as [Hk2 Hs2].
      split; [lia | exact (flat_ok_app law is_gen _ Hs1 Hs2 Hk2)].
    - intros k brs k' H _. cbn [fl_branches] in H. injection H as <- <-. split; [lia | apply branches_ok_nil].
    - intros c b IHb bs IHbs k brs k' H Hwf. cbn [fl_branches] in H.
      destruct (fl_block k b) as [[l k1]|] eqn:E1; [|discriminate].
      destruct (fl_branches k1 bs) as [[brs0 k2]|] eqn:E2; [|discriminate]. injection H as <- <-.
      destruct (wf_vars_app _ _ Hwf) as [Hwc Hwf']. destruct (wf_vars_app _ _ Hwf') as [Hwb Hwbs].
      destruct (IHb k l k1 E1 Hwb) as [Hk1 Hs]. destruct (IHbs k1 brs0 k2 E2 Hwbs) as [Hk2 Hbrs].
      split; [lia|].
      apply (branches_ok_cons law is_gen _ Hs Hbrs Hk2).
      + exact (wf_vis _ Hwc).
      + apply incl_refl.
      + apply incl_appr, incl_refl.
  Qed.

  Lemma if_flatten_old_sim k b l k' : if_flatten_old k b = Some (l, k') -> wf_block b = true ->
    forall s t, agree s t -> forall g h, (forall s' t', agree s' t' -> g t' = h s') ->
      E (exec_gas law l t) g = E (exec_block law b s) h.
  Proof.
    intros H Hwf s t Hag g h Hgh. destruct fl_correct as [_ [Hb _]].
    destruct (Hb b k l k' H Hwf) as [_ [_ [_ Hs]]]. apply Hs.
    - intros x [Hx|[]]. apply Hag, Hx.
    - intros t' s' Hag' _. apply Hgh. intros x Hx. apply Hag'. left. exact Hx.
  Qed.

  Theorem if_flatten_old_rule_block_preserves k b l k' :
    if_flatten_old k b = Some (l, k') -> wf_block b = true ->
    forall s t, agree s t -> forall f, blind f ->
      E (exec_gas law l t) f = E (exec_block law b s) f.
  Proof. intros H Hwf s t Hag f Hf. eapply if_flatten_old_sim; eauto. Qed.

  Theorem if_flatten_old_rule_preserves k p fp k' :
    if_flatten_prog_old k p = Some (fp, k') -> wf_prog p = true ->
    forall n s0 t0, agree s0 t0 -> forall f, blind f ->
      E (frun law fp n t0) f = E (run law p n s0) f.
  Proof.
    unfold if_flatten_prog_old, wf_prog. intros H Hwf.
    destruct (p_guard p) eqn:Eg; try discriminate.
    destruct (if_flatten_old k (p_init p)) as [[li k1]|] eqn:Ei; [|discriminate].
    destruct (if_flatten_old k1 (p_body p)) as [[lb k2]|] eqn:Eb; [|discriminate]. inversion H; subst fp k'. clear H.
    apply andb_true_iff in Hwf. destruct Hwf as [Hwi Hwb].
    intros n s0 t0 Hag f Hf.
    exact (run_sim law agree p li lb Eg (if_flatten_old_sim _ _ _ _ Ei Hwi) (if_flatten_old_sim _ _ _ _ Eb Hwb) n s0 t0 Hag f f Hf).
  Qed.
End OldRule.

(* the hypothesis wf_block is necessary: a source variable named _old0 is captured *)
Local Open Scope string_scope.
Definition capture_block : block :=
  BCons (SIf (BrCons (CAtom (EVar "x") Ceq (EConst (mkq 0 1)))
                (BCons (SAssign "x" (RDet (EConst (mkq 1 1)))) (BCons (SAssign "y" (RDet (EVar "_old0"))) BNil)) BrNil) BNil) BNil.
Definition capture_state : state := fun v => if var_eqb v "_old0" then mkq 7 1 else 0.

Theorem if_flatten_without_wf_refuted :
  exists (k : nat) (b : block) (l : list gassign) (k' : nat) (s : state) (f : state -> Qc),
    if_flatten_old k b = Some (l, k') /\ blind f /\ agree s s /\
    E (exec_gas no_law l s) f <> E (exec_block no_law b s) f.
Proof.
  exists 0%nat, capture_block.
  destruct (if_flatten_old 0 capture_block) as [[l k']|] eqn:Efl; [|vm_compute in Efl; discriminate].
  exists l, k', capture_state, (fun s => s "y").
  split; [reflexivity|]. split; [intros s t H; apply H; reflexivity|]. split; [intros x _; reflexivity|].
  vm_compute in Efl. inversion Efl; subst l k'. clear Efl.
  intros Heq.
  match type of Heq with ?a = ?b => assert (Hc : Qc_eqb a b = true) by (rewrite Heq; apply Qc_eqb_refl) end.
  vm_compute in Hc. discriminate.
Qed.
