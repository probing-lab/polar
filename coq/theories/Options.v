(* C17 — strategy / representation options do not change any reported result.
   The two option-controlled program transformations of Polar
     * inputparser/structure_transformer.py:_transform_categorical   (settings.transform_categoricals; this file)
     * program/transformer/conditions_to_arithm.py:ConditionsToArithm (settings.cond2arithm; OptionsArith.v)
   are modelled and preserve, under the reference semantics Sem.v, the expectation of every test
   function that does not read the generated variables, for ALL programs and states.  OptionsThm.v
   has the "declared instead of inferred types" and "other solver" options as corollaries of the
   composition theorem Wp.check_pipeline_sound / ClosedForm.accepted_agree, the exactness-flag logic
   of utils/expressions.py:get_all_roots / numerify_croots, and the boolean comparators used by
   the harness to tie the models to what the real passes produce. *)
From Coq Require Import List String QArith Qcanon ZArith Bool Ring Field Arith Lia.
From Polar Require Import Qcx CRing ExpPoly ClosedForm Dist Syntax Sem Types Poly Pipeline Wp PassGuard.
From Polar Require PassFlat.
Import ListNotations.
Local Open Scope Qc_scope.

Lemma qnat_inj i j : qnat i = qnat j -> i = j.
Proof. exact (Qcx.qnat_inj i j). Qed.

(* variables read by conditions and right-hand sides *)
Fixpoint cvars (c : cond) : list var :=
  match c with
  | CTrue | CFalse => []
  | CAtom a _ b => vars_of a ++ vars_of b
  | CNot c1 => cvars c1
  | CAnd c1 c2 | COr c1 c2 => cvars c1 ++ cvars c2
  end.
Definition dvars (d : draw) : list var :=
  match d with
  | DBern p => vars_of p
  | DCat ps => flat_map vars_of ps
  | DUnif _ _ => []
  | DCont _ args => flat_map vars_of args
  end.
Definition rvars (r : rhs) : list var :=
  match r with
  | RChoice alts => flat_map (fun pe => vars_of (fst pe) ++ vars_of (snd pe)) alts
  | RDraw d => dvars d
  end.

(* [catexpand_preserves] and the cond2arithm theorems state their freshness hypotheses over these;
   they are PassFlat's cond_vars, draw_vars and rhs_vars, so its lemmas carry over *)
Lemma holds_ext c s s' : (forall x, In x (cvars c) -> s x = s' x) -> holds c s = holds c s'.
Proof. exact (PassFlat.holds_ext c s s'). Qed.

Lemma sample_ext law r s s' : (forall x, In x (rvars r) -> s x = s' x) -> sample law r s = sample law r s'.
Proof. exact (PassFlat.sample_ext law r s s'). Qed.

(* states that agree outside a set U of generated names *)
Definition agree_off (U : list var) (a b : state) : Prop := forall y, ~ In y U -> a y = b y.
Lemma agree_refl U a : agree_off U a a.
Proof. intros y _. reflexivity. Qed.
Lemma agree_upd U a b x v : agree_off U a b -> agree_off U (upd a x v) (upd b x v).
Proof. intros H y Hy. unfold upd. destruct (var_eqb y x); [reflexivity | apply H; exact Hy]. Qed.
Lemma agree_upd_in U a u v : In u U -> agree_off U a (upd a u v).
Proof. intros Hu y Hy. rewrite upd_other; [reflexivity|]. intros ->. exact (Hy Hu). Qed.

Section Options.
  Variable law : string -> list Qc -> dist Qc.

  (* transform_categoricals:  x = v1 {p1} ... vk {pk}
       becomes   c = Categorical(p1, ..., pk);  if c == 0: x = v1  elif c == 1: x = v2 ... end
     (structure_transformer._transform_categorical; the IfStatem is flagged mutually
     exclusive, which for the pairwise distinct tests c == i is the first-match reading) *)
  Fixpoint cat_branches (x c : var) (vs : list expr) (i : nat) : branches :=
    match vs with
    | [] => BrNil
    | v :: vs' => BrCons (CAtom (EVar c) Ceq (EConst (qnat i))) (BCons (SAssign x (RDet v)) BNil)
                         (cat_branches x c vs' (S i))
    end.
  Definition cat_if (x c : var) (alts : list (expr * expr)) : stmt :=
    SIf (cat_branches x c (map snd alts) 0) BNil.
  Definition cat_expand (x c : var) (alts : list (expr * expr)) : block :=
    BCons (SAssign c (RDraw (DCat (map fst alts)))) (BCons (cat_if x c alts) BNil).

  (* the if-chain started at index i, run in a state where c holds the index i + j *)
  Lemma cat_chain x c : forall vs i j t (f : state -> Qc),
    t c = qnat (i + j) ->
    E (exec_stmt law (SIf (cat_branches x c vs i) BNil) t) f =
    match nth_error vs j with Some v => f (upd t x (eval v t)) | None => f t end.
  Proof.
    induction vs as [|v vs IH]; intros i j t f Hc; cbn [cat_branches].
    - rewrite exec_stmt_if_nil. cbn [exec_block]. rewrite E_ret. destruct j; reflexivity.
    - rewrite exec_stmt_if_cons. cbn [holds eval cop_holds]. rewrite Hc.
      destruct j as [|j]; cbn [nth_error].
      + rewrite Nat.add_0_r, Qc_eqb_refl, E_block_single. apply E_assign_det.
      + destruct (Qc_eqb (qnat (i + S j)) (qnat i)) eqn:Heq.
        * apply Qc_eqb_true, Qcx.qnat_inj in Heq. lia.
        * apply (IH (S i) j t f). rewrite Hc. f_equal. lia.
  Qed.

  (* a choice and a categorical draw over the same weights, compared index by index *)
  Lemma E_choice_cat_law alts s (F G : Qc -> Qc) : forall i,
    (forall j p v, nth_error alts j = Some (p, v) -> F (eval v s) = G (qnat (i + j))) ->
    E (sample law (RChoice alts) s) F = E (cat_law (map (fun e => eval e s) (map fst alts)) i) G.
  Proof.
    cbn [sample]. induction alts as [|[p v] alts IH]; intros i H; cbn [map fst snd cat_law E]; [reflexivity|].
    rewrite (H 0%nat p v eq_refl), Nat.add_0_r. f_equal.
    apply IH. intros j p' v' Hj. rewrite (H (S j) p' v' Hj), Nat.add_succ_r. reflexivity.
  Qed.

  Theorem catexpand_preserves : forall x c alts s (f : state -> Qc),
    c <> x ->
    (forall p v, In (p, v) alts -> ~ In c (vars_of v)) ->
    (forall a b, (forall y, y <> c -> a y = b y) -> f a = f b) ->
    E (exec_stmt law (SAssign x (RChoice alts)) s) f = E (exec_block law (cat_expand x c alts) s) f.
  Proof.
    intros x c alts s f Hcx Hfresh Hf.
    unfold cat_expand. rewrite E_block_cons, !E_assign.
    apply E_choice_cat_law. intros j p v Hj. cbn [Nat.add].
    (* the j-th alternative on the left, the j-th branch of the chain on the right *)
    rewrite E_block_single.
    unfold cat_if. rewrite (cat_chain x c (map snd alts) 0 j) by (rewrite upd_same; reflexivity).
    rewrite (map_nth_error snd j alts Hj). cbn [snd].
    rewrite (eval_upd_notin v s c (qnat j)) by exact (Hfresh p v (nth_error_In alts j Hj)).
    apply Hf. intros y Hy. unfold upd. destruct (var_eqb y x); [reflexivity|].
    rewrite (proj2 (var_eqb_neq y c) Hy). reflexivity.
  Qed.
End Options.
