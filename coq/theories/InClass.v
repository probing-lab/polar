(* C18: the documented class of loops ("Loop Restrictions" of /repo/README.md) as a boolean
   on SOURCE programs.

   README.md, section "Loop Restrictions":
     R1 "All variables in if-conditions and the loop guard must only assume finitely many
         values."
     R2 "All probabilities and distribution parameters must be constant"  —  "Ad restriction
         2: For some distributions, such as Normal, it is permissible to use non-constant
         distribution parameters."
     R3 "Non-linear variable dependencies must be acylcic."  —  "The restriction forbids
         variables v1, ... vk, where v1 depends on v2, v2 on v3, ..., vk depends on v1, with
         at least one of these dependencies being non-linear."
     "If your input program satisfies these restrictions, Polar theoretically guarantees its
      analyzability."
   and the property's own fourth clause "variables initialised".

   [in_class p D] is a DECIDABLE SUFFICIENT condition for R1-R3 (D = the declared types of
   the optional "types ... end" block):
     - R1 is decided by a source-level cartesian value analysis (flow-sensitive abstract
       execution of init and body over finite value sets, branches joined, loop closed by
       Kleene iteration; budgets 100 iterations / 25 values per variable as
       FiniteFixedPointTyper ([aset], [ajoin]), values below 2^64 in numerator and denominator);
       every atom a o b of every condition must have all its variables finitely valued at the
       program point where it is evaluated, with at most 100 valuations of them ([maxenv], the
       cap of [expr_vals]) and small values of a - b.  Declared types are trusted (Polar locks them).
     - R2 syntactically; the location positions of Normal / Uniform / Laplace are exempt
       (program/transformer/dist_transformer.py).
     - R3 through the model of SolvabilityChecker._get_dependency_graph (on the source
       assignments; a variable is "simple" iff finitely valued at every assignment or only ever
       drawn with constant parameters) and the model of Graph.get_defective_nodes (Graph.v):
       no node is defective.  By Graph.no_defective_iff this says exactly that no non-linear
       edge lies on a cycle.
     - every variable assigned in the loop is assigned in the (straight-line) initial block or
       declared; the initial block reads variables only after they were assigned.
   The analysis is coarser than Polar's own (which works on renamed single-assignment
   versions), so in_class is a SUBSET of the documented class: a refusal of an in_class program
   is a refusal inside the documented class. *)
From Coq Require Import List String QArith Qcanon ZArith Bool Arith Lia.
From Polar Require Import Qcx Dist Syntax Sem Types Poly Graph.
Import ListNotations.
Local Open Scope string_scope.
Local Open Scope list_scope.

Definition maxv : nat := 25.        (* FiniteFixedPointTyper(max_values_before_fail=25) *)
(* the typer's limit is on the number of distinct VALUES (it de-duplicates after every substituted variable): the sum
   of two six-valued variables has 36 valuations but 11 values.  Valuations are capped separately (cost of the analysis) *)
Definition maxenv : nat := 100.
Definition fp_iterations : nat := 100. (* settings.type_fp_iterations *)

(* all assignments of a block, at any depth, in textual order *)
Fixpoint stmt_assigns (s : stmt) : list (var * rhs) :=
  match s with
  | SAssign x r => [(x, r)]
  | SSimult l => l
  | SIf bs els => branches_assigns bs ++ block_assigns els
  end
with block_assigns (b : block) : list (var * rhs) :=
  match b with BNil => [] | BCons s b' => stmt_assigns s ++ block_assigns b' end
with branches_assigns (bs : branches) : list (var * rhs) :=
  match bs with BrNil => [] | BrCons _ b bs' => block_assigns b ++ branches_assigns bs' end.

Fixpoint block_conds (b : block) : list cond :=
  match b with BNil => [] | BCons s b' => stmt_conds s ++ block_conds b' end
with stmt_conds (s : stmt) : list cond :=
  match s with SIf bs els => branches_conds bs ++ block_conds els | _ => [] end
with branches_conds (bs : branches) : list cond :=
  match bs with BrNil => [] | BrCons c b bs' => c :: block_conds b ++ branches_conds bs' end.

Fixpoint straight (b : block) : bool :=
  match b with BNil => true | BCons (SIf _ _) _ => false | BCons _ b' => straight b' end.

Definition mem_str (x : var) (l : list var) : bool := existsb (var_eqb x) l.
Definition prog_vars (p : prog) (D : tenv) : list var :=
  nodup string_dec (map fst (block_assigns (p_body p)) ++ map fst (block_assigns (p_init p)) ++ map fst D).

Definition dedup (vs : list Qc) : list Qc :=
  fold_right (fun v acc => if mem v acc then acc else v :: acc) [] vs.

(* magnitude cap (conservative, keeps the analysis cheap on x = x**2): a value whose numerator or
   denominator exceeds 2^64 makes the variable non-finite for the analysis *)
Definition small (q : Qc) : bool :=
  Z.ltb (Z.abs (Qnum (this q))) (2 ^ 64)%Z && Z.ltb (Zpos (Qden (this q))) (2 ^ 64)%Z.

Definition expr_vals (T : tenv) (e : expr) : option (list Qc) :=
  match valuations all_vars T (nodup string_dec (vars_of e)) with
  | Some envs =>
      if Nat.leb (List.length envs) maxenv then
        let vs := dedup (map (fun env => eval e (env_state env)) envs) in
        if forallb small vs then Some vs else None
      else None
  | None => None
  end.

Fixpoint choice_vals (T : tenv) (alts : list (expr * expr)) : option (list Qc) :=
  match alts with
  | [] => Some []
  | (_, e) :: alts' =>
      match expr_vals T e, choice_vals T alts' with Some v, Some vs => Some (v ++ vs) | _, _ => None end
  end.

Definition rhs_vals (T : tenv) (r : rhs) : option (list Qc) :=
  match r with
  | RChoice alts => choice_vals T alts
  | RDraw (DBern _) => Some [1; 0]%Qc
  | RDraw (DCat ps) => Some (cat_vals (List.length ps) 0)
  | RDraw (DUnif a b) => Some (unif_vals a (Z.to_nat (b - a + 1)))
  | RDraw (DCont _ _) => None
  end.

(* strong update; variables in [locked] (declared types) keep their declared set *)
Definition aset (locked : list var) (T : tenv) (x : var) (o : option (list Qc)) : tenv :=
  if mem_str x locked then T
  else match o with
       | Some vs => let vs' := dedup vs in
                    if Nat.leb (List.length vs') maxv then (x, vs') :: remove_var x T else remove_var x T
       | None => remove_var x T
       end.

(* join: a variable stays finite iff it is finite on both sides and the union is small *)
Definition ajoin (A B : tenv) : tenv :=
  flat_map (fun xa : var * list Qc =>
              match tlookup B (fst xa) with
              | Some vb => let u := dedup (snd xa ++ vb) in
                           if Nat.leb (List.length u) maxv then [(fst xa, u)] else []
              | None => []
              end) A.

Section Analysis.
  Variable locked : list var.

  Fixpoint aexec_stmt (s : stmt) (T : tenv) : tenv :=
    match s with
    | SAssign x r => aset locked T x (rhs_vals T r)
    | SSimult l => fold_left (fun T' xr => aset locked T' (fst xr) (rhs_vals T (snd xr))) l T
    | SIf bs els => aexec_branches bs T (aexec_block els T)
    end
  with aexec_block (b : block) (T : tenv) : tenv :=
    match b with BNil => T | BCons s b' => aexec_block b' (aexec_stmt s T) end
  with aexec_branches (bs : branches) (T acc : tenv) : tenv :=
    match bs with
    | BrNil => acc
    | BrCons _ b bs' => aexec_branches bs' T (ajoin acc (aexec_block b T))
    end.

  Lemma aexec_if bs els T : aexec_stmt (SIf bs els) T = aexec_branches bs T (aexec_block els T).
  Proof. reflexivity. Qed.
  Lemma aexec_cons st b T : aexec_block (BCons st b) T = aexec_block b (aexec_stmt st T).
  Proof. reflexivity. Qed.
  Lemma aexec_brcons c b bs T acc :
    aexec_branches (BrCons c b bs) T acc = aexec_branches bs T (ajoin acc (aexec_block b T)).
  Proof. reflexivity. Qed.

  (* T' = ajoin T (F T) is always above T (fewer variables, more values); the iteration is stable
     when nothing was lost or added: every entry of T is still present in T' with no new value *)
  Definition stable (T T' : tenv) : bool :=
    forallb (fun xa : var * list Qc =>
               match tlookup T' (fst xa) with
               | Some v' => subset v' (snd xa)
               | None => false
               end) T.

  Fixpoint afix (fuel : nat) (body : block) (T : tenv) : option tenv :=
    match fuel with
    | O => None
    | S f => let T' := ajoin T (aexec_block body T) in
             if stable T T' then Some T else afix f body T'
    end.

  (* R1: every condition is checked at its program point *)
  Fixpoint cond_ok (T : tenv) (c : cond) : bool :=
    match c with
    | CTrue | CFalse => true
    | CAtom a _ b => match expr_vals T (ESub a b) with Some _ => true | None => false end
    | CNot c1 => cond_ok T c1
    | CAnd c1 c2 | COr c1 c2 => cond_ok T c1 && cond_ok T c2
    end.

  Fixpoint check_stmt (s : stmt) (T : tenv) : bool :=
    match s with
    | SIf bs els => check_branches bs T && check_block els T
    | _ => true
    end
  with check_block (b : block) (T : tenv) : bool :=
    match b with BNil => true | BCons s b' => check_stmt s T && check_block b' (aexec_stmt s T) end
  with check_branches (bs : branches) (T : tenv) : bool :=
    match bs with
    | BrNil => true
    | BrCons c b bs' => cond_ok T c && check_block b T && check_branches bs' T
    end.

  (* variables that receive a non-finite value at some assignment *)
  Definition nonfinite (T : tenv) (x : var) (r : rhs) : list var :=
    match tlookup (aset locked T x (rhs_vals T r)) x with Some _ => [] | None => [x] end.

  Fixpoint nf_stmt (s : stmt) (T : tenv) : list var :=
    match s with
    | SAssign x r => nonfinite T x r
    | SSimult l => flat_map (fun xr => nonfinite T (fst xr) (snd xr)) l
    | SIf bs els => nf_branches bs T ++ nf_block els T
    end
  with nf_block (b : block) (T : tenv) : list var :=
    match b with BNil => [] | BCons s b' => nf_stmt s T ++ nf_block b' (aexec_stmt s T) end
  with nf_branches (bs : branches) (T : tenv) : list var :=
    match bs with BrNil => [] | BrCons _ b bs' => nf_block b T ++ nf_branches bs' T end.
End Analysis.

Definition loop_env (p : prog) (D : tenv) : option tenv :=
  let locked := map fst D in
  afix locked fp_iterations (p_body p) (aexec_block locked (p_init p) D).

(* the fourth clause: variables initialised *)
Definition rhs_exprs (r : rhs) : list expr :=
  match r with
  | RChoice alts => flat_map (fun pe => [fst pe; snd pe]) alts
  | RDraw (DBern e) => [e]
  | RDraw (DCat ps) => ps
  | RDraw (DUnif _ _) => []
  | RDraw (DCont _ args) => args
  end.
Definition rhs_vars (r : rhs) : list var := flat_map vars_of (rhs_exprs r).

(* the initial block reads a program variable only after its assignment there (or a declared one) *)
Fixpoint init_reads_ok (vars : list var) (seen : list var) (l : list (var * rhs)) : bool :=
  match l with
  | [] => true
  | (x, r) :: l' =>
      forallb (fun y => negb (mem_str y vars) || mem_str y seen) (rhs_vars r)
      && init_reads_ok vars (x :: seen) l'
  end.

Definition initialised (p : prog) (D : tenv) : bool :=
  let iv := map fst (block_assigns (p_init p)) ++ map fst D in
  straight (p_init p)
  && forallb (fun xr : var * rhs => mem_str (fst xr) iv) (block_assigns (p_body p))
  && init_reads_ok (prog_vars p D) (map fst D) (block_assigns (p_init p)).

(* R2: constant probabilities and parameters *)
Definition const_expr (vars : list var) (e : expr) : bool :=
  forallb (fun y => negb (mem_str y vars)) (vars_of e).
Definition location_family (f : string) : bool :=
  String.eqb f "Normal" || String.eqb f "Uniform" || String.eqb f "Laplace".
Definition params_const_rhs (vars : list var) (r : rhs) : bool :=
  match r with
  | RChoice alts => forallb (fun pe => const_expr vars (fst pe)) alts
  | RDraw (DBern e) => const_expr vars e
  | RDraw (DCat ps) => forallb (const_expr vars) ps
  | RDraw (DUnif _ _) => true
  | RDraw (DCont f args) =>
      if String.eqb f "Uniform" then true                      (* a + (b-a)*U(0,1) *)
      else if location_family f then forallb (const_expr vars) (tl args)   (* mu + ... *)
      else forallb (const_expr vars) args
  end.
Definition params_const (p : prog) (D : tenv) : bool :=
  let vars := prog_vars p D in
  forallb (fun xr : var * rhs => params_const_rhs vars (snd xr))
          (block_assigns (p_init p) ++ block_assigns (p_body p)).

(* R3: the dependency graph (model of SolvabilityChecker._get_dependency_graph) *)
Definition const_draw (vars : list var) (r : rhs) : bool :=
  match r with
  | RDraw d => forallb (const_expr vars) (rhs_exprs r)
  | RChoice _ => false
  end.

(* _is_simple: finite, or a dist variable *)
Definition simple_var (p : prog) (D : tenv) (T : tenv) (x : var) : bool :=
  let vars := prog_vars p D in
  let locked := map fst D in
  let body := block_assigns (p_body p) in
  let mine := filter (fun xr : var * rhs => var_eqb (fst xr) x) body in
  (match tlookup T x with Some _ => true | None => false end
   && negb (mem_str x (nf_block locked (p_body p) T)))
  || (negb (Nat.eqb (List.length mine) 0) && forallb (fun xr => const_draw vars (snd xr)) mine).

Definition term_edges (isvar simple : var -> bool) (x : var) (m : mono) : list (var * var * nat) :=
  let m' := filter (fun yk : var * nat => isvar (fst yk) && Nat.ltb 0 (snd yk)) m in
  let inf := filter (fun yk : var * nat => negb (simple (fst yk))) m' in
  let cnt := List.length inf in
  let pw := match inf with (_, k) :: _ => k | [] => O end in
  let lab := if Nat.leb cnt 1 then (if Nat.eqb pw 1 || Nat.eqb cnt 0 then 1 else 2)%nat else 2%nat in
  map (fun yk : var * nat => (fst yk, x, lab)) m'.

Definition dep_edges (p : prog) (D : tenv) (T : tenv) : list (var * var * nat) :=
  let vars := prog_vars p D in
  let isvar := fun y => mem_str y vars in
  let simple := simple_var p D T in
  flat_map (fun xr : var * rhs =>
              match snd xr with
              | RChoice alts =>
                  flat_map (fun pe : expr * expr =>
                              flat_map (fun t : Qc * mono => term_edges isvar simple (fst xr) (snd t))
                                       (pclean (of_expr (snd pe)))) alts
              | RDraw _ => []
              end) (block_assigns (p_body p)).

Fixpoint index_of (x : var) (l : list var) : nat :=
  match l with [] => O | y :: l' => if var_eqb x y then O else S (index_of x l') end.

(* add_edge(v, u, e): adj[index u][index v] = max(adj, e) — the edge goes from the variable
   read to the variable assigned *)
Definition adj_of_edges (nodes : list var) (es : list (var * var * nat)) : nat -> nat -> nat :=
  fun a b =>
    fold_left (fun acc e => match e with (y, x, lab) =>
                 if Nat.eqb (index_of y nodes) a && Nat.eqb (index_of x nodes) b then Nat.max acc lab else acc end)
              es O.

Definition defective_vars (p : prog) (D : tenv) (T : tenv) : list var :=
  let nodes := prog_vars p D in
  map (fun i => nth i nodes "") (defective_list (List.length nodes) (adj_of_edges nodes (dep_edges p D T))).

Definition effective_vars (p : prog) (D : tenv) (T : tenv) : list var :=
  filter (fun x => negb (mem_str x (defective_vars p D T))) (prog_vars p D).

Definition conditions_finite (p : prog) (D : tenv) (T : tenv) : bool :=
  cond_ok T (p_guard p) && check_block (map fst D) (p_body p) T.

(* the clauses of [in_class] one by one, as the harness reports them for a program: variables
   initialised, R2, the value analysis converged, R1, R3 (no defective variable) *)
Definition in_class_parts (p : prog) (D : tenv) : list bool :=
  match loop_env p D with
  | Some T => [initialised p D; params_const p D; true; conditions_finite p D T;
               match defective_vars p D T with [] => true | _ => false end]
  | None => [initialised p D; params_const p D; false; false; false]
  end.

Definition in_class (p : prog) (D : tenv) : bool := forallb (fun b => b) (in_class_parts p D).

Lemma in_class_unfold p D :
  in_class p D = true <->
  initialised p D = true /\ params_const p D = true /\
  exists T, loop_env p D = Some T /\ conditions_finite p D T = true /\ defective_vars p D T = [].
Proof.
  unfold in_class, in_class_parts. destruct (loop_env p D) as [T|]; cbn [forallb].
  - rewrite !andb_true_iff. split.
    + intros (H1 & H2 & _ & H4 & H5 & _). repeat split; auto. exists T. repeat split; auto.
      destruct (defective_vars p D T); [reflexivity | discriminate].
    + intros (H1 & H2 & T' & HT & H4 & H5). injection HT as <-. rewrite H5. repeat split; auto.
  - rewrite !andb_true_iff. split.
    + intros (_ & _ & H & _). discriminate.
    + intros (_ & _ & T' & HT & _). discriminate.
Qed.

(* R3 in the words of the README: an in-class program has no non-linear dependency on a cycle *)
Theorem in_class_no_nonlinear_cycle p D :
  in_class p D = true ->
  exists T, loop_env p D = Some T /\
    let nodes := prog_vars p D in
    let adj := adj_of_edges nodes (dep_edges p D T) in
    forall v u : nat, (v < List.length nodes)%nat -> (u < List.length nodes)%nat -> adj v u = 2%nat ->
      ~ reach (List.length nodes) adj u v.
Proof.
  intros H. apply in_class_unfold in H. destruct H as (_ & _ & T & HT & _ & Hd).
  exists T. split; [exact HT|]. cbn zeta.
  apply no_defective_iff. unfold defective_vars in Hd.
  destruct (defective_list _ _); [reflexivity | discriminate].
Qed.
