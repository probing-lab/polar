(* C15 — the query statements appended to the generated loop body (bayesnet/query/*.py):
   exact inference (indicator / product pair) and sampling time (count / continue pair).
   Everything here is over Qc and is closed under the global context (no axioms); the
   real-number limit of the sampling-time count is in BayesNetLimit.v. *)
From Coq Require Import String Arith Bool QArith Qcanon Lia List.
From Polar Require Import Qcx BayesNet BayesNetSem.
Import ListNotations.
Open Scope nat_scope.

(* exact inference: ind = m := [evidence holds]; inf = S m := X_t * ind *)
Definition qs_exact (m : nat) (c : gcond) (t : nat) : list gstmt :=
  [SIf [(c, ACat m [1] [])] (Some (ACat m [0] [])); SAssign (AMul (S m) t m)].

(* sampling time: continue = S m := 0 once the evidence holds; count = m := count + continue *)
Definition qs_sample (m : nat) (c : gcond) : list gstmt :=
  [SIf [(c, ACat (S m) [0] [])] None; SAssign (AAdd m m (S m))].

Lemma gen_query_exact net tn ev i qs :
  gen_query net (QExact tn ev) = Some (i, qs) ->
  exists t c, qs = qs_exact (length net) c t /\
              resolve_evidence net ev = Some c /\
              find_nvar net tn = Some t /\
              c <> [] /\
              i = [(length net, 0); (S (length net), 0)].
Proof.
  unfold gen_query. destruct (find_nvar net tn) as [t|]; cbn [obind]; [|discriminate].
  destruct (resolve_evidence net ev) as [c|]; cbn [obind]; [|discriminate].
  destruct c as [|xv c]; cbn [length Nat.eqb negb guard obind]; [discriminate|].
  intros H. injection H as <- <-. exists t, (xv :: c). repeat split. discriminate.
Qed.

Lemma gen_query_sample net ev i qs :
  gen_query net (QSample ev) = Some (i, qs) ->
  exists c, qs = qs_sample (length net) c /\
            resolve_evidence net ev = Some c /\
            c <> [] /\
            i = [(length net, 1); (S (length net), 1)].
Proof.
  unfold gen_query.
  destruct (resolve_evidence net ev) as [c|]; cbn [obind]; [|discriminate].
  destruct c as [|xv c]; cbn [length Nat.eqb negb guard obind]; [discriminate|].
  intros H. injection H as <- <-. exists (xv :: c). repeat split. discriminate.
Qed.

(* the side conditions of the lemmas below hold for what gen_query resolves *)
Lemma find_nvar_lt net x t : find_nvar net x = Some t -> t < length net.
Proof. rewrite find_nvar_index_of, <- (map_length nv_name net). apply index_of_lt. Qed.

Lemma resolve_evidence_lt net ev c :
  resolve_evidence net ev = Some c -> forall x v, In (x, v) c -> x < length net.
Proof.
  intros H x v Hin. destruct (omap_in _ _ _ _ H Hin) as [e [_ He]].
  apply obind_Some in He as [i [Hi He]]. apply obind_Some in He as [nv [_ He]].
  apply obind_Some in He as [k [_ He]]. injection He as <- _. exact (find_nvar_lt _ _ _ Hi).
Qed.

Lemma qnat_mul a b : qnat (a * b) = (qnat a * qnat b)%Qc.
Proof. exact (Qcx.qnat_mul a b). Qed.

Lemma qnat_1 : qnat 1 = 1%Qc.
Proof. cbn [qnat]. ring. Qed.

Lemma ind_negb b : ind (negb b) = (1 - ind b)%Qc.
Proof. destruct b; cbn [negb ind]; ring. Qed.

Definition bnat (b : bool) : nat := if b then 1 else 0.

Lemma qnat_bnat b : qnat (bnat b) = ind b.
Proof. destruct b; cbn [bnat ind qnat]; ring. Qed.

Lemma expect_mul x a b s f : expect (exec_stmt (SAssign (AMul x a b)) s) f = f (upd s x (s a * s b)).
Proof. apply expect_single. Qed.

Lemma expect_add x a b s f : expect (exec_stmt (SAssign (AAdd x a b)) s) f = f (upd s x (s a + s b)).
Proof. apply expect_single. Qed.

(* x = v: a choice with the single value v, whose implicit probability is 1 - 0 *)
Lemma expect_set x v s f : expect (exec_assign (ACat x [v] []) s) f = f (upd s x v).
Proof.
  cbn [exec_assign cat_weights app combine map fst snd]. rewrite expect_cons, expect_nil, qsum_nil. ring.
Qed.

Lemma expect_if_one c a els s f :
  expect (exec_stmt (SIf [(c, a)] els) s) f =
  if cond_true c s then expect (exec_assign a s) f
  else match els with Some a' => expect (exec_assign a' s) f | None => f s end.
Proof.
  cbn [exec_stmt exec_if]. destruct (cond_true c s); [reflexivity|].
  destruct els; [reflexivity | apply expect_single].
Qed.

(* one execution of the query statements is deterministic: ind := [c], inf := X_t * ind *)
Lemma exec_qs_exact m c t s f :
  expect (exec_body (qs_exact m c t) s) f =
  f (upd (upd s m (bnat (cond_true c s))) (S m)
         (upd s m (bnat (cond_true c s)) t * bnat (cond_true c s))).
Proof.
  unfold qs_exact. rewrite expect_body_cons, expect_if_one.
  destruct (cond_true c s); rewrite expect_set, expect_body_cons, expect_mul, expect_body_nil, upd_same;
    reflexivity.
Qed.

Section Exact.
  Variables (m : nat) (c : gcond) (t : nat).
  Hypothesis Ht : t < m.

  Lemma exact_inf_state s k :
    expect (exec_body (qs_exact m c t) s) (fun s' => qpow (qnat (s' (S m))) (S k)) =
    (ind (cond_true c s) * qpow (qnat (s t)) (S k))%Qc.
  Proof.
    rewrite exec_qs_exact, upd_same, upd_other by lia.
    destruct (cond_true c s); cbn [bnat ind].
    - rewrite Nat.mul_1_r. ring.
    - rewrite Nat.mul_0_r. cbn [qnat]. rewrite qpow_0_S. ring.
  Qed.

  Lemma exact_ind_state s :
    expect (exec_body (qs_exact m c t) s) (fun s' => qnat (s' m)) = ind (cond_true c s).
  Proof.
    rewrite exec_qs_exact, upd_other, upd_same by lia. apply qnat_bnat.
  Qed.

  (* for every distribution D over states at the point where the query statements start *)
  Theorem exact_inf_expect (D : dist) k :
    expect (bind D (exec_body (qs_exact m c t))) (fun s' => qpow (qnat (s' (S m))) (S k)) =
    expect D (fun s => (ind (cond_true c s) * qpow (qnat (s t)) (S k))%Qc).
  Proof.
    rewrite expect_bind. apply expect_ext. intros ws _. apply exact_inf_state.
  Qed.

  Theorem exact_ind_expect (D : dist) :
    expect (bind D (exec_body (qs_exact m c t))) (fun s' => qnat (s' m)) = mass D (cond_true c).
  Proof.
    rewrite expect_bind. unfold mass. apply expect_ext. intros ws _. apply exact_ind_state.
  Qed.

  (* E[inf^k] / E[ind] = E_D[X_t^k ; evidence] / P_D(evidence) = E_D[X_t^k | evidence] *)
  Theorem exact_inference_identity (D : dist) k :
    let D' := bind D (exec_body (qs_exact m c t)) in
    expect D' (fun s' => qpow (qnat (s' (S m))) (S k)) =
      expect D (fun s => (ind (cond_true c s) * qpow (qnat (s t)) (S k))%Qc) /\
    expect D' (fun s' => qnat (s' m)) = mass D (cond_true c) /\
    (mass D (cond_true c) <> 0%Qc ->
     (expect D' (fun s' => qpow (qnat (s' (S m))) (S k)) / expect D' (fun s' => qnat (s' m)))%Qc =
     (expect D (fun s => (ind (cond_true c s) * qpow (qnat (s t)) (S k))%Qc) / mass D (cond_true c))%Qc).
  Proof.
    cbv zeta. rewrite exact_inf_expect, exact_ind_expect. repeat split.
  Qed.
End Exact.

Fixpoint geom (r : Qc) (n : nat) : Qc :=
  match n with O => 1%Qc | S k => (geom r k + qpow r (S k))%Qc end.

Lemma geom_closed r n : ((1 - r) * geom r n = 1 - qpow r (S n))%Qc.
Proof.
  induction n as [|n IH].
  - cbn [geom qpow]. ring.
  - cbn [geom]. rewrite Qcmult_plus_distr_r, IH. cbn [qpow]. ring.
Qed.

(* one execution of the query statements: continue := continue * [not c]; count += continue *)
Lemma exec_qs_sample m c s f :
  expect (exec_body (qs_sample m c) s) f =
  f (let s1 := if cond_true c s then upd s (S m) 0 else s in upd s1 m (s1 m + s1 (S m))).
Proof.
  unfold qs_sample. rewrite expect_body_cons, expect_if_one. cbv zeta.
  destruct (cond_true c s); [rewrite expect_set|]; rewrite expect_body_cons, expect_add, expect_body_nil;
    reflexivity.
Qed.

Lemma sample_continue_state m c s :
  expect (exec_body (qs_sample m c) s) (fun s' => qnat (s' (S m))) =
  ((1 - ind (cond_true c s)) * qnat (s (S m)))%Qc.
Proof.
  rewrite exec_qs_sample. cbv zeta. rewrite upd_other by lia.
  destruct (cond_true c s); cbn [ind].
  - rewrite upd_same. cbn [qnat]. ring.
  - ring.
Qed.

Lemma sample_count_state m c s :
  expect (exec_body (qs_sample m c) s) (fun s' => qnat (s' m)) =
  (qnat (s m) + (1 - ind (cond_true c s)) * qnat (s (S m)))%Qc.
Proof.
  rewrite exec_qs_sample. cbv zeta. rewrite upd_same, qnat_add.
  destruct (cond_true c s); cbn [ind].
  - rewrite upd_same, upd_other by lia. cbn [qnat]. ring.
  - ring.
Qed.

Section Sampling.
  Variables (body : list gstmt) (m : nat) (c : gcond) (q : Qc).
  (* evidence probability of one body execution, from every start state *)
  Hypothesis Hq : forall s, mass (exec_body body s) (cond_true c) = q.
  Hypothesis Htot : forall s, expect (exec_body body s) (fun _ => 1%Qc) = 1%Qc.
  (* the body does not touch count / continue *)
  Hypothesis Hframe : forall s ws, In ws (exec_body body s) ->
                                   snd ws m = s m /\ snd ws (S m) = s (S m).

  Let loop := body ++ qs_sample m c.

  Lemma body_not_ev s : expect (exec_body body s) (fun s' => (1 - ind (cond_true c s'))%Qc) = (1 - q)%Qc.
  Proof.
    transitivity (expect (exec_body body s) (fun s' => (1 + (-(1)) * ind (cond_true c s'))%Qc)).
    - apply expect_ext. intros; ring.
    - rewrite expect_plus, expect_cmul, Htot. fold (mass (exec_body body s) (cond_true c)).
      rewrite Hq. ring.
  Qed.

  Lemma loop_continue_state s :
    expect (exec_body loop s) (fun s' => qnat (s' (S m))) = ((1 - q) * qnat (s (S m)))%Qc.
  Proof.
    unfold loop. rewrite exec_body_app.
    transitivity (expect (exec_body body s)
                         (fun s' => (qnat (s (S m)) * (1 - ind (cond_true c s')))%Qc)).
    - apply expect_ext. intros ws Hin. rewrite sample_continue_state.
      destruct (Hframe s ws Hin) as [_ E]. rewrite E. ring.
    - rewrite expect_cmul, body_not_ev. ring.
  Qed.

  Lemma loop_count_state s :
    expect (exec_body loop s) (fun s' => qnat (s' m)) =
    (qnat (s m) + (1 - q) * qnat (s (S m)))%Qc.
  Proof.
    unfold loop. rewrite exec_body_app.
    transitivity (expect (exec_body body s)
                         (fun s' => (qnat (s m) * 1 + qnat (s (S m)) * (1 - ind (cond_true c s')))%Qc)).
    - apply expect_ext. intros ws Hin. rewrite sample_count_state.
      destruct (Hframe s ws Hin) as [E1 E2]. rewrite E1, E2. ring.
    - rewrite expect_plus, !expect_cmul, body_not_ev, Htot. ring.
  Qed.

  (* n iterations from an arbitrary start distribution: linear in the start distribution *)
  Lemma sampling_continue_dist (d : dist) n :
    expect (iter_body loop n d) (fun s => qnat (s (S m))) =
    (qpow (1 - q) n * expect d (fun s => qnat (s (S m))))%Qc.
  Proof.
    induction n as [|n IH]; cbn [iter_body qpow].
    - ring.
    - rewrite expect_bind.
      rewrite (expect_ext _ _ (fun s => ((1 - q) * qnat (s (S m)))%Qc))
        by (intros ws _; apply loop_continue_state).
      rewrite expect_cmul, IH. ring.
  Qed.

  Lemma sampling_count_dist (d : dist) n :
    expect (iter_body loop n d) (fun s => qnat (s m)) =
    (expect d (fun s => qnat (s m)) + (geom (1 - q) n - 1) * expect d (fun s => qnat (s (S m))))%Qc.
  Proof.
    induction n as [|n IH]; cbn [iter_body geom].
    - ring.
    - rewrite expect_bind.
      rewrite (expect_ext _ _ (fun s => (qnat (s m) + (1 - q) * qnat (s (S m)))%Qc))
        by (intros ws _; apply loop_count_state).
      rewrite expect_plus, expect_cmul, IH, sampling_continue_dist. cbn [qpow]. ring.
  Qed.

  Section FromInit.
    Variable s0 : state.
    Hypothesis Hcount0 : s0 m = 1.
    Hypothesis Hcont0 : s0 (S m) = 1.

    Theorem sampling_continue_n n :
      expect (iter_body loop n [(1%Qc, s0)]) (fun s => qnat (s (S m))) = qpow (1 - q) n.
    Proof.
      rewrite sampling_continue_dist, expect_single, Hcont0, qnat_1. ring.
    Qed.

    Theorem sampling_count_n n :
      expect (iter_body loop n [(1%Qc, s0)]) (fun s => qnat (s m)) = geom (1 - q) n.
    Proof.
      rewrite sampling_count_dist, !expect_single, Hcount0, Hcont0, qnat_1. ring.
    Qed.
  End FromInit.

  Theorem sampling_closed_form n : (q * geom (1 - q) n = 1 - qpow (1 - q) (S n))%Qc.
  Proof.
    rewrite <- geom_closed. ring.
  Qed.
End Sampling.

Lemma init_state_app_two l a va b vb :
  init_state (l ++ [(a, va); (b, vb)]) = upd (upd (init_state l) a va) b vb.
Proof. unfold init_state. rewrite fold_left_app. reflexivity. Qed.

Lemma codegen_inv net q p :
  codegen net q = Some p ->
  exists body i qs, gen_body net = Some body /\ gen_query net q = Some (i, qs) /\
    g_init p = map (fun x => (x, 0)) (seq 0 (length net)) ++ i /\ g_body p = body ++ qs.
Proof.
  unfold codegen. destruct (gen_body net) as [body|]; cbn [obind]; [|discriminate].
  destruct (gen_query net q) as [[i qs]|]; cbn [obind]; [|discriminate].
  intros H. injection H as <-. exists body, i, qs. repeat split.
Qed.

(* the program generated for a sampling-time query has the shape assumed in Section Sampling,
   and its initial state has count = continue = 1 *)
Theorem codegen_sample_shape net ev p :
  codegen net (QSample ev) = Some p ->
  exists body c,
    gen_body net = Some body /\ resolve_evidence net ev = Some c /\ c <> [] /\
    (forall x v, In (x, v) c -> x < length net) /\
    g_body p = body ++ qs_sample (length net) c /\
    init_state (g_init p) (length net) = 1 /\
    init_state (g_init p) (S (length net)) = 1.
Proof.
  intros H. destruct (codegen_inv _ _ _ H) as [body [i [qs [Hb [Hq [-> ->]]]]]].
  destruct (gen_query_sample _ _ _ _ Hq) as [c [-> [Hc [Hne ->]]]].
  exists body, c. repeat split; try assumption.
  - apply (resolve_evidence_lt _ _ _ Hc).
  - rewrite init_state_app_two, upd_other, upd_same by lia. reflexivity.
  - rewrite init_state_app_two, upd_same. reflexivity.
Qed.

(* same for exact inference: target and evidence variables < m *)
Theorem codegen_exact_shape net tn ev p :
  codegen net (QExact tn ev) = Some p ->
  exists body c t,
    gen_body net = Some body /\ resolve_evidence net ev = Some c /\ c <> [] /\
    find_nvar net tn = Some t /\ t < length net /\
    (forall x v, In (x, v) c -> x < length net) /\
    g_body p = body ++ qs_exact (length net) c t.
Proof.
  intros H. destruct (codegen_inv _ _ _ H) as [body [i [qs [Hb [Hq [_ ->]]]]]].
  destruct (gen_query_exact _ _ _ _ _ Hq) as [t [c [-> [Hc [Ht [Hne _]]]]]].
  exists body, c, t. repeat split; try assumption.
  - apply (find_nvar_lt _ _ _ Ht).
  - apply (resolve_evidence_lt _ _ _ Hc).
Qed.
