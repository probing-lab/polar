(* C02, IfTransformer with UNCONDITIONAL auxiliary assignments (proposed_fixes/
   c18_auxiliary_assignments_unconditional.diff, in /repo since 0de310e): proof that the model [PassIf.if_flatten]
   preserves the semantics.  It is the rule of PassIfProof.v with [skip] = [aux] = [is_aux]:
   - an auxiliary assignment inside a branch that is not taken is executed: it writes only an
     auxiliary variable ([strengthen_skip]); a probabilistic right-hand side must have total
     mass 1 ([rhs_mass1], and mass 1 of the continuous laws);
   - the source run does not execute it, so afterwards the two runs differ on that auxiliary:
     the simulation relation carries the list Lv of auxiliaries known to be equal, and the
     hypothesis [live_ok] (every auxiliary is assigned before it is read, on every path and in
     every iteration) makes the difference unobservable ([fln_correct]). *)
From Coq Require Import List String Ascii QArith Qcanon ZArith Bool Arith Lia.
From Polar Require Import Qcx Dist DistBase Syntax Sem Types Poly PassGuard PassIf PassIfProof.
Import ListNotations.
Local Open Scope Qc_scope.

(* right-hand sides of total mass 1, decided on the syntax: probabilities sum to 1 as polynomials *)
Fixpoint esum (l : list expr) : expr :=
  match l with [] => EConst 0 | e :: l' => EAdd e (esum l') end.
Definition sums_to_one (l : list expr) : bool := pzero (psub (of_expr (esum l)) (pconst 1)).
Definition rhs_mass1 (r : rhs) : bool :=
  match r with
  | RChoice alts => sums_to_one (map fst alts)
  | RDraw (DBern _) => true
  | RDraw (DCat ps) => sums_to_one ps
  | RDraw (DUnif a b) => Z.leb a b
  | RDraw (DCont _ _) => true
  end.
Fixpoint mass_stmt (st : stmt) : bool :=
  match st with
  | SAssign x r => negb (is_aux x) || rhs_mass1 r
  | SSimult _ => true
  | SIf bs els => mass_branches bs && mass_block els
  end
with mass_block (b : block) : bool :=
  match b with BNil => true | BCons st b' => mass_stmt st && mass_block b' end
with mass_branches (bs : branches) : bool :=
  match bs with BrNil => true | BrCons _ b bs' => mass_block b && mass_branches bs' end.

(* the boolean hypotheses of the theorem *)
Definition aux_ok (b : block) : bool := wf_block b && mass_block b && live_ok b.
Definition aux_ok_prog (p : prog) : bool := aux_ok (p_init p) && aux_ok (p_body p).

Lemma sums_to_one_sound l : sums_to_one l = true -> forall s, eval (esum l) s = 1.
Proof.
  intros H s. pose proof (pzero_psub_sound _ _ H s) as H0. rewrite eval_of_expr, eval_pconst in H0. exact H0.
Qed.

Lemma is_aux_gen x : is_aux x = false -> is_gen x = false.
Proof. unfold is_aux. intros H. apply orb_false_iff in H. destruct H as [H _]. apply orb_false_iff in H. apply H. Qed.
Lemma is_aux_old k : is_aux (old_name k) = true.
Proof. unfold is_aux. rewrite is_gen_old. reflexivity. Qed.

Section Aux.
  Variable law : string -> list Qc -> dist Qc.
  Hypothesis law_mass : forall f args, mass (law f args) = 1.

  Lemma E_choice_const alts s c :
    E (map (fun pe : expr * expr => (eval (fst pe) s, eval (snd pe) s)) alts) (fun _ => c) = eval (esum (map fst alts)) s * c.
  Proof. induction alts as [|[p e] alts IH]; cbn [map E esum eval fst snd]; [ring | rewrite IH; ring]. Qed.
  Lemma E_cat_const ps s c : forall i,
    E (cat_law (map (fun e => eval e s) ps) i) (fun _ => c) = eval (esum ps) s * c.
  Proof. induction ps as [|p ps IH]; intros i; cbn [map cat_law E esum eval]; [ring | rewrite IH; ring]. Qed.
  Lemma E_unif_const w n c : forall a, E (unif_law w a n) (fun _ => c) = qnat n * w * c.
  Proof. induction n as [|n IH]; intros a; cbn [unif_law E]; [cbn [qnat]; ring | rewrite IH, qnat_S; ring]. Qed.

  Lemma mass_sample r : rhs_mass1 r = true -> forall s c, E (sample law r s) (fun _ => c) = c.
  Proof.
    destruct r as [alts|d]; cbn [rhs_mass1 sample]; intros H s c.
    - rewrite E_choice_const, (sums_to_one_sound _ H). ring.
    - destruct d as [p|ps|a b|f args]; cbn [draw_law].
      + cbn [E]. ring.
      + rewrite E_cat_const, (sums_to_one_sound _ H). ring.
      + apply Z.leb_le in H. rewrite E_unif_const.
        destruct (Z.to_nat (b - a + 1)) as [|m] eqn:En; [lia|].
        rewrite (Qcmult_inv_r (qnat (S m))) by apply qnat_S_neq0. ring.
      + rewrite E_const, law_mass. ring.
  Qed.
End Aux.

Section AuxProof.
  Variable law : string -> list Qc -> dist Qc.
  Hypothesis law_mass : forall f args, mass (law f args) = 1.

  Lemma assigned_in_vars :
    (forall st, incl (assigned_stmt st) (stmt_vars st)) /\ (forall b, incl (assigned_block b) (block_vars b))
    /\ (forall bs, incl (assigned_branches bs) (branches_vars bs)).
  Proof.
    apply stmt_block_branches_ind.
    - intros x r y [<-|[]]. left; reflexivity.
    - intros l y Hy. cbn [assigned_stmt stmt_vars] in *. apply in_map_iff in Hy. destruct Hy as [[x r] [<- Hin]].
      apply in_flat_map. exists (x, r). split; [exact Hin | left; reflexivity].
    - intros bs IHbs els IHels. cbn [assigned_stmt stmt_vars]. apply incl_app; [apply incl_appl, IHbs | apply incl_appr, IHels].
    - intros y [].
    - intros st IHst b IHb. cbn [assigned_block block_vars]. apply incl_app; [apply incl_appl, IHst | apply incl_appr, IHb].
    - intros y [].
    - intros c b IHb bs IHbs. cbn [assigned_branches branches_vars].
      apply incl_appr, incl_app; [apply incl_appl, IHb | apply incl_appr, IHbs].
  Qed.

  Lemma readable_vis Lv x : readable Lv x = true -> vis is_aux Lv x.
  Proof.
    unfold readable. intros H. apply orb_true_iff in H.
    destruct H as [H|H]; [left; apply negb_true_iff, H | right; apply mem_In, H].
  Qed.

  (* what the liveness pass returns: nothing but Lv and the assigned variables, and all of Lv that is not assigned *)
  Definition lv_fact (A Lv Lv' : list var) : Prop :=
    (forall x, In x Lv' -> In x Lv \/ In x A) /\ (forall x, In x Lv -> ~ In x A -> In x Lv').

  Lemma forget_In A Lv x : In x (filter (fun x => negb (mem x A)) Lv) <-> In x Lv /\ ~ In x A.
  Proof. rewrite filter_In, negb_true_iff, mem_nIn. reflexivity. Qed.

  Lemma lv_facts :
    (forall st Lv Lv', lv_stmt Lv st = Some Lv' -> lv_fact (assigned_stmt st) Lv Lv')
    /\ (forall b Lv Lv', lv_block Lv b = Some Lv' -> lv_fact (assigned_block b) Lv Lv')
    /\ (forall bs : branches, True).
  Proof.
    apply stmt_block_branches_ind.
    - intros x r Lv Lv' H. cbn [lv_stmt] in H. destruct (forallb (readable Lv) (rhs_vars r)); [|discriminate].
      inversion H; subst Lv'. cbn [assigned_stmt]. split.
      + intros y Hy. destruct (is_aux x); [destruct Hy as [<-|Hy]; [right; left; reflexivity | left; exact Hy] | left; exact Hy].
      + intros y Hy _. destruct (is_aux x); [right; exact Hy | exact Hy].
    - intros l Lv Lv' H. discriminate.
    - intros bs _ els _ Lv Lv' H. cbn [lv_stmt] in H.
      match type of H with (if ?c then _ else _) = _ => destruct c end; [|discriminate].
      inversion H; subst Lv'. split; intros x; rewrite forget_In; [intros Hx; left; apply Hx | intros Hx Hn; split; assumption].
    - intros Lv Lv' H. inversion H; subst. split; [intros x Hx; left; exact Hx | intros x Hx _; exact Hx].
    - intros st IHst b IHb Lv Lv' H. cbn [lv_block] in H. destruct (lv_stmt Lv st) as [Lv1|] eqn:E1; [|discriminate].
      destruct (IHst _ _ E1) as [A1 B1]. destruct (IHb _ _ H) as [A2 B2]. cbn [assigned_block]. split.
      + intros x Hx. destruct (A2 x Hx) as [Hx1|Hx1]; [|right; apply in_or_app; right; exact Hx1].
        destruct (A1 x Hx1) as [Hx2|Hx2]; [left; exact Hx2 | right; apply in_or_app; left; exact Hx2].
      + intros x Hx Hn. apply B2; [apply B1; [exact Hx|] |]; intros Hin; apply Hn; apply in_or_app; auto.
    - exact I.
    - intros; exact I.
  Qed.

  (* Lv: auxiliaries that hold the same value in both runs before the statement, Lv' after it;
     the flat list writes assigned variables of the source and generated names only *)
  Definition flat_new (A : list var) (k : nat) (Lv Lv' : list var) (l : list gassign) (D : state -> dist state) : Prop :=
    flat_ok law is_aux is_aux A k Lv Lv' l D.

  Lemma fln_correct :
    (forall st k l k' Lv Lv',
       fln_stmt k st = Some (l, k') -> wf_vars (stmt_vars st) = true -> mass_stmt st = true ->
       lv_stmt Lv st = Some Lv' -> nongen Lv ->
       (k <= k')%nat /\ flat_new (assigned_stmt st) k' Lv Lv' l (exec_stmt law st))
    /\ (forall b k l k' Lv Lv',
       fln_block k b = Some (l, k') -> wf_vars (block_vars b) = true -> mass_block b = true ->
       lv_block Lv b = Some Lv' -> nongen Lv ->
       (k <= k')%nat /\ flat_new (assigned_block b) k' Lv Lv' l (exec_block law b))
    /\ (forall bs k brs k' Lv Lv0,
       fln_branches k bs = Some (brs, k') -> wf_vars (branches_vars bs) = true -> mass_branches bs = true ->
       forallb (readable Lv) (flat_map cvars (br_conds bs)) = true ->
       lvb_branches Lv0 bs = true -> nongen Lv0 ->
       (forall x, In x Lv0 -> ~ In x (assigned_branches bs)) ->
       (k <= k')%nat /\ branches_ok law is_aux is_aux (assigned_branches bs) k' Lv Lv0 bs brs).
  Proof.
    destruct assigned_in_vars as [Hav_s [Hav_b Hav_bs]]. destruct lv_facts as [Hlv_s [Hlv_b _]].
    apply stmt_block_branches_ind.
    - intros x r k l k' Lv Lv' H Hwf Hmass Hlv HLg. cbn [fln_stmt] in H. injection H as <- <-.
      cbn [lv_stmt] in Hlv.
      destruct (forallb (readable Lv) (rhs_vars r)) eqn:Er; [|discriminate]. injection Hlv as <-.
      rewrite forallb_forall in Er. split; [lia|]. apply flat_ok_assign.
      + intros y Hy. apply readable_vis, Er, Hy.
      + intros Ha t c. cbn [mass_stmt] in Hmass. rewrite Ha in Hmass. apply (mass_sample law law_mass r Hmass).
      + left; reflexivity.
      + destruct (is_aux x); [apply incl_refl | apply incl_tl, incl_refl].
    - intros l k l' k' Lv Lv' H. cbn [fln_stmt] in H. discriminate.
    - intros bs IHbs els IHels k l k' Lv Lv' H Hwf Hmass Hlv HLg. cbn [fln_stmt] in H.
      destruct (fln_branches k bs) as [[brs k1]|] eqn:E1; [|discriminate].
      destruct (fln_block k1 els) as [[le k2]|] eqn:E2; [|discriminate]. injection H as Hfl.
      cbn [stmt_vars] in Hwf. destruct (wf_vars_app _ _ Hwf) as [Hwf1 Hwf2].
      destruct (andb_prop _ _ Hmass) as [Hm1 Hm2].
      cbn [lv_stmt] in Hlv.
      set (A := assigned_branches bs ++ assigned_block els) in *.
      set (Lv0 := filter (fun x => negb (mem x A)) Lv) in *.
      destruct (forallb (readable Lv) (flat_map cvars (br_conds bs))) eqn:Erd; [|discriminate].
      destruct (lvb_branches Lv0 bs) eqn:Elb; [|discriminate].
      destruct (lv_block Lv0 els) as [Lve|] eqn:Ele; [|discriminate]. cbn in Hlv. injection Hlv as <-.
      (* what the statement forgets: Lv0 is the part of Lv that no branch assigns *)
      pose proof (fun x => proj1 (forget_In A Lv x)) as HL0.
      assert (HL0g : nongen Lv0) by (intros x Hx; apply HLg, (HL0 x Hx)).
      destruct (IHbs k brs k1 Lv Lv0 E1 Hwf1 Hm1 Erd Elb HL0g) as [Hk1 Hbrs].
      { intros x Hx Hin. apply (HL0 x Hx). apply in_or_app. left; exact Hin. }
      destruct (IHels k1 le k2 Lv0 Lve E2 Hwf2 Hm2 Ele HL0g) as [Hk2 Hels].
      rewrite flatten_new_rule in Hfl.
      destruct (flatten_stmt_sim law is_aux is_aux (fun _ H => H) is_aux_gen Hfl Hbrs Hels Hk2) as [Hk' Hok].
      + intros x Hx. apply (HL0 x Hx).
      + intros x Hx. apply (proj2 (Hlv_b _ _ _ Ele)); [exact Hx|].
        intros Hin. apply (HL0 x Hx). apply in_or_app. right; exact Hin.
      + exact HLg.
      + intros y Hy. split; [|intros Hin; exact (proj2 (HL0 y Hin) Hy)].
        apply (wf_vars_In _ y Hwf). apply in_app_or in Hy. apply in_or_app.
        destruct Hy; [left; apply Hav_bs | right; apply Hav_b]; assumption.
      + split; [lia | exact Hok].
    - intros k l k' Lv Lv' H _ _ Hlv _. cbn [fln_block] in H. injection H as <- <-. injection Hlv as <-.
      split; [lia | apply flat_ok_nil].
    - intros st IHst b IHb k l k' Lv Lv' H Hwf Hmass Hlv HLg. cbn [fln_block] in H.
      destruct (fln_stmt k st) as [[l1 k1]|] eqn:E1; [|discriminate].
      destruct (fln_block k1 b) as [[l2 k2]|] eqn:E2; [|discriminate]. injection H as <- <-.
      destruct (wf_vars_app _ _ Hwf) as [Hwf1 Hwf2].
      destruct (andb_prop _ _ Hmass) as [Hm1 Hm2].
      cbn [lv_block] in Hlv. destruct (lv_stmt Lv st) as [Lv1|] eqn:El1; [|discriminate].
      assert (HLg1 : nongen Lv1).
      { intros x Hx. destruct (proj1 (Hlv_s _ _ _ El1) x Hx) as [H1|H1]; [apply HLg; exact H1|].
        eapply wf_vars_In; [exact Hwf1 | apply Hav_s; exact H1]. }
      destruct (IHst k l1 k1 Lv Lv1 E1 Hwf1 Hm1 El1 HLg) as [Hk1 Hs1].
      destruct (IHb k1 l2 k2 Lv1 Lv' E2 Hwf2 Hm2 Hlv HLg1) as [Hk2 Hs2].
      split; [lia | exact (flat_ok_app law is_aux is_aux Hs1 Hs2 Hk2)].
    - intros k brs k' Lv Lv0 H _ _ _ _ _ _. cbn [fln_branches] in H. injection H as <- <-.
      split; [lia | apply branches_ok_nil].
    - intros c b IHb bs IHbs k brs k' Lv Lv0 H Hwf Hmass Hrd Hlv HLg HLA. cbn [fln_branches] in H.
      destruct (fln_block k b) as [[l k1]|] eqn:E1; [|discriminate].
      destruct (fln_branches k1 bs) as [[brs0 k2]|] eqn:E2; [|discriminate]. injection H as <- <-.
      destruct (wf_vars_app _ _ Hwf) as [Hwc Hwf']. destruct (wf_vars_app _ _ Hwf') as [Hwb Hwbs].
      destruct (andb_prop _ _ Hmass) as [Hm1 Hm2].
      cbn [br_conds flat_map] in Hrd. rewrite forallb_app in Hrd. destruct (andb_prop _ _ Hrd) as [Hrc Hrd'].
      cbn [lvb_branches] in Hlv. destruct (andb_prop _ _ Hlv) as [Hl1 Hl2].
      destruct (lv_block Lv0 b) as [Lvb|] eqn:Elb; [|discriminate].
      cbn [assigned_branches] in HLA. rewrite forallb_forall in Hrc.
      destruct (IHb k l k1 Lv0 Lvb E1 Hwb Hm1 Elb HLg) as [Hk1 Hs].
      destruct (IHbs k1 brs0 k2 Lv Lv0 E2 Hwbs Hm2 Hrd' Hl2 HLg) as [Hk2 Hbrs].
      { intros x Hx Hin. apply (HLA x Hx). apply in_or_app. right; exact Hin. }
      split; [lia|].
      apply (branches_ok_cons law is_aux is_aux Hs Hbrs Hk2).
      + intros x Hx. apply readable_vis, Hrc, Hx.
      + intros x Hx. apply (proj2 (Hlv_b _ _ _ Elb)); [exact Hx|].
        intros Hin. apply (HLA x Hx). apply in_or_app. left; exact Hin.
      + apply incl_refl.
  Qed.

  Definition agreeA (s t : state) : Prop := forall x, is_aux x = false -> t x = s x.
  Definition blindA (f : state -> Qc) : Prop := forall s t, agreeA s t -> f t = f s.

  Lemma aux_ok_parts b : aux_ok b = true ->
    wf_vars (block_vars b) = true /\ mass_block b = true /\ exists Lv', lv_block [] b = Some Lv'.
  Proof.
    unfold aux_ok, wf_block, live_ok. intros H. apply andb_true_iff in H. destruct H as [H H3].
    apply andb_true_iff in H. destruct H as [H1 H2]. split; [exact H1|]. split; [exact H2|].
    destruct (lv_block [] b) as [Lv'|]; [exists Lv'; reflexivity | discriminate].
  Qed.

  Lemma if_flatten_simA k b l k' : if_flatten k b = Some (l, k') -> aux_ok b = true ->
    forall s t, agreeA s t -> forall g h, (forall s' t', agreeA s' t' -> g t' = h s') ->
      E (exec_gas law l t) g = E (exec_block law b s) h.
  Proof.
    intros H Hok s t Hag g h Hgh. destruct (aux_ok_parts b Hok) as [Hwf [Hm [Lv' Hlv]]].
    destruct fln_correct as [_ [Hb _]].
    destruct (Hb b k l k' [] Lv' H Hwf Hm Hlv (fun x (F : In x []) => match F with end)) as [_ [_ [_ Hs]]].
    apply Hs.
    - intros x [Hx|[]]. apply Hag, Hx.
    - intros t' s' Hag' _. apply Hgh. intros x Hx. apply Hag'. left; exact Hx.
  Qed.

  Theorem if_flatten_block_preserves k b l k' :
    if_flatten k b = Some (l, k') -> aux_ok b = true ->
    forall s t, agreeA s t -> forall f, blindA f ->
      E (exec_gas law l t) f = E (exec_block law b s) f.
  Proof. intros H Hok s t Hag f Hf. eapply if_flatten_simA; eauto. Qed.

  Theorem if_flatten_preserves k p fp k' :
    if_flatten_prog k p = Some (fp, k') -> aux_ok_prog p = true ->
    forall n s0 t0, agreeA s0 t0 -> forall f, blindA f ->
      E (frun law fp n t0) f = E (run law p n s0) f.
  Proof.
    unfold if_flatten_prog, aux_ok_prog. intros H Hok.
    destruct (p_guard p) eqn:Eg; try discriminate.
    destruct (if_flatten k (p_init p)) as [[li k1]|] eqn:Ei; [|discriminate].
    destruct (if_flatten k1 (p_body p)) as [[lb k2]|] eqn:Eb; [|discriminate]. inversion H; subst fp k'. clear H.
    apply andb_true_iff in Hok. destruct Hok as [Hoi Hob].
    intros n s0 t0 Hag f Hf.
    exact (run_sim law agreeA p li lb Eg (if_flatten_simA _ _ _ _ Ei Hoi) (if_flatten_simA _ _ _ _ Eb Hob) n s0 t0 Hag f f Hf).
  Qed.
End AuxProof.
