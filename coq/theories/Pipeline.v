(* Composition (C01, C03): if the type environment is validated (C05), the linear system is
   an exact one-step identity on typed states (C03) and the closed form is validated against
   the system (C04), then the closed form equals the exact moments at EVERY n. *)
From Coq Require Import List String QArith Qcanon ZArith Bool Ring.
From Polar Require Import Qcx CRing ExpPoly ClosedForm Dist Syntax Sem Types.
Import ListNotations.
Local Open Scope Qc_scope.

Section Pipeline.
  Variable law : string -> list Qc -> dist Qc.

  Notation vecQ := (list Qc).
  Definition dotQ : list Qc -> list Qc -> Qc := @dot Qc_cring.
  Definition mvecQ : list (list Qc) -> list Qc -> list Qc := @mvec Qc_cring.

  Definition mono_vals (ms : list mono) (s : state) : vecQ := map (fun m => eval_mono m s) ms.
  Definition moments_vec (fp : flatprog) (ms : list mono) (n : nat) (s0 : state) : vecQ :=
    map (fun m => E (frun law fp n s0) (eval_mono m)) ms.

  (* C03's statement for one system: on every typed state the expected value of each
     monomial after one execution of the body is its matrix row applied to the monomials *)
  Definition one_step_exact (fp : flatprog) (T : tenv) (ms : list mono) (A : list (list Qc)) : Prop :=
    List.length A = List.length ms /\
    forall s, typed T s -> forall m r, In (m, r) (combine ms A) ->
      E (fstep law fp s) (eval_mono m) = dotQ r (mono_vals ms s).

  (* What the flat and the source loop share: a system (ms, A) gives, on every state
     satisfying P, the expected value of each of its monomials after [step]; a chain
     run (S n) = bind (run n) step that stays within P then has moments following A.
     By unfolding, [one_step_exact fp T] is [exact_on (typed T) (fstep law fp)] and
     [moments_vec fp ms n s0] is [moments_of (frun law fp n s0) ms]: the statements about
     flat programs below are the chain lemmas at these. *)
  Definition exact_on (P : state -> Prop) (step : state -> dist state)
             (ms : list mono) (A : list (list Qc)) : Prop :=
    List.length A = List.length ms /\
    forall s, P s -> forall m r, In (m, r) (combine ms A) ->
      E (step s) (eval_mono m) = dotQ r (mono_vals ms s).
  Definition moments_of (d : dist state) (ms : list mono) : vecQ := map (fun m => E d (eval_mono m)) ms.

  Lemma E_dot_mono_vals (d : dist state) r ms :
    E d (fun s => dotQ r (mono_vals ms s)) = dotQ r (moments_of d ms).
  Proof.
    revert ms; induction r as [|c r IH]; intros [|m ms]; simpl; try apply E_zero.
    unfold dotQ in *; simpl. rewrite E_add, E_cmul, IH. reflexivity.
  Qed.

  Lemma map_combine_eq {X Y Z} (f : X -> Z) (g : Y -> Z) (l1 : list X) (l2 : list Y) :
    List.length l2 = List.length l1 ->
    (forall a b, In (a, b) (combine l1 l2) -> f a = g b) -> map f l1 = map g l2.
  Proof.
    revert l2; induction l1 as [|a l1 IH]; intros [|b l2]; simpl; intros Hl H; try discriminate; auto.
    f_equal; [apply H; left; reflexivity | apply IH; [congruence | intros; apply H; right; assumption]].
  Qed.

  Lemma moments_bind P step ms A (d : dist state) :
    exact_on P step ms A -> (forall s, supp d s -> P s) ->
    moments_of (bind d step) ms = mvecQ A (moments_of d ms).
  Proof.
    intros [Hlen Hex] Hd. apply map_combine_eq; [exact Hlen|].
    intros m r Hin. rewrite E_bind, <- E_dot_mono_vals.
    apply E_ext_in. intros w s Hs. apply (Hex s); [apply Hd; exists w; exact Hs | exact Hin].
  Qed.

  Lemma moments_chain P step ms A (run : nat -> dist state) :
    exact_on P step ms A -> (forall n, run (S n) = bind (run n) step) ->
    (forall n s, supp (run n) s -> P s) ->
    forall n, moments_of (run n) ms = iter_mat (R := Qc_cring) A n (moments_of (run O) ms).
  Proof.
    intros Hex Hrun HP n; induction n as [|n IH]; [reflexivity|].
    rewrite Hrun, (moments_bind P step ms A (run n) Hex (HP n)), IH. reflexivity.
  Qed.

  (* a closed form validated against the system and the initial moments is the moments *)
  Lemma closed_form_chain P step ms A (run : nat -> dist state) F sp :
    exact_on P step ms A -> (forall n, run (S n) = bind (run n) step) ->
    (forall n s, supp (run n) s -> P s) ->
    check_solution (R := Qc_cring) A (moments_of (run O) ms) F sp = true ->
    forall n, pw_eval (R := Qc_cring) F sp n = moments_of (run n) ms.
  Proof.
    intros Hex Hrun HP Hcs n. rewrite (check_solution_sound Qc_cring _ _ _ _ Hcs n).
    symmetry. apply (moments_chain P step); assumption.
  Qed.

  Lemma moments_step fp T ms A :
    check_types fp T = true -> one_step_exact fp T ms A ->
    forall s0, init_ok fp T s0 ->
    forall n, moments_vec fp ms (S n) s0 = mvecQ A (moments_vec fp ms n s0).
  Proof.
    intros HT Hex s0 H0 n.
    exact (moments_bind (typed T) (fstep law fp) ms A (frun law fp n s0) Hex
             (check_types_sound law fp T HT s0 H0 n)).
  Qed.

  Lemma moments_iter fp T ms A :
    check_types fp T = true -> one_step_exact fp T ms A ->
    forall s0, init_ok fp T s0 ->
    forall n, moments_vec fp ms n s0 = iter_mat (R := Qc_cring) A n (moments_vec fp ms 0 s0).
  Proof.
    intros HT Hex s0 H0.
    exact (moments_chain (typed T) (fstep law fp) ms A (fun n => frun law fp n s0) Hex
             (fun n => eq_refl) (check_types_sound law fp T HT s0 H0)).
  Qed.

  (* the composition: validated types + exact system + validated closed form
     => the closed form (with its special cases) IS the vector of exact moments, for all n *)
  Theorem pipeline_flat_sound fp T ms A F sp :
    check_types fp T = true ->
    one_step_exact fp T ms A ->
    forall s0, init_ok fp T s0 ->
    check_solution (R := Qc_cring) A (moments_vec fp ms 0 s0) F sp = true ->
    forall n, pw_eval (R := Qc_cring) F sp n = moments_vec fp ms n s0.
  Proof.
    intros HT Hex s0 H0.
    exact (closed_form_chain (typed T) (fstep law fp) ms A (fun n => frun law fp n s0) F sp Hex
             (fun n => eq_refl) (check_types_sound law fp T HT s0 H0)).
  Qed.
End Pipeline.
