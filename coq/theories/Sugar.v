(* C19 — the source-level sugar of Polar's input language means what the parser turns it
   into, under the reference semantics Sem.v, for ALL programs / states / test functions:
     elif chains            = nested else-if
     simultaneous assignment = assign fresh temporaries, then copy back   (structure_transformer._assign_simult)
     omitted last probability = 1 - (sum of the listed ones)               (structure_transformer._assign_categorical)
   and a choice is a probability law iff its constant probabilities are >= 0 and sum to <= 1;
   the model of PolyAssignment.__init__ accepts a constant vector iff it is one of those (the
   constructor before /repo commit 626892e accepted every vector). *)
From Coq Require Import String List QArith Qcanon ZArith Bool Lia.
From Polar Require Import Qcx Dist Syntax Sem.
Import ListNotations.
Local Open Scope Qc_scope.

Section WithLaw.
  Variable law : string -> list Qc -> dist Qc.

  (* the nested form: each elif becomes an if in the else block of the previous one *)
  Fixpoint nest (bs : branches) (els : block) : block :=
    match bs with
    | BrNil => els
    | BrCons c b bs' => BCons (SIf (BrCons c b BrNil) (nest bs' els)) BNil
    end.

  Theorem elif_is_nested_else_if : forall bs els s (f : state -> Qc),
    E (exec_stmt law (SIf bs els) s) f = E (exec_block law (nest bs els) s) f.
  Proof.
    induction bs as [|c b bs IH]; intros els s f.
    - reflexivity.
    - cbn [nest]. rewrite E_block_single, !exec_stmt_if_cons, exec_stmt_if_nil.
      destruct (holds c s); [reflexivity | apply IH].
  Qed.

  (* one step, in the shape of the property text: if/elif.../else = if/else{ if.../else } *)
  Corollary elif_one_step : forall c b bs els s (f : state -> Qc),
    E (exec_stmt law (SIf (BrCons c b bs) els) s) f =
    E (exec_stmt law (SIf (BrCons c b BrNil) (BCons (SIf bs els) BNil)) s) f.
  Proof.
    intros. rewrite !exec_stmt_if_cons, exec_stmt_if_nil. destruct (holds c s); [reflexivity|].
    symmetry. apply E_block_single.
  Qed.

  Fixpoint evars (e : expr) : list var :=
    match e with
    | EConst _ => []
    | EVar x => [x]
    | EAdd a b | EMul a b => evars a ++ evars b
    | EPow a _ => evars a
    end.
  Definition dvars (d : draw) : list var :=
    match d with
    | DBern p => evars p
    | DCat ps => flat_map evars ps
    | DUnif _ _ => []
    | DCont _ args => flat_map evars args
    end.
  Definition rvars (r : rhs) : list var :=
    match r with
    | RChoice alts => flat_map (fun pe => evars (fst pe) ++ evars (snd pe)) alts
    | RDraw d => dvars d
    end.

  Lemma eval_agree e s s' : (forall x, In x (evars e) -> s x = s' x) -> eval e s = eval e s'.
  Proof.
    induction e; simpl; intros H; try reflexivity.
    - apply H. left. reflexivity.
    - rewrite IHe1, IHe2; [reflexivity | |]; intros x Hx; apply H; apply in_or_app; auto.
    - rewrite IHe1, IHe2; [reflexivity | |]; intros x Hx; apply H; apply in_or_app; auto.
    - rewrite IHe; [reflexivity | exact H].
  Qed.

  Lemma map_eval_agree es s s' :
    (forall x, In x (flat_map evars es) -> s x = s' x) -> map (fun e => eval e s) es = map (fun e => eval e s') es.
  Proof.
    intros H. apply map_ext_in. intros e He. apply eval_agree. intros x Hx. apply H.
    apply in_flat_map. exists e. split; assumption.
  Qed.

  Lemma sample_agree r s s' : (forall x, In x (rvars r) -> s x = s' x) -> sample law r s = sample law r s'.
  Proof.
    destruct r as [alts | d]; simpl; intros H.
    - apply map_ext_in. intros [p e] Hin. simpl.
      rewrite (eval_agree p s s'), (eval_agree e s s'); [reflexivity | |];
        intros x Hx; apply H; apply in_flat_map; exists (p, e); (split; [exact Hin|]); simpl; apply in_or_app; auto.
    - destruct d as [p | ps | a b | fam args]; simpl in *.
      + rewrite (eval_agree p s s' H). reflexivity.
      + rewrite (map_eval_agree ps s s' H). reflexivity.
      + reflexivity.
      + rewrite (map_eval_agree args s s' H). reflexivity.
  Qed.

  Fixpoint samples (rs : list rhs) (s : state) : dist (list Qc) :=
    match rs with
    | [] => ret []
    | r :: rs' => bind (sample law r s) (fun v => bind (samples rs' s) (fun vs => ret (v :: vs)))
    end.
  Fixpoint upds (t : state) (xs : list var) (vs : list Qc) : state :=
    match xs, vs with
    | x :: xs', v :: vs' => upds (upd t x v) xs' vs'
    | _, _ => t
    end.

  Lemma simult_samples : forall l s t (f : state -> Qc),
    E (exec_simult law l s t) f = E (samples (map snd l) s) (fun vs => f (upds t (map fst l) vs)).
  Proof.
    induction l as [|[x r] l IH]; intros s t f; cbn [exec_simult samples map fst snd].
    - rewrite !E_ret. reflexivity.
    - rewrite !E_bind. apply E_ext. intros v. rewrite IH, E_bind. apply E_ext. intros vs.
      rewrite E_ret. reflexivity.
  Qed.

  Lemma samples_length : forall rs s vs, supp (samples rs s) vs -> length vs = length rs.
  Proof.
    induction rs as [|r rs IH]; intros s vs H; cbn [samples] in H.
    - apply supp_ret in H. subst. reflexivity.
    - apply supp_bind in H. destruct H as (v & _ & H).
      apply supp_bind in H. destruct H as (vs' & Hvs & H).
      apply supp_ret in H. subst. simpl. rewrite (IH s vs' Hvs). reflexivity.
  Qed.

  Definition copy (x t : var) : stmt := SAssign x (RDet (EVar t)).
  Fixpoint assign_temps (l : list (var * rhs)) (ts : list var) : list stmt :=
    match l, ts with
    | (_, r) :: l', t :: ts' => SAssign t r :: assign_temps l' ts'
    | _, _ => []
    end.
  Fixpoint copy_back (l : list (var * rhs)) (ts : list var) : list stmt :=
    match l, ts with
    | (x, _) :: l', t :: ts' => copy x t :: copy_back l' ts'
    | _, _ => []
    end.
  (* what _assign_simult returns: assignments1 + assignments2 *)
  Definition temps_block (l : list (var * rhs)) (ts : list var) : block :=
    block_of_list (assign_temps l ts ++ copy_back l ts).

  Lemma exec_list_app : forall l1 l2 s (f : state -> Qc),
    E (exec_block law (block_of_list (l1 ++ l2)) s) f =
    E (exec_block law (block_of_list l1) s) (fun s' => E (exec_block law (block_of_list l2) s') f).
  Proof.
    induction l1 as [|st l1 IH]; intros l2 s f; cbn [app block_of_list exec_block].
    - rewrite E_ret. reflexivity.
    - rewrite !E_bind. apply E_ext. intros a. apply IH.
  Qed.

  Definition agree_off (T : list var) (a b : state) : Prop := forall y, ~ In y T -> a y = b y.

  Lemma upds_off : forall xs vs s y, ~ In y xs -> upds s xs vs y = s y.
  Proof.
    induction xs as [|x xs IH]; intros vs s y H; [reflexivity|].
    destruct vs as [|v vs]; [reflexivity|]. cbn [upds]. rewrite IH.
    - apply upd_other. intros ->. apply H. left. reflexivity.
    - intros Hin. apply H. right. exact Hin.
  Qed.

  Lemma upds_agree T : forall xs vs a b, agree_off T a b -> agree_off T (upds a xs vs) (upds b xs vs).
  Proof.
    induction xs as [|x xs IH]; intros vs a b H; [exact H|].
    destruct vs as [|v vs]; [exact H|]. cbn [upds]. apply IH.
    intros y Hy. unfold upd. destruct (var_eqb y x); [reflexivity | apply H; exact Hy].
  Qed.

  Lemma map_upds_self : forall ts vs s, NoDup ts -> length vs = length ts -> map (upds s ts vs) ts = vs.
  Proof.
    induction ts as [|t ts IH]; intros vs s Hnd Hlen; destruct vs as [|v vs]; try discriminate Hlen; [reflexivity|].
    inversion Hnd as [|? ? Hnotin Hnd']; subst. cbn [upds map]. f_equal.
    - rewrite upds_off; [apply upd_same | exact Hnotin].
    - apply IH; [exact Hnd' | simpl in Hlen; lia].
  Qed.

  Lemma assign_temps_sem s0 : forall l ts cur (g : state -> Qc),
    length ts = length l ->
    (forall r x, In r (map snd l) -> In x (rvars r) -> ~ In x ts /\ cur x = s0 x) ->
    E (exec_block law (block_of_list (assign_temps l ts)) cur) g =
    E (samples (map snd l) s0) (fun vs => g (upds cur ts vs)).
  Proof.
    induction l as [|[x r] l IH]; intros ts cur g Hlen Hread; destruct ts as [|t ts]; try discriminate Hlen.
    - cbn [assign_temps block_of_list exec_block map samples]. rewrite !E_ret. reflexivity.
    - cbn [assign_temps block_of_list exec_block exec_stmt map snd samples].
      rewrite !E_bind.
      rewrite (sample_agree r cur s0).
      + apply E_ext. intros v. rewrite E_ret.
        rewrite IH.
        * rewrite E_bind. apply E_ext. intros vs. rewrite E_ret. reflexivity.
        * simpl in Hlen. lia.
        * intros r' y Hr' Hy. destruct (Hread r' y (or_intror Hr') Hy) as [Hn Hc]. split.
          -- intros Hin. apply Hn. right. exact Hin.
          -- rewrite upd_other; [exact Hc|]. intros ->. apply Hn. left. reflexivity.
      + intros y Hy. apply (Hread r y); [left; reflexivity | exact Hy].
  Qed.

  Lemma copy_back_sem : forall l ts cur (f : state -> Qc),
    length ts = length l -> (forall x, In x (map fst l) -> ~ In x ts) ->
    E (exec_block law (block_of_list (copy_back l ts)) cur) f = f (upds cur (map fst l) (map cur ts)).
  Proof.
    induction l as [|[x r] l IH]; intros ts cur f Hlen Hdisj; destruct ts as [|t ts]; try discriminate Hlen.
    - cbn [copy_back block_of_list exec_block map]. rewrite E_ret. reflexivity.
    - cbn [copy_back block_of_list map fst upds]. rewrite exec_block_cons, E_bind.
      unfold copy. rewrite E_assign_det. cbn [eval]. rewrite IH.
      + replace (map (upd cur x (cur t)) ts) with (map cur ts); [reflexivity|].
        apply map_ext_in. intros y Hy. symmetry. apply upd_other.
        intros ->. apply (Hdisj x); [left; reflexivity | right; exact Hy].
      + simpl in Hlen. lia.
      + intros y Hy Hin. apply (Hdisj y); [right; exact Hy | right; exact Hin].
  Qed.

  (* Simultaneous assignment = temporaries, on every test function that does not read the
     temporaries.  Freshness of the temporaries: pairwise distinct, not assigned by the
     statement, not read by any right-hand side. *)
  Theorem simult_is_temporaries : forall l ts s (f : state -> Qc),
    length ts = length l -> NoDup ts ->
    (forall x, In x (map fst l) -> ~ In x ts) ->
    (forall r x, In r (map snd l) -> In x (rvars r) -> ~ In x ts) ->
    (forall a b, agree_off ts a b -> f a = f b) ->
    E (exec_stmt law (SSimult l) s) f = E (exec_block law (temps_block l ts) s) f.
  Proof.
    intros l ts s f Hlen Hnd Hdisj Hfresh Hf.
    cbn [exec_stmt]. rewrite simult_samples.
    unfold temps_block. rewrite exec_list_app.
    rewrite (assign_temps_sem s l ts s); [| exact Hlen | intros r x Hr Hx; split; [exact (Hfresh r x Hr Hx) | reflexivity]].
    apply E_ext_in. intros w vs Hin.
    assert (Hl : length vs = length ts).
    { rewrite Hlen, <- (map_length snd l). apply (samples_length _ s). exists w. exact Hin. }
    rewrite copy_back_sem; [| exact Hlen | exact Hdisj].
    rewrite (map_upds_self ts vs s Hnd Hl).
    apply Hf. apply upds_agree. intros y Hy. symmetry. apply upds_off. exact Hy.
  Qed.

  Definition qsum (l : list Qc) : Qc := fold_right Qcplus 0 l.
  (* the expression the parser builds: 1 - p1 - p2 - ... *)
  Definition one_minus (ps : list expr) : expr := fold_left ESub ps (EConst (mkq 1 1)).
  Definition fill_last (alts : list (expr * expr)) (e : expr) : rhs :=
    RChoice (alts ++ [(one_minus (map fst alts), e)]).

  Lemma eval_fold_sub : forall ps acc s,
    eval (fold_left ESub ps acc) s = eval acc s - qsum (map (fun p => eval p s) ps).
  Proof.
    induction ps as [|p ps IH]; intros acc s; cbn [fold_left map qsum fold_right].
    - ring.
    - rewrite IH, eval_ESub. unfold qsum. ring.
  Qed.

  Lemma eval_one_minus ps s : eval (one_minus ps) s = 1 - qsum (map (fun p => eval p s) ps).
  Proof. unfold one_minus. rewrite eval_fold_sub. cbn [eval]. rewrite mkq_1_1. reflexivity. Qed.

  Lemma E_choice_app alts1 alts2 s (f : Qc -> Qc) :
    E (sample law (RChoice (alts1 ++ alts2)) s) f =
    E (sample law (RChoice alts1) s) f + E (sample law (RChoice alts2) s) f.
  Proof. cbn [sample]. rewrite map_app, E_app. reflexivity. Qed.

  (* an explicit last probability that equals 1 - sum gives the same law as omitting it *)
  Theorem implicit_last_probability : forall alts q e s (f : Qc -> Qc),
    eval q s = 1 - qsum (map (fun pe => eval (fst pe) s) alts) ->
    E (sample law (RChoice (alts ++ [(q, e)])) s) f = E (sample law (fill_last alts e) s) f.
  Proof.
    intros alts q e s f Hq. unfold fill_last. rewrite !E_choice_app. f_equal.
    cbn [sample map E fst snd]. rewrite eval_one_minus, Hq, map_map. reflexivity.
  Qed.

  Lemma qsum_app l1 l2 : qsum (l1 ++ l2) = qsum l1 + qsum l2.
  Proof. unfold qsum. induction l1 as [|x l1 IH]; cbn [app fold_right]; [ring | rewrite IH; ring]. Qed.

  Lemma qsum_fill ps : qsum (ps ++ [1 - qsum ps]) = 1.
  Proof. rewrite qsum_app. unfold qsum. cbn [fold_right]. ring. Qed.

  Lemma fill_last_probs (alts : list (expr * expr)) (e : expr) s :
    map (fun pe => eval (fst pe) s) (alts ++ [(one_minus (map fst alts), e)]) =
    map (fun pe => eval (fst pe) s) alts ++ [1 - qsum (map (fun pe => eval (fst pe) s) alts)].
  Proof. rewrite map_app. cbn [map fst]. rewrite eval_one_minus, map_map. reflexivity. Qed.

  Lemma mass_choice alts s :
    mass (sample law (RChoice alts) s) = qsum (map (fun pe => eval (fst pe) s) alts).
  Proof.
    unfold mass. induction alts as [|[p e] alts IH]; cbn [sample map E fst snd qsum fold_right] in *.
    - reflexivity.
    - rewrite IH. unfold qsum. ring.
  Qed.

  (* with the omitted probability filled in, the weights always add up to 1 *)
  Theorem implicit_last_total_mass : forall alts e s, mass (sample law (fill_last alts e) s) = 1.
  Proof.
    intros alts e s. unfold fill_last. rewrite mass_choice, fill_last_probs. apply qsum_fill.
  Qed.

  Definition weights {A} (d : dist A) : list Qc := map fst d.
  Definition is_prob_law {A} (d : dist A) : Prop := Forall (fun w => 0 <= w) (weights d) /\ mass d = 1.
  (* constant probabilities p1..pk listed, last one omitted *)
  Definition valid_probs (ps : list Qc) : Prop := Forall (fun p => 0 <= p) ps /\ qsum ps <= 1.
  Definition const_alts (ps : list Qc) (es : list expr) : list (expr * expr) := combine (map EConst ps) es.

  Lemma const_alts_probs : forall ps es s, length es = length ps ->
    map (fun pe => eval (fst pe) s) (const_alts ps es) = ps.
  Proof.
    induction ps as [|p ps IH]; intros es s H; destruct es as [|e es]; try discriminate H; [reflexivity|].
    unfold const_alts in *. cbn [map combine fst eval]. f_equal. apply IH. simpl in H. lia.
  Qed.

  Lemma weights_choice alts s : weights (sample law (RChoice alts) s) = map (fun pe => eval (fst pe) s) alts.
  Proof. unfold weights. cbn [sample]. rewrite map_map. reflexivity. Qed.

  Lemma choice_law_iff (alts : list (expr * expr)) s :
    is_prob_law (sample law (RChoice alts) s) <->
    Forall (fun p => 0 <= p) (map (fun pe => eval (fst pe) s) alts) /\ qsum (map (fun pe => eval (fst pe) s) alts) = 1.
  Proof. unfold is_prob_law. rewrite mass_choice, weights_choice. reflexivity. Qed.

  Lemma filled_probs_iff ps :
    Forall (fun p => 0 <= p) (ps ++ [1 - qsum ps]) /\ qsum (ps ++ [1 - qsum ps]) = 1 <-> valid_probs ps.
  Proof.
    unfold valid_probs. rewrite qsum_fill, Forall_app, (Qcle_minus_iff (qsum ps) 1). split.
    - intros [[H1 H2] _]. split; [exact H1 | inversion H2; assumption].
    - intros [H1 H2]. split; [split; [exact H1 | constructor; [exact H2 | constructor]] | reflexivity].
  Qed.

  Theorem choice_is_probability_iff_valid : forall ps es e s, length es = length ps ->
    (is_prob_law (sample law (fill_last (const_alts ps es) e) s) <-> valid_probs ps).
  Proof.
    intros ps es e s Hlen. unfold fill_last.
    rewrite choice_law_iff, fill_last_probs, (const_alts_probs ps es s Hlen). apply filled_probs_iff.
  Qed.

  (* all probabilities listed: a law iff all >= 0 and the sum is exactly 1 *)
  Theorem choice_all_listed_iff : forall ps es s, length es = length ps ->
    (is_prob_law (sample law (RChoice (const_alts ps es)) s) <-> Forall (fun p => 0 <= p) ps /\ qsum ps = 1).
  Proof.
    intros ps es s Hlen. rewrite choice_law_iff, (const_alts_probs ps es s Hlen). reflexivity.
  Qed.
End WithLaw.

(* PolyAssignment.__init__
   program/assignment/poly_assignment.py: __init__(variable, polynomials, probabilities).
   Since /repo commit 626892e: when every probability is a number, raise unless each lies in [0,1]
   and they sum to 1 (the parser has already filled in an omitted last probability as 1 - sum).
   Before that commit there was no check at all (the OLD rule, kept below with its refutation). *)
Definition const_probs (probs : list expr) : option (list Qc) :=
  fold_right (fun e acc => match e, acc with EConst q, Some l => Some (q :: l) | _, _ => None end) (Some []) probs.
Definition probs_ok (ps : list Qc) : bool :=
  forallb (fun p => Qc_leb 0 p && Qc_leb p 1) ps && Qc_eqb (qsum ps) 1.
Definition poly_assignment_init (x : var) (polys probs : list expr) : option stmt :=
  match const_probs probs with
  | Some ps => if probs_ok ps then Some (SAssign x (RChoice (combine probs polys))) else None
  | None => Some (SAssign x (RChoice (combine probs polys)))
  end.
Definition poly_assignment_init_old (x : var) (polys probs : list expr) : option stmt :=
  Some (SAssign x (RChoice (combine probs polys))).

Lemma const_probs_map ps : const_probs (map EConst ps) = Some ps.
Proof. induction ps as [|p ps IH]; [reflexivity|]. cbn [map const_probs fold_right]. fold (const_probs (map EConst ps)). rewrite IH. reflexivity. Qed.

Lemma qsum_nonneg ps : Forall (fun p => 0 <= p) ps -> 0 <= qsum ps.
Proof.
  induction 1 as [|p ps Hp _ IH]; cbn [qsum fold_right].
  - apply Qcle_refl.
  - replace 0 with (0 + 0) by ring. apply Qcplus_le_compat; [exact Hp | exact IH].
Qed.

Lemma qsum_ge ps p : Forall (fun p => 0 <= p) ps -> In p ps -> p <= qsum ps.
Proof.
  induction 1 as [|a ps Ha Hps IH]; intros Hin; [destruct Hin|].
  cbn [qsum fold_right]. fold (qsum ps). destruct Hin as [->|Hin].
  - replace p with (p + 0) at 1 by ring. apply Qcplus_le_compat; [apply Qcle_refl | apply qsum_nonneg; exact Hps].
  - replace p with (0 + p) by ring. apply Qcplus_le_compat; [exact Ha | apply IH; exact Hin].
Qed.

Lemma probs_ok_iff ps : probs_ok ps = true <-> Forall (fun p => 0 <= p) ps /\ qsum ps = 1.
Proof.
  unfold probs_ok. rewrite andb_true_iff, forallb_forall. split.
  - intros [H1 H2]. split.
    + apply Forall_forall. intros p Hp. specialize (H1 p Hp). apply andb_true_iff in H1. apply Qc_leb_iff, H1.
    + apply Qc_eqb_true. exact H2.
  - intros [H1 H2]. split.
    + intros p Hp. apply andb_true_iff. split; apply Qc_leb_iff.
      * rewrite Forall_forall in H1. apply H1. exact Hp.
      * rewrite <- H2. apply qsum_ge; assumption.
    + rewrite H2. apply Qc_eqb_refl.
Qed.

Lemma init_const_iff x es ps : poly_assignment_init x es (map EConst ps) <> None <-> probs_ok ps = true.
Proof.
  unfold poly_assignment_init. rewrite const_probs_map. destruct (probs_ok ps); split; intros H.
  - reflexivity.
  - discriminate.
  - exfalso. apply H. reflexivity.
  - discriminate H.
Qed.

(* the repaired constructor accepts a constant vector iff it is a probability vector, i.e. iff the
   choice denotes a probability law *)
Theorem repaired_constructor_accepts_iff_valid : forall law x (ps : list Qc) (es : list expr) s,
  length es = length ps ->
  (poly_assignment_init x es (map EConst ps) <> None <->
   is_prob_law (sample law (RChoice (const_alts ps es)) s)).
Proof.
  intros law x ps es s Hlen.
  rewrite init_const_iff, probs_ok_iff, (choice_all_listed_iff law ps es s Hlen). reflexivity.
Qed.

(* with the last probability omitted in the text: accepted iff the listed ones are >= 0 and sum to <= 1 *)
Theorem repaired_constructor_implicit_last : forall x (ps : list Qc) (es : list expr),
  (poly_assignment_init x es (map EConst (ps ++ [1 - qsum ps])) <> None <-> valid_probs ps).
Proof.
  intros x ps es. rewrite init_const_iff, probs_ok_iff. apply filled_probs_iff.
Qed.

(* the OLD rule (before 626892e): "a choice whose constant probabilities are negative or add up to
   more than 1 is rejected" is FALSE of it:  x = 1 {3/2} 2  is accepted, with weights 3/2 and -1/2
   (and E(x) = 1/2) *)
Definition three_halves_choice : list (expr * expr) :=
  [(EConst (mkq 3 2), EConst (mkq 1 1))].

Theorem invalid_probs_accepted_old_rule_refuted :
  ~ (forall x ps es e st, length es = length ps ->
       poly_assignment_init_old x (es ++ [e]) (map EConst ps ++ [one_minus (map EConst ps)]) = Some st ->
       valid_probs ps).
Proof.
  intros H.
  specialize (H "x"%string [mkq 3 2] [EConst (mkq 1 1)] (EConst (mkq 2 1)) _ eq_refl eq_refl).
  destruct H as [_ H]. cbn in H. vm_compute in H. apply H. reflexivity.
Qed.

(* ... and the repaired constructor rejects that witness *)
Example three_halves_rejected :
  poly_assignment_init "x"%string [EConst (mkq 1 1); EConst (mkq 2 1)] [EConst (mkq 3 2); EConst (1 - mkq 3 2)] = None.
Proof. vm_compute. reflexivity. Qed.

Example three_halves_not_a_law :
  ~ is_prob_law (sample no_law (fill_last three_halves_choice (EConst (mkq 2 1))) st0).
Proof.
  intros [H _]. unfold weights in H. inversion H as [|? ? _ H2]. inversion H2 as [|? ? H3 _].
  vm_compute in H3. apply H3. reflexivity.
Qed.

Example three_halves_mean :
  E (sample no_law (fill_last three_halves_choice (EConst (mkq 2 1))) st0) (fun v => v) = mkq 1 2.
Proof. apply Qc_is_canon. vm_compute. reflexivity. Qed.
