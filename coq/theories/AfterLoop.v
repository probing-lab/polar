(* C09 — moments after termination (cli.common.get_moment_given_termination).
   With --after_loop Polar prints, for a goal M, the ratio  E[M * to_arithm(Not G')]_n / E[to_arithm(Not G')]_n  of two
   solved moments (and its limit), G' being the loop guard it stored.
   Over the reference semantics Sem.run: a state in which the guard is false is never left, so the stopped part
   of the law at time n is carried unchanged to every later time, and a ratio E[f 1_ev] / P(ev) is the expectation
   of f under the law restricted to ev and renormalised.
   Over flat programs with validated types: the two moments are E[M 1_{not G'}] and P(not G'), and [check_exit]
   accepts the closed forms Polar returns for them only if they are these two sequences at every n.
   The end of the file models which guard Polar stores (LoopGuardTransformer) and defines the exact oracle the
   harness evaluates. *)
From Coq Require Import List String QArith Qcanon ZArith Bool Ring Field Arith Lia.
From Polar Require Import Qcx CRing ExpPoly ClosedForm Dist Syntax Sem Types Poly Pipeline Wp Search Synth.
Import ListNotations.
Local Open Scope Qc_scope.

Definition nonneg {A} (d : dist A) : Prop := forall w a, In (w, a) d -> 0 <= w.

Lemma nonneg_ret {A} (a : A) : nonneg (ret a).
Proof. intros w b [[= <- _]|[]]. exact Qc_0_le_1. Qed.

Lemma nonneg_dscale {A} c (d : dist A) : 0 <= c -> nonneg d -> nonneg (dscale c d).
Proof.
  intros Hc Hd w a Hin. apply in_map_iff in Hin as [[w0 a0] [[= <- <-] Hin]].
  apply Qcmult_nonneg; [exact Hc | exact (Hd w0 a0 Hin)].
Qed.

Lemma nonneg_app {A} (d1 d2 : dist A) : nonneg d1 -> nonneg d2 -> nonneg (d1 ++ d2).
Proof. intros H1 H2 w a Hin. apply in_app_or in Hin as [Hin|Hin]; [exact (H1 w a Hin) | exact (H2 w a Hin)]. Qed.

Lemma nonneg_bind {A B} (d : dist A) (g : A -> dist B) :
  nonneg d -> (forall a, supp d a -> nonneg (g a)) -> nonneg (bind d g).
Proof.
  induction d as [|[w a] d IH]; intros Hd Hg; [intros w' b []|].
  cbn [bind]. apply nonneg_app.
  - apply nonneg_dscale; [apply (Hd w a); left; reflexivity | apply Hg; exists w; left; reflexivity].
  - apply IH; [intros w' a' Hin; apply (Hd w' a'); right; exact Hin|].
    intros a' [w' Hin]. apply Hg. exists w'. right. exact Hin.
Qed.

Lemma E_mono {A} (d : dist A) f g : nonneg d -> (forall a, supp d a -> f a <= g a) -> E d f <= E d g.
Proof.
  induction d as [|[w a] d IH]; intros Hd Hfg; cbn [E]; [apply Qcle_refl|].
  apply Qcplus_le_compat.
  - rewrite (Qcmult_comm w (f a)), (Qcmult_comm w (g a)).
    apply Qcmult_le_compat_r; [apply Hfg; exists w; left; reflexivity | apply (Hd w a); left; reflexivity].
  - apply IH; [intros w' a' Hin; apply (Hd w' a'); right; exact Hin|].
    intros a' [w' Hin]. apply Hfg. exists w'. right. exact Hin.
Qed.

Lemma E_nonneg {A} (d : dist A) f : nonneg d -> (forall a, supp d a -> 0 <= f a) -> 0 <= E d f.
Proof. intros Hd Hf. rewrite <- (E_zero d). apply E_mono; assumption. Qed.

(* conditioning; [ind : bool -> Qc] is Wp.ind *)
Definition restrict {A} (ev : A -> bool) (d : dist A) : dist A := filter (fun wa => ev (snd wa)) d.
Definition prob {A} (d : dist A) (ev : A -> bool) : Qc := E d (fun a => ind (ev a)).
(* the conditional law given [ev]: the restriction, renormalised *)
Definition condition {A} (ev : A -> bool) (d : dist A) : dist A := dscale (/ prob d ev) (restrict ev d).
(* the ratio Polar computes *)
Definition cond_exp {A} (d : dist A) (ev : A -> bool) (f : A -> Qc) : Qc :=
  E d (fun a => ind (ev a) * f a) / prob d ev.

Lemma ind_nonneg b : 0 <= ind b.
Proof. destruct b; cbn [ind]; discriminate. Qed.

Lemma E_restrict {A} ev (d : dist A) f : E (restrict ev d) f = E d (fun a => ind (ev a) * f a).
Proof.
  induction d as [|[w a] d IH]; cbn [restrict filter E snd]; [reflexivity|].
  fold (restrict ev d). rewrite <- IH. destruct (ev a); cbn [E ind].
  - rewrite Qcmult_1_l. reflexivity.
  - rewrite Qcmult_0_l, Qcmult_0_r, Qcplus_0_l. reflexivity.
Qed.

Lemma supp_restrict {A} ev (d : dist A) a : supp (restrict ev d) a -> ev a = true /\ supp d a.
Proof. intros [w Hin]. apply filter_In in Hin as [Hin Hev]. split; [exact Hev | exists w; exact Hin]. Qed.

Lemma nonneg_restrict {A} ev (d : dist A) : nonneg d -> nonneg (restrict ev d).
Proof. intros Hd w a Hin. apply filter_In in Hin. exact (Hd w a (proj1 Hin)). Qed.

Lemma prob_part {A} (d : dist A) ev : prob d ev = E d (fun a => ind (ev a) * 1).
Proof. apply E_ext. intros a. symmetry. apply Qcmult_1_r. Qed.

Lemma E_condition {A} (d : dist A) ev f : E (condition ev d) f = cond_exp d ev f.
Proof. unfold condition, cond_exp. rewrite E_dscale, E_restrict. apply Qcmult_comm. Qed.

Theorem cond_exp_is_conditional {A} (d : dist A) ev :
  prob d ev <> 0 ->
  (forall f, E (condition ev d) f = cond_exp d ev f) /\
  mass (condition ev d) = 1 /\
  (forall a, supp (condition ev d) a -> ev a = true /\ supp d a).
Proof.
  intros Hp. split; [|split].
  - apply E_condition.
  - unfold mass. rewrite E_condition. unfold cond_exp. rewrite <- prob_part. apply Qcmult_inv_r. exact Hp.
  - intros a Ha. apply supp_restrict. exact (supp_dscale _ _ _ Ha).
Qed.

Lemma nonneg_condition {A} (d : dist A) ev : nonneg d -> 0 <= prob d ev -> nonneg (condition ev d).
Proof.
  intros Hd Hp. apply nonneg_dscale; [apply Qcinv_nonneg; exact Hp | apply nonneg_restrict; exact Hd].
Qed.

Section AfterLoopSem.
  Variable law : string -> list Qc -> dist Qc.

  Definition stopped (p : prog) (s : state) : bool := negb (holds (p_guard p) s).

  Theorem frozen_after_exit p s : holds (p_guard p) s = false -> iter law p s = ret s.
  Proof. intros H. unfold iter. rewrite H. reflexivity. Qed.

  Lemma iter_stopped p s : stopped p s = true -> iter law p s = ret s.
  Proof. intros H. apply frozen_after_exit, negb_true_iff, H. Qed.

  (* m further iterations from a state *)
  Fixpoint iters (p : prog) (m : nat) (s : state) : dist state :=
    match m with O => ret s | S m' => bind (iters p m' s) (iter law p) end.

  Lemma run_add p n m s0 f :
    E (run law p (n + m) s0) f = E (run law p n s0) (fun s => E (iters p m s) f).
  Proof.
    revert f; induction m as [|m IH]; intros f.
    - rewrite Nat.add_0_r. apply E_ext. intros s. cbn [iters]. rewrite E_ret. reflexivity.
    - rewrite Nat.add_succ_r. cbn [run iters]. rewrite E_bind, IH.
      apply E_ext. intros s. rewrite E_bind. reflexivity.
  Qed.

  Theorem iters_stopped p m s f : stopped p s = true -> E (iters p m s) f = f s.
  Proof.
    intros H. revert f; induction m as [|m IH]; intros f; cbn [iters].
    - apply E_ret.
    - rewrite E_bind, IH, (iter_stopped p s H). apply E_ret.
  Qed.

  Theorem run_step_split p n s0 g :
    E (run law p (S n) s0) g =
    E (run law p n s0) (fun s => if stopped p s then g s else E (exec_block law (p_body p) s) g).
  Proof.
    cbn [run]. rewrite E_bind. apply E_ext. intros s. unfold iter, stopped.
    destruct (holds (p_guard p) s); cbn [negb]; [reflexivity | apply E_ret].
  Qed.

  (* paths stopped at time n contribute to every later law exactly their exit state *)
  Theorem exit_state_preserved p n m s0 f :
    E (run law p (n + m) s0) f =
    E (run law p n s0) (fun s => if stopped p s then f s else E (iters p m s) f).
  Proof.
    rewrite run_add. apply E_ext. intros s.
    destruct (stopped p s) eqn:Hs; [apply iters_stopped; exact Hs | reflexivity].
  Qed.

  (* in particular: "stopped at time n" implies "stopped, in the same state, at time n+m":
     for every h, the part of E_{n+m}[1_stopped * h] coming from paths stopped at time n is E_n[1_stopped * h] *)
  Corollary stopped_stays_stopped p n m s0 h :
    E (run law p (n + m) s0) (fun s => ind (stopped p s) * h s) =
    E (run law p n s0) (fun s => ind (stopped p s) * h s)
    + E (run law p n s0) (fun s => if stopped p s then 0 else E (iters p m s) (fun s' => ind (stopped p s') * h s')).
  Proof.
    rewrite exit_state_preserved, <- E_add. apply E_ext. intros s.
    destruct (stopped p s); cbn [ind].
    - symmetry. apply Qcplus_0_r.
    - rewrite Qcmult_0_l, Qcplus_0_l. reflexivity.
  Qed.

  (* probability programs: the law after n iterations has non-negative weights *)
  Definition prob_prog (p : prog) (s0 : state) : Prop :=
    nonneg (exec_block law (p_init p) s0) /\ forall s, nonneg (exec_block law (p_body p) s).

  Lemma iter_nonneg p : (forall s, nonneg (exec_block law (p_body p) s)) -> forall s, nonneg (iter law p s).
  Proof. intros Hb s. unfold iter. destruct (holds (p_guard p) s); [apply Hb | apply nonneg_ret]. Qed.

  Lemma run_nonneg p s0 : prob_prog p s0 -> forall n, nonneg (run law p n s0).
  Proof.
    intros [Hi Hb] n; induction n as [|n IH]; cbn [run]; [exact Hi|].
    apply nonneg_bind; [exact IH|]. intros s _. exact (iter_nonneg p Hb s).
  Qed.

  Lemma iters_nonneg p : (forall s, nonneg (exec_block law (p_body p) s)) -> forall m s, nonneg (iters p m s).
  Proof.
    intros Hb m; induction m as [|m IH]; intros s; cbn [iters]; [apply nonneg_ret|].
    apply nonneg_bind; [apply IH|]. intros s' _. exact (iter_nonneg p Hb s').
  Qed.

  Theorem stopped_part_monotone p s0 h :
    prob_prog p s0 -> (forall s, 0 <= h s) ->
    forall n m, E (run law p n s0) (fun s => ind (stopped p s) * h s)
             <= E (run law p (n + m) s0) (fun s => ind (stopped p s) * h s).
  Proof.
    intros Hp Hh n m. rewrite stopped_stays_stopped. apply Qcle_add_nonneg.
    apply E_nonneg; [apply run_nonneg; exact Hp|].
    intros s _. destruct (stopped p s); [apply Qcle_refl|].
    apply E_nonneg; [apply iters_nonneg, Hp|].
    intros s' _. apply Qcmult_nonneg; [apply ind_nonneg | apply Hh].
  Qed.

  Corollary stopped_mass_monotone p s0 :
    prob_prog p s0 -> forall n m, prob (run law p n s0) (stopped p) <= prob (run law p (n + m) s0) (stopped p).
  Proof.
    intros Hp n m. rewrite !prob_part.
    apply (stopped_part_monotone p s0 (fun _ => 1) Hp). intros _. discriminate.
  Qed.

  (* The (n+1)-th guard test fails iff the guard is false in the state after n iterations, and
     then the state after n+1 iterations is that same state: seen from time n+1, the
     expectation of f on the event "the (n+1)-th test failed" is E_n[1_stopped * f].
     [run2] is the joint law of (state after n iterations, state after n+1 iterations). *)
  Definition run2 (p : prog) (n : nat) (s0 : state) : dist (state * state) :=
    bind (run law p n s0) (fun s => bind (iter law p s) (fun s' => ret (s, s'))).

  Lemma E_run2 p n s0 g :
    E (run2 p n s0) g = E (run law p n s0) (fun s => E (iter law p s) (fun s' => g (s, s'))).
  Proof.
    unfold run2. rewrite E_bind. apply E_ext. intros s. rewrite E_bind.
    apply E_ext. intros s'. apply E_ret.
  Qed.

  Lemma run2_fst p n s0 f : E (run2 p n s0) (fun ss => f (fst ss)) = E (run law p n s0) (fun s => f s * mass (iter law p s)).
  Proof. rewrite E_run2. apply E_ext. intros s. cbn [fst]. apply E_const. Qed.
  Lemma run2_snd p n s0 f : E (run2 p n s0) (fun ss => f (snd ss)) = E (run law p (S n) s0) f.
  Proof. rewrite E_run2. cbn [run snd]. rewrite E_bind. reflexivity. Qed.

  Theorem exit_test_shift p n s0 f :
    E (run2 p n s0) (fun ss => ind (stopped p (fst ss)) * f (snd ss)) =
    E (run law p n s0) (fun s => ind (stopped p s) * f s).
  Proof.
    rewrite E_run2. apply E_ext. intros s. cbn [fst snd]. rewrite E_cmul.
    destruct (stopped p s) eqn:Hs; cbn [ind]; [|ring].
    rewrite (iter_stopped p s Hs), E_ret. reflexivity.
  Qed.

  Corollary cond_exit_test_shift p n s0 f :
    cond_exp (run2 p n s0) (fun ss => stopped p (fst ss)) (fun ss => f (snd ss)) =
    cond_exp (run law p n s0) (stopped p) f.
  Proof.
    unfold cond_exp. rewrite !prob_part, exit_test_shift, (exit_test_shift p n s0 (fun _ => 1)). reflexivity.
  Qed.
End AfterLoopSem.

Section AfterLoopFlat.
  Variable law : string -> list Qc -> dist Qc.
  Variable cmom : string -> list Qc -> nat -> Qc.

  (* get_moment_poly: the moment of a polynomial is assembled from the moments of its monomials *)
  Definition moment_poly (d : dist state) (p : poly) : Qc :=
    fold_right (fun t acc => fst t * E d (eval_mono (snd t)) + acc) 0 p.

  Theorem moment_poly_linear d p : moment_poly d p = E d (eval_poly p).
  Proof. symmetry. apply E_eval_poly. Qed.

  (* on validated types, the indicator polynomial to_arithm(c) has the probability of c as its
     moment, and the moments of  M * to_arithm(c)  are the moments of M on the event c *)
  Lemma indicator_prob fp T c q :
    check_types fp T = true -> forall s0, init_ok fp T s0 -> arith T c = Some q ->
    forall n, E (frun law fp n s0) (eval_poly q) = prob (frun law fp n s0) (holds c).
  Proof.
    intros HT s0 H0 Hq n. apply (E_frun_typed law fp T s0 n _ _ HT H0). intros s Hs.
    exact (arith_sound T s c q Hs Hq).
  Qed.

  Theorem indicator_moment_exact fp T c q M :
    check_types fp T = true -> forall s0, init_ok fp T s0 -> arith T c = Some q ->
    forall n, E (frun law fp n s0) (eval_poly (pmul M q)) =
              E (frun law fp n s0) (fun s => ind (holds c s) * eval_poly M s).
  Proof.
    intros HT s0 H0 Hq n. apply (E_frun_typed law fp T s0 n _ _ HT H0). intros s Hs.
    rewrite eval_pmul, (arith_sound T s c q Hs Hq). apply Qcmult_comm.
  Qed.

  Lemma indicator_ratio fp T c q M (num den : Qc) :
    check_types fp T = true -> forall s0, init_ok fp T s0 -> arith T c = Some q ->
    forall n, let d := frun law fp n s0 in
      num = E d (eval_poly (pmul M q)) -> den = E d (eval_poly q) ->
      num = E d (fun s => ind (holds c s) * eval_poly M s) /\ den = prob d (holds c) /\
      num / den = cond_exp d (holds c) (eval_poly M).
  Proof.
    intros HT s0 H0 Hq n d. unfold d. intros -> ->.
    rewrite (indicator_moment_exact fp T c q M HT s0 H0 Hq n), (indicator_prob fp T c q HT s0 H0 Hq n).
    split; [|split]; reflexivity.
  Qed.

  (* C09, finite n: the ratio of the two solved moment polynomials is the conditional
     expectation of M given that the stored guard G' is false in the state after n iterations *)
  Theorem cond_moment_exact fp T G' q M :
    check_types fp T = true -> forall s0, init_ok fp T s0 -> arith T (CNot G') = Some q ->
    forall n, let d := frun law fp n s0 in
      moment_poly d (pmul M q) / moment_poly d q =
      cond_exp d (fun s => negb (holds G' s)) (eval_poly M).
  Proof.
    intros HT s0 H0 Hq n d.
    exact (proj2 (proj2 (indicator_ratio fp T (CNot G') q M _ _ HT s0 H0 Hq n
                           (moment_poly_linear d (pmul M q)) (moment_poly_linear d q)))).
  Qed.

  (* total mass one: the constant term of an indicator polynomial is kept as it is *)
  Definition fp_mass_one (fp : flatprog) : bool :=
    forallb (fun g => mass_oneb cmom (ga_rhs g)) (fp_init fp) && forallb (fun g => mass_oneb cmom (ga_rhs g)) (fp_body fp).

  Lemma exec_ga_mass g s : cmom_ok law cmom -> mass_oneb cmom (ga_rhs g) = true -> mass (exec_ga law g s) = 1.
  Proof.
    intros Hc Hm. unfold exec_ga. destruct (holds (ga_cond g) s); [|apply mass_ret].
    rewrite mass_bind by (intros v; apply mass_ret). exact (mass_oneb_sound law cmom _ s Hc Hm).
  Qed.

  Lemma exec_gas_mass l : cmom_ok law cmom -> forallb (fun g => mass_oneb cmom (ga_rhs g)) l = true ->
    forall s, mass (exec_gas law l s) = 1.
  Proof.
    intros Hc; induction l as [|g l IH]; cbn [forallb exec_gas]; intros H s; [apply mass_ret|].
    apply andb_prop in H as [Hg Hl]. rewrite (mass_bind _ _ (IH Hl)). exact (exec_ga_mass g s Hc Hg).
  Qed.

  Lemma frun_mass fp : cmom_ok law cmom -> fp_mass_one fp = true -> forall n s0, mass (frun law fp n s0) = 1.
  Proof.
    intros Hc H. apply andb_prop in H as [Hi Hb].
    intros n s0; induction n as [|n IH]; cbn [frun]; [exact (exec_gas_mass _ Hc Hi s0)|].
    rewrite (mass_bind _ _ (exec_gas_mass _ Hc Hb)). exact IH.
  Qed.

  (* a moment system as Polar's solver returns it: monomials, one-step matrix, initial vector, closed forms and
     their special cases *)
  Record sysd := { s_ms : list mono; s_A : list (list Qc); s_v : list Qc;
                   s_F : list (epoly Qc_cring); s_sp : list (list Qc) }.
  (* a term of an expanded polynomial: coefficient, monomial, (index of the system that solved
     it, index of the monomial inside that system) *)
  Definition term : Type := ((Qc * mono) * (nat * nat))%type.

  Definition sys_ok (fp : flatprog) (T : tenv) (sd : sysd) : bool :=
    check_pipeline cmom fp T (s_ms sd) (s_A sd) (s_v sd) (s_F sd) (s_sp sd).

  Definition sys_seq (sd : sysd) (k n : nat) : Qc := nth k (pw_eval (R := Qc_cring) (s_F sd) (s_sp sd) n) 0.

  Definition term_seq (Ss : list sysd) (t : term) (n : nat) : Qc :=
    match nth_error Ss (fst (snd t)) with
    | Some sd => fst (fst t) * sys_seq sd (snd (snd t)) n
    | None => 0
    end.
  Fixpoint comb_seq (Ss : list sysd) (ts : list term) (n : nat) : Qc :=
    match ts with [] => 0 | t :: ts' => term_seq Ss t n + comb_seq Ss ts' n end.

  Definition term_ok (Ss : list sysd) (t : term) : bool :=
    match nth_error Ss (fst (snd t)) with
    | Some sd => match nth_error (s_ms sd) (snd (snd t)) with
                | Some m' => mono_eqb (mnorm (snd (fst t))) (mnorm m')
                | None => false
                end
    | None => false
    end.

  Definition terms_poly (c0 : Qc) (ts : list term) : poly := (c0, []) :: map fst ts.

  (* one sequence with listed special values, as Polar's Piecewise((v0, n<=0), ..., (general, True)) *)
  Definition pw1 (f : epoly Qc_cring) (sp : list Qc) (n : nat) : Qc :=
    if n <? List.length sp then nth n sp 0 else eeval f n.

  Definition term_epoly (Ss : list sysd) (t : term) : epoly Qc_cring :=
    match nth_error Ss (fst (snd t)) with
    | Some sd => escale (R := Qc_cring) (fst (fst t)) (nth (snd (snd t)) (s_F sd) [])
    | None => []
    end.
  Fixpoint comb_epoly (Ss : list sysd) (ts : list term) : epoly Qc_cring :=
    match ts with [] => [] | t :: ts' => eadd (term_epoly Ss t) (comb_epoly Ss ts') end.

  Lemma pw1_general f sp n : (List.length sp <= n)%nat -> pw1 f sp n = eeval f n.
  Proof. exact (fval_general sp f n). Qed.

  Definition max_sp (Ss : list sysd) : nat := fold_right (fun sd acc => Nat.max (List.length (s_sp sd)) acc) O Ss.

  (* the claimed closed form (f, sp) is  c0 + sum of the terms' validated closed forms: equal as
     exponential polynomials, and equal value by value below the largest cut-off *)
  Definition check_comb (Ss : list sysd) (c0 : Qc) (ts : list term) (f : epoly Qc_cring) (sp : list Qc) : bool :=
    eeq (R := Qc_cring) f (eadd (econst (R := Qc_cring) c0) (comb_epoly Ss ts))
    && forallb (fun i => Qc_eqb (pw1 f sp i) (c0 + comb_seq Ss ts i)) (seq 0 (Nat.max (List.length sp) (max_sp Ss))).

  Lemma max_sp_ge Ss sd : In sd Ss -> (List.length (s_sp sd) <= max_sp Ss)%nat.
  Proof. exact (max_fold_ge (fun sd => List.length (s_sp sd)) Ss sd). Qed.

  Lemma comb_epoly_eval Ss ts n : (max_sp Ss <= n)%nat ->
    eeval (comb_epoly Ss ts) n = comb_seq Ss ts n.
  Proof.
    intros Hn. induction ts as [|[[c m] [j k]] ts IH]; cbn [comb_epoly comb_seq]; [reflexivity|].
    rewrite eeval_eadd, IH. unfold term_epoly, term_seq. cbn [fst snd].
    destruct (nth_error Ss j) as [sd|] eqn:Ej; [|reflexivity].
    pose proof (max_sp_ge Ss sd (nth_error_In _ _ Ej)) as Hle.
    rewrite eeval_escale. unfold sys_seq. rewrite pw_eval_general_nth by exact (Nat.le_trans _ _ _ Hle Hn). reflexivity.
  Qed.

  Lemma check_comb_sound Ss c0 ts f sp :
    check_comb Ss c0 ts f sp = true -> forall n, pw1 f sp n = c0 + comb_seq Ss ts n.
  Proof.
    unfold check_comb. intros H. apply andb_prop in H as [Heq Hsp].
    apply (eventually_eeq (pw1 f sp) (fun n => c0 + comb_seq Ss ts n) _ _ _ Hsp Heq); intros n Hn; unfold eevalQ.
    - apply pw1_general. lia.
    - rewrite eeval_eadd, eeval_econst, comb_epoly_eval by lia. reflexivity.
  Qed.

  Definition check_exit (fp : flatprog) (T : tenv) (G' : cond) (M : poly) (Ss : list sysd)
             (c0N : Qc) (tsN : list term) (fN : epoly Qc_cring) (spN : list Qc)
             (c0D : Qc) (tsD : list term) (fD : epoly Qc_cring) (spD : list Qc) : bool :=
    check_types fp T && fp_mass_one fp && forallb (sys_ok fp T) Ss
    && forallb (term_ok Ss) tsN && forallb (term_ok Ss) tsD
    && match arith T (CNot G') with
       | Some q => pequiv T (terms_poly c0D tsD) q && pequiv T (terms_poly c0N tsN) (pmul M q)
       | None => false
       end
    && check_comb Ss c0N tsN fN spN && check_comb Ss c0D tsD fD spD.

  (* the same test in two pieces, so that the part common to all goals of a program (types,
     masses, systems) is evaluated once *)
  Definition check_base (fp : flatprog) (T : tenv) (Ss : list sysd) : bool :=
    check_types fp T && fp_mass_one fp && forallb (sys_ok fp T) Ss.
  Definition check_part (T : tenv) (G' : cond) (M : poly) (Ss : list sysd)
             (c0N : Qc) (tsN : list term) (fN : epoly Qc_cring) (spN : list Qc)
             (c0D : Qc) (tsD : list term) (fD : epoly Qc_cring) (spD : list Qc) : bool :=
    forallb (term_ok Ss) tsN && forallb (term_ok Ss) tsD
    && match arith T (CNot G') with
       | Some q => pequiv T (terms_poly c0D tsD) q && pequiv T (terms_poly c0N tsN) (pmul M q)
       | None => false
       end
    && check_comb Ss c0N tsN fN spN && check_comb Ss c0D tsD fD spD.

  Lemma check_exit_split fp T G' M Ss c0N tsN fN spN c0D tsD fD spD :
    check_exit fp T G' M Ss c0N tsN fN spN c0D tsD fD spD =
    check_base fp T Ss && check_part T G' M Ss c0N tsN fN spN c0D tsD fD spD.
  Proof. unfold check_exit, check_base, check_part. rewrite !andb_assoc. reflexivity. Qed.

  Section AcceptedBase.
    Variables (fp : flatprog) (T : tenv) (Ss : list sysd) (s0 : state).
    Hypothesis Hc : cmom_ok law cmom.
    Hypothesis HT : check_types fp T = true.
    Hypothesis Hm : fp_mass_one fp = true.
    Hypothesis HSs : forallb (sys_ok fp T) Ss = true.
    Hypothesis H0 : init_ok fp T s0.

    Lemma sys_seq_exact sd k m n :
      In sd Ss -> nth_error (s_ms sd) k = Some m -> sys_seq sd k n = E (frun law fp n s0) (eval_mono m).
    Proof.
      intros Hin Hk.
      exact (pipeline_moment law cmom Hc fp T _ _ _ _ _ k m (proj1 (forallb_forall _ _) HSs sd Hin) Hk s0 H0 n).
    Qed.

    Lemma term_seq_exact t n :
      term_ok Ss t = true -> term_seq Ss t n = fst (fst t) * E (frun law fp n s0) (eval_mono (snd (fst t))).
    Proof.
      unfold term_ok, term_seq.
      destruct (nth_error Ss (fst (snd t))) as [sd|] eqn:Ej; [|discriminate].
      destruct (nth_error (s_ms sd) (snd (snd t))) as [m'|] eqn:Ek; [|discriminate]. intros Ht.
      rewrite (sys_seq_exact sd _ m' n (nth_error_In _ _ Ej) Ek). f_equal.
      apply E_ext. intros s. symmetry. exact (mnorm_eqb_eval _ m' Ht s).
    Qed.

    Lemma comb_seq_exact ts n :
      forallb (term_ok Ss) ts = true -> comb_seq Ss ts n = E (frun law fp n s0) (eval_poly (map fst ts)).
    Proof.
      induction ts as [|[[c m] jk] ts IH]; cbn [forallb comb_seq map eval_poly fst]; intros Hts.
      - symmetry. apply E_zero.
      - apply andb_prop in Hts as [Ht Hts]. rewrite E_add, E_cmul, <- (IH Hts). f_equal.
        exact (term_seq_exact (c, m, jk) n Ht).
    Qed.

    Lemma terms_poly_exact c0 ts n :
      forallb (term_ok Ss) ts = true ->
      c0 + comb_seq Ss ts n = E (frun law fp n s0) (eval_poly (terms_poly c0 ts)).
    Proof.
      intros Hts. unfold terms_poly. cbn [eval_poly eval_mono].
      rewrite E_add, E_const, (frun_mass fp Hc Hm n s0), (comb_seq_exact ts n Hts). ring.
    Qed.

    (* an accepted closed form (f, sp) whose terms' polynomial is P on typed states is, at every n,
       the expectation of P *)
    Lemma comb_closed_form_exact c0 ts f sp P :
      forallb (term_ok Ss) ts = true -> check_comb Ss c0 ts f sp = true -> pequiv T (terms_poly c0 ts) P = true ->
      forall n, pw1 f sp n = E (frun law fp n s0) (eval_poly P).
    Proof.
      intros Hts Hcomb HP n.
      rewrite (check_comb_sound _ _ _ _ _ Hcomb n), (terms_poly_exact c0 ts n Hts).
      apply (E_frun_typed law fp T s0 n _ _ HT H0). exact (pequiv_sound T _ _ HP).
    Qed.
  End AcceptedBase.

  (* acceptance: Polar's numerator and denominator closed forms are, at EVERY n, the expectation
     of M on the event "stored guard false" and the probability of that event, in the flat
     program; their ratio is the conditional expectation *)
  Theorem check_exit_split_sound fp T G' M Ss c0N tsN fN spN c0D tsD fD spD :
    cmom_ok law cmom ->
    check_base fp T Ss = true -> check_part T G' M Ss c0N tsN fN spN c0D tsD fD spD = true ->
    forall s0, init_ok fp T s0 -> forall n,
      let d := frun law fp n s0 in
      pw1 fN spN n = E d (fun s => ind (negb (holds G' s)) * eval_poly M s) /\
      pw1 fD spD n = prob d (fun s => negb (holds G' s)) /\
      pw1 fN spN n / pw1 fD spD n = cond_exp d (fun s => negb (holds G' s)) (eval_poly M).
  Proof.
    intros Hc Hb Hp s0 H0 n d. unfold check_part in Hp.
    apply andb_prop in Hb as [Hb HSs]. apply andb_prop in Hb as [HT Hm].
    apply andb_prop in Hp as [Hp HcD]. apply andb_prop in Hp as [Hp HcN].
    apply andb_prop in Hp as [Hp Har]. apply andb_prop in Hp as [HtN HtD].
    destruct (arith T (CNot G')) as [q|] eqn:Eq; [|discriminate]. apply andb_prop in Har as [HpD HpN].
    exact (indicator_ratio fp T (CNot G') q M _ _ HT s0 H0 Eq n
             (comb_closed_form_exact fp T Ss s0 Hc HT Hm HSs H0 c0N tsN fN spN _ HtN HcN HpN n)
             (comb_closed_form_exact fp T Ss s0 Hc HT Hm HSs H0 c0D tsD fD spD _ HtD HcD HpD n)).
  Qed.

  Theorem check_exit_sound fp T G' M Ss c0N tsN fN spN c0D tsD fD spD :
    cmom_ok law cmom ->
    check_exit fp T G' M Ss c0N tsN fN spN c0D tsD fD spD = true ->
    forall s0, init_ok fp T s0 -> forall n,
      let d := frun law fp n s0 in
      pw1 fN spN n = E d (fun s => ind (negb (holds G' s)) * eval_poly M s) /\
      pw1 fD spD n = prob d (fun s => negb (holds G' s)) /\
      pw1 fN spN n / pw1 fD spD n = cond_exp d (fun s => negb (holds G' s)) (eval_poly M).
  Proof.
    intros Hc H. rewrite check_exit_split in H. apply andb_prop in H as [Hb Hp].
    exact (check_exit_split_sound fp T G' M Ss c0N tsN fN spN c0D tsD fD spD Hc Hb Hp).
  Qed.
End AfterLoopFlat.

(* executable oracle: exact  P(guard false after n iterations)  and  E[M ; guard false]  of a
   SOURCE program under Sem.run (compacted as in Search.run_c; the harness cross-checks the
   compacted computation against the plain one for small n) *)
Definition exit_row (p : prog) (ms : list mono) (d : dist state) : list (Z * positive) :=
  qpair (prob d (stopped p)) :: map (fun m => qpair (E d (fun s => ind (stopped p s) * eval_mono m s))) ms.
Fixpoint exit_moments_aux (vs : list var) (p : prog) (ms : list mono) (d : dist state) (N : nat)
  : list (list (Z * positive)) :=
  exit_row p ms d ::
  match N with O => [] | S N' => exit_moments_aux vs p ms (compact vs (bind d (iter no_law p))) N' end.
Definition exit_moments (vs : list var) (p : prog) (ms : list mono) (N : nat) : list (list (Z * positive)) :=
  exit_moments_aux vs p ms (compact vs (exec_block no_law (p_init p) st0)) N.
Definition exit_moments_plain (p : prog) (ms : list mono) (N : nat) : list (list (Z * positive)) :=
  map (fun n => exit_row p ms (run no_law p n st0)) (seq 0 (S N)).

(* The guard Polar conditions on.  LoopGuardTransformer turns `while G: B` into
   `while true: if G & C: B' end` where C collects the conditions of first-level single-branch
   ifs of B (_collapse_first_level_ifs).
   Current rule (since /repo 294789f): the SOURCE guard G itself carries the flag
   is_original_loop_guard, and program.original_loop_guard is (the normalised form of) G.
   Old rule: the merged condition G & C was the one found by get_loop_guard. *)
Definition stored_guard (p : prog) : cond := p_guard p.

Theorem stored_guard_is_termination_event p s : negb (holds (stored_guard p) s) = stopped p s.
Proof. reflexivity. Qed.

Definition and_simpl (c1 c2 : cond) : cond :=
  match c1, c2 with
  | CTrue, _ => c2
  | _, CTrue => c1
  | _, _ => CAnd c1 c2
  end.
Fixpoint collapsed_cond (fuel : nat) (b : block) : cond :=
  match fuel with
  | O => CTrue
  | S fuel' =>
      match b with
      | BCons (SIf (BrCons c br BrNil) BNil) BNil => and_simpl (collapsed_cond fuel' br) c
      | _ => CTrue
      end
  end.
Definition stored_guard_old (fuel : nat) (p : prog) : cond := and_simpl (p_guard p) (collapsed_cond fuel (p_body p)).
Definition collapse_free (fuel : nat) (p : prog) : Prop := collapsed_cond fuel (p_body p) = CTrue.

Lemma holds_and_simpl c1 c2 s : holds (and_simpl c1 c2) s = holds c1 s && holds c2 s.
Proof. destruct c1; [reflexivity|..]; (destruct c2; [symmetry; apply andb_true_r | reflexivity ..]). Qed.

(* the old rule was right exactly for bodies without a collapsed first-level if ... *)
Theorem stored_guard_old_collapse_free fuel p s :
  collapse_free fuel p -> holds (stored_guard_old fuel p) s = holds (p_guard p) s.
Proof.
  unfold collapse_free, stored_guard_old. intros H. rewrite holds_and_simpl, H. cbn [holds]. apply andb_true_r.
Qed.

(* ... in general the old stored guard only implied the source guard: the event conditioned on
   CONTAINED the termination event and was strictly larger on the states G & not C *)
Theorem stored_guard_old_weaker fuel p s :
  stopped p s = true -> negb (holds (stored_guard_old fuel p) s) = true.
Proof.
  unfold stopped, stored_guard_old. rewrite holds_and_simpl. intros H. apply negb_true_iff in H. rewrite H. reflexivity.
Qed.

Local Open Scope string_scope.
(* the witness of DESIGN section 6 (#10):
     x = 0; c = Bernoulli(1/2); while x == 0: if c == 1: x = Bernoulli(1/2) end end *)
Definition collapse_witness : prog :=
  {| p_init := BCons (SAssign "x" (RDet (EConst (mkq 0 1)))) (BCons (SAssign "c" (RDraw (DBern (EConst (mkq 1 2))))) BNil);
     p_guard := CAtom (EVar "x") Ceq (EConst (mkq 0 1));
     p_body := BCons (SIf (BrCons (CAtom (EVar "c") Ceq (EConst (mkq 1 1)))
                                  (BCons (SAssign "x" (RDraw (DBern (EConst (mkq 1 2))))) BNil) BrNil) BNil) BNil |}.

Definition cond_x_given (ev : state -> bool) (n : nat) : Qc :=
  cond_exp (run no_law collapse_witness n st0) ev (fun s => s "x").

(* the old rule refuted: the old stored guard of the witness is not its guard, the loop has
   terminated with positive probability after 3 iterations, and conditioning on the negated old
   stored guard gives a different value (7/15) than conditioning on termination (1) *)
Theorem collapse_guard_old_rule_refuted :
  exists (p : prog) (f : state -> Qc) (n : nat),
    stored_guard_old 2 p <> p_guard p /\
    prob (run no_law p n st0) (stopped p) <> 0 /\
    cond_exp (run no_law p n st0) (stopped p) f <>
    cond_exp (run no_law p n st0) (fun s => negb (holds (stored_guard_old 2 p) s)) f.
Proof.
  exists collapse_witness, (fun s => s "x"), 3%nat. split; [|split].
  - vm_compute. discriminate.
  - vm_compute. discriminate.
  - vm_compute. discriminate.
Qed.

(* further executable helpers for the harness (no theorem depends on them):
   the same oracle for an arbitrary event "cond false" instead of the program's own guard
   (used to attribute a mismatch to the guard Polar stored) *)
Definition event_row (ev : cond) (ms : list mono) (d : dist state) : list (Z * positive) :=
  qpair (prob d (fun s => negb (holds ev s)))
  :: map (fun m => qpair (E d (fun s => ind (negb (holds ev s)) * eval_mono m s))) ms.
Fixpoint event_moments_aux (vs : list var) (p : prog) (ev : cond) (ms : list mono) (d : dist state) (N : nat)
  : list (list (Z * positive)) :=
  event_row ev ms d ::
  match N with O => [] | S N' => event_moments_aux vs p ev ms (compact vs (bind d (iter no_law p))) N' end.
Definition event_moments (vs : list var) (p : prog) (ev : cond) (ms : list mono) (N : nat) : list (list (Z * positive)) :=
  event_moments_aux vs p ev ms (compact vs (exec_block no_law (p_init p) st0)) N.

(* two conditions agree on every listed valuation *)
Definition conds_agree (envs : list (list (var * Qc))) (c1 c2 : cond) : bool :=
  forallb (fun env => Bool.eqb (holds c1 (env_state env)) (holds c2 (env_state env))) envs.
