(* C05: verified validator for finite types of flat programs.
   [check_types fp T = true] says T is a post-fixpoint of the cartesian value-set transfer
   function in which the value of the default variable is always included (unless the
   condition is literally true).  [check_types_sound]: then every state reachable in any
   iteration, at every program point, is typed — including iterations in which the folded
   loop guard is false. *)
From Coq Require Import List String QArith Qcanon ZArith Bool.
From Polar Require Import Qcx Dist Syntax Sem.
Import ListNotations.
Local Open Scope Qc_scope.

Definition tenv := list (var * list Qc).

Fixpoint tlookup (T : tenv) (x : var) : option (list Qc) :=
  match T with
  | [] => None
  | (y, vs) :: T' => if var_eqb x y then Some vs else tlookup T' x
  end.

Definition typed (T : tenv) (s : state) : Prop :=
  forall x vs, tlookup T x = Some vs -> In (s x) vs.

Lemma typed_nil s : typed [] s.
Proof. intros x vs H; discriminate H. Qed.
Lemma tlookup_In T x vs : tlookup T x = Some vs -> In (x, vs) T.
Proof.
  induction T as [|[y ws] T IH]; cbn [tlookup]; intros H; [discriminate|].
  destruct (var_eqb_spec x y) as [->|_]; [injection H as ->; left; reflexivity | right; exact (IH H)].
Qed.

Fixpoint mem (q : Qc) (vs : list Qc) : bool :=
  match vs with [] => false | v :: vs' => Qc_eqb q v || mem q vs' end.
Lemma mem_In q vs : mem q vs = true -> In q vs.
Proof.
  induction vs as [|v vs IH]; simpl; intros H; [discriminate|].
  apply orb_true_iff in H; destruct H as [H|H]; [left; symmetry; apply Qc_eqb_true; exact H | right; auto].
Qed.
Lemma mem_complete q vs : In q vs -> mem q vs = true.
Proof.
  induction vs as [|v vs IH]; cbn [In mem]; intros H; [destruct H|].
  apply orb_true_iff. destruct H as [->|H]; [left; apply Qc_eqb_refl | right; auto].
Qed.
Lemma mem_false q vs : mem q vs = false -> ~ In q vs.
Proof. intros H Hin. rewrite (mem_complete _ _ Hin) in H. discriminate H. Qed.
Definition subset (a b : list Qc) : bool := forallb (fun q => mem q b) a.
Lemma subset_In a b : subset a b = true -> forall q, In q a -> In q b.
Proof.
  unfold subset; intros H q Hq. rewrite forallb_forall in H. apply mem_In, H, Hq.
Qed.
Lemma subset_complete a b : (forall q, In q a -> In q b) -> subset a b = true.
Proof. intros H. apply forallb_forall. intros q Hq. apply mem_complete, H, Hq. Qed.

Fixpoint vars_of (e : expr) : list var :=
  match e with
  | EConst _ => []
  | EVar x => [x]
  | EAdd a b | EMul a b => vars_of a ++ vars_of b
  | EPow a _ => vars_of a
  end.

Fixpoint alookup (env : list (var * Qc)) (x : var) : Qc :=
  match env with [] => 0 | (y, v) :: env' => if var_eqb x y then v else alookup env' x end.
Definition env_state (env : list (var * Qc)) : state := alookup env.

(* possible values of an expression: every typed valuation of its variables (each variable
   gets ONE value for all its occurrences, as Polar's typer substitutes); [R] says which
   variables may be read *)
Fixpoint valuations (R : var -> bool) (T : tenv) (xs : list var) : option (list (list (var * Qc))) :=
  match xs with
  | [] => Some [[]]
  | x :: xs' =>
      if R x then
        match tlookup T x, valuations R T xs' with
        | Some vs, Some envs => Some (flat_map (fun v => map (fun env => (x, v) :: env) envs) vs)
        | _, _ => None
        end
      else None
  end.

Definition eval_set (R : var -> bool) (T : tenv) (e : expr) : option (list Qc) :=
  match valuations R T (nodup string_dec (vars_of e)) with
  | Some envs => Some (map (fun env => eval e (env_state env)) envs)
  | None => None
  end.

Definition typed_on (R : var -> bool) (T : tenv) (s : state) : Prop :=
  forall x vs, R x = true -> tlookup T x = Some vs -> In (s x) vs.

Lemma eval_ext e s s' : (forall x, In x (vars_of e) -> s x = s' x) -> eval e s = eval e s'.
Proof.
  induction e as [q|x|a IHa b IHb|a IHa b IHb|a IHa k]; simpl; intros H.
  - reflexivity.
  - apply H; left; reflexivity.
  - rewrite IHa, IHb; [reflexivity| |]; intros x Hx; apply H; apply in_or_app; auto.
  - rewrite IHa, IHb; [reflexivity| |]; intros x Hx; apply H; apply in_or_app; auto.
  - rewrite IHa; [reflexivity|]. exact H.
Qed.
Lemma map_eval_ext es s s' :
  (forall x, In x (flat_map vars_of es) -> s x = s' x) -> map (fun e => eval e s) es = map (fun e => eval e s') es.
Proof.
  intros H. apply map_ext_in. intros e He. apply eval_ext. intros x Hx. apply H.
  apply in_flat_map. exists e. split; assumption.
Qed.
Lemma eval_upd_notin e s x v : ~ In x (vars_of e) -> eval e (upd s x v) = eval e s.
Proof. intros H. apply eval_ext. intros y Hy. apply upd_other. intros ->. exact (H Hy). Qed.

Lemma valuations_complete R T s xs envs :
  typed_on R T s -> valuations R T xs = Some envs -> In (map (fun x => (x, s x)) xs) envs.
Proof.
  intros HT; revert envs; induction xs as [|x xs IH]; simpl; intros envs H.
  - inversion H; left; reflexivity.
  - destruct (R x) eqn:ER; [|discriminate].
    destruct (tlookup T x) as [vs|] eqn:Ex; [|discriminate].
    destruct (valuations R T xs) as [envs'|]; [|discriminate].
    inversion H; subst. apply in_flat_map. exists (s x); split; [apply (HT x vs ER Ex)|].
    apply (in_map (fun env => (x, s x) :: env)). apply IH; reflexivity.
Qed.

Lemma valuations_some R T xs :
  (forall x, In x xs -> R x = true /\ exists tx, tlookup T x = Some tx) -> exists envs, valuations R T xs = Some envs.
Proof.
  induction xs as [|x xs IH]; cbn [valuations]; intros H; [eexists; reflexivity|].
  destruct (H x (or_introl eq_refl)) as [HR [tx Hx]]. rewrite HR, Hx.
  destruct IH as [envs He]; [intros y Hy; apply H; right; exact Hy|]. rewrite He. eexists; reflexivity.
Qed.

Lemma valuations_typed R T xs envs env :
  valuations R T xs = Some envs -> In env envs ->
  forall x, In x xs -> exists tx, tlookup T x = Some tx /\ In (alookup env x) tx.
Proof.
  revert envs env; induction xs as [|y xs IH]; cbn [valuations]; intros envs env H Hin x Hx; [destruct Hx|].
  destruct (R y); [|discriminate].
  destruct (tlookup T y) as [ty|] eqn:Ey; [|discriminate].
  destruct (valuations R T xs) as [envs'|] eqn:Ev; [|discriminate].
  injection H as <-. apply in_flat_map in Hin. destruct Hin as [v [Hv Hin]].
  apply in_map_iff in Hin. destruct Hin as [env' [<- Hin']].
  cbn [alookup]. destruct (var_eqb_spec x y) as [->|Hne]; [exists ty; auto|].
  destruct Hx as [->|Hx]; [contradiction | exact (IH _ _ eq_refl Hin' x Hx)].
Qed.

Lemma alookup_map s xs y : In y xs -> alookup (map (fun x => (x, s x)) xs) y = s y.
Proof.
  induction xs as [|x xs IH]; cbn [map alookup In]; intros H; [destruct H|].
  destruct (var_eqb_spec y x) as [->|Hne]; [reflexivity|].
  destruct H as [->|H]; [contradiction | exact (IH H)].
Qed.
Lemma alookup_rev_map s xs y : In y xs -> alookup (rev (map (fun x => (x, s x)) xs)) y = s y.
Proof. intros H. rewrite <- map_rev. apply alookup_map. apply -> in_rev. exact H. Qed.

Lemma eval_set_sound R T s e vs :
  typed_on R T s -> eval_set R T e = Some vs -> In (eval e s) vs.
Proof.
  unfold eval_set; intros HT H.
  destruct (valuations R T (nodup string_dec (vars_of e))) as [envs|] eqn:Ev; [|discriminate].
  inversion H; subst.
  pose proof (valuations_complete R T s _ _ HT Ev) as Hin.
  apply (in_map (fun env => eval e (env_state env))) in Hin.
  rewrite (eval_ext e s (env_state (map (fun x => (x, s x)) (nodup string_dec (vars_of e))))); [exact Hin|].
  intros x Hx. unfold env_state. symmetry. apply alookup_map. apply nodup_In. exact Hx.
Qed.

Fixpoint cat_vals (n : nat) (i : nat) : list Qc :=
  match n with O => [] | S n' => qnat i :: cat_vals n' (S i) end.
Fixpoint unif_vals (a : Z) (n : nat) : list Qc :=
  match n with O => [] | S n' => mkq a 1 :: unif_vals (a + 1)%Z n' end.
Lemma cat_law_vals ps i w v : In (w, v) (cat_law ps i) -> In v (cat_vals (List.length ps) i).
Proof.
  revert i; induction ps as [|p ps IH]; simpl; intros i H; [destruct H|].
  destruct H as [H|H]; [inversion H; left; reflexivity | right; apply IH; exact H].
Qed.
Lemma unif_law_vals c a n w v : In (w, v) (unif_law c a n) -> In v (unif_vals a n).
Proof.
  revert a; induction n as [|n IH]; simpl; intros a H; [destruct H|].
  destruct H as [H|H]; [inversion H; left; reflexivity | right; apply IH; exact H].
Qed.

(* all values a right-hand side can produce, whatever the probabilities *)
Fixpoint choice_set (R : var -> bool) (T : tenv) (alts : list (expr * expr)) : option (list Qc) :=
  match alts with
  | [] => Some []
  | (_, e) :: alts' =>
      match eval_set R T e, choice_set R T alts' with
      | Some v, Some vs => Some (v ++ vs) | _, _ => None end
  end.

Definition rhs_set (R : var -> bool) (T : tenv) (r : rhs) : option (list Qc) :=
  match r with
  | RChoice alts => choice_set R T alts
  | RDraw (DBern _) => Some [1; 0]
  | RDraw (DCat ps) => Some (cat_vals (List.length ps) 0)
  | RDraw (DUnif a b) => Some (unif_vals a (Z.to_nat (b - a + 1)))
  | RDraw (DCont _ _) => None
  end.

Definition all_vars : var -> bool := fun _ => true.

(* one guarded assignment keeps the type environment *)
Definition check_ga (T : tenv) (g : gassign) : bool :=
  match tlookup T (ga_var g) with
  | None => true
  | Some vs =>
      match rhs_set all_vars T (ga_rhs g) with
      | None => false
      | Some rs =>
          subset rs vs &&
          match ga_cond g with
          | CTrue => true
          | _ => match tlookup T (ga_default g) with Some ds => subset ds vs | None => false end
          end
      end
  end.

Lemma typed_all T s : typed T s <-> typed_on all_vars T s.
Proof. unfold typed, typed_on, all_vars; split; intros H x vs; auto. Qed.

Lemma typed_upd_env T T' s x v :
  typed T s -> (forall y, y <> x -> tlookup T' y = tlookup T y) ->
  (forall vs, tlookup T' x = Some vs -> In v vs) -> typed T' (upd s x v).
Proof.
  intros HT Hy Hv y vs. destruct (var_eqb_spec y x) as [->|Hne].
  - rewrite upd_same. apply Hv.
  - rewrite upd_other, (Hy y Hne) by exact Hne. apply HT.
Qed.

Lemma typed_upd T s x v :
  typed T s -> (forall vs, tlookup T x = Some vs -> In v vs) -> typed T (upd s x v).
Proof. intros HT. apply (typed_upd_env T T); [exact HT | reflexivity]. Qed.

Lemma check_ga_iff T g :
  check_ga T g = true <->
  forall vs, tlookup T (ga_var g) = Some vs ->
    (exists rs, rhs_set all_vars T (ga_rhs g) = Some rs /\ subset rs vs = true) /\
    (ga_cond g <> CTrue -> exists ds, tlookup T (ga_default g) = Some ds /\ subset ds vs = true).
Proof.
  unfold check_ga. destruct (tlookup T (ga_var g)) as [vs|]; [|split; [intros _ vs E; discriminate E | reflexivity]].
  destruct (rhs_set all_vars T (ga_rhs g)) as [rs|].
  - rewrite andb_true_iff. split.
    + intros [Hs Hd] vs' E. injection E as <-. split; [exists rs; auto|]. intros Hc.
      destruct (tlookup T (ga_default g)) as [ds|]; [exists ds; split; [reflexivity|]|]; destruct (ga_cond g); congruence.
    + intros H. destruct (H vs eq_refl) as [[rs' [E Hs]] Hd]. injection E as <-. split; [exact Hs|].
      destruct (ga_cond g); try reflexivity; (destruct Hd as [ds [-> Hds]]; [discriminate | exact Hds]).
  - split; [discriminate|]. intros H. destruct (H vs eq_refl) as [[rs [E _]] _]. discriminate E.
Qed.

Lemma check_ga_nil l : forallb (check_ga []) l = true.
Proof. induction l as [|g l IH]; cbn [forallb]; [reflexivity|]. rewrite IH. reflexivity. Qed.

(* initial block: assignments are unconditional; value sets are tracked flow-
   sensitively in a local environment L (the typer also evaluates the initial block in
   order), declared types of variables not initialised there are taken as given *)
Definition mem_var (x : var) (l : list var) : bool := existsb (var_eqb x) l.
Definition declared (initvars : list var) (T : tenv) : tenv :=
  filter (fun xt => negb (mem_var (fst xt) initvars)) T.
Definition remove_var (x : var) (L : tenv) : tenv := filter (fun yt => negb (var_eqb (fst yt) x)) L.

Fixpoint init_env (D : tenv) (L : tenv) (l : list gassign) : option tenv :=
  match l with
  | [] => Some L
  | g :: l' =>
      match ga_cond g with
      | CTrue =>
          match rhs_set all_vars (L ++ D) (ga_rhs g) with
          | Some rs => init_env D ((ga_var g, rs) :: L) l'
          | None => init_env D (remove_var (ga_var g) L) l'
          end
      | _ => None
      end
  end.

Definition check_init (T : tenv) (l : list gassign) : bool :=
  let initvars := map ga_var l in
  match init_env (declared initvars T) [] l with
  | Some L =>
      forallb (fun xt => if mem_var (fst xt) initvars
                         then match tlookup L (fst xt) with Some rs => subset rs (snd xt) | None => false end
                         else true) T
  | None => false
  end.

Lemma tlookup_app L D x :
  tlookup (L ++ D) x = match tlookup L x with Some v => Some v | None => tlookup D x end.
Proof.
  induction L as [|[y vs] L IH]; simpl; [reflexivity|]. destruct (var_eqb x y); [reflexivity | exact IH].
Qed.

(* [remove_var] and [declared] keep the entries whose variable passes a test *)
Lemma tlookup_filter (keep : var -> bool) T x :
  tlookup (filter (fun yt => keep (fst yt)) T) x = if keep x then tlookup T x else None.
Proof.
  induction T as [|[y vs] T IH]; cbn [filter fst]; [destruct (keep x); reflexivity|].
  destruct (keep y) eqn:Ey; cbn [tlookup]; destruct (var_eqb_spec x y) as [->|_]; try exact IH.
  - rewrite Ey. reflexivity.
  - rewrite IH, Ey. reflexivity.
Qed.

Lemma tlookup_remove_same x L : tlookup (remove_var x L) x = None.
Proof. unfold remove_var. rewrite (tlookup_filter (fun y => negb (var_eqb y x))), var_eqb_refl. reflexivity. Qed.
Lemma tlookup_remove_other x y L : var_eqb y x = false -> tlookup (remove_var x L) y = tlookup L y.
Proof. intros E. unfold remove_var. rewrite (tlookup_filter (fun y => negb (var_eqb y x))), E. reflexivity. Qed.
Lemma tlookup_declared_init initvars T x :
  mem_var x initvars = true -> tlookup (declared initvars T) x = None.
Proof. intros E. unfold declared. rewrite (tlookup_filter (fun y => negb (mem_var y initvars))), E. reflexivity. Qed.
Lemma tlookup_declared_other initvars T x :
  mem_var x initvars = false -> tlookup (declared initvars T) x = tlookup T x.
Proof. intros E. unfold declared. rewrite (tlookup_filter (fun y => negb (mem_var y initvars))), E. reflexivity. Qed.

Lemma mem_var_In x l : In x l -> mem_var x l = true.
Proof.
  unfold mem_var; intros H. apply existsb_exists. exists x; split; [exact H | apply var_eqb_refl].
Qed.
Lemma mem_var_true x l : mem_var x l = true -> In x l.
Proof.
  unfold mem_var. intros H. apply existsb_exists in H. destruct H as [y [Hin He]].
  apply var_eqb_eq in He. subst. exact Hin.
Qed.
Lemma mem_var_false x l : mem_var x l = false -> ~ In x l.
Proof. intros H Hin. rewrite (mem_var_In _ _ Hin) in H. discriminate. Qed.

(* the local environment after one initial assignment *)
Definition init_env_step (D L : tenv) (g : gassign) : tenv :=
  match rhs_set all_vars (L ++ D) (ga_rhs g) with
  | Some rs => (ga_var g, rs) :: L
  | None => remove_var (ga_var g) L
  end.
Lemma init_env_cons D L g l :
  init_env D L (g :: l) =
  match ga_cond g with CTrue => init_env D (init_env_step D L g) l | _ => None end.
Proof.
  unfold init_env_step. cbn [init_env]. destruct (rhs_set all_vars (L ++ D) (ga_rhs g)); reflexivity.
Qed.
Lemma tlookup_init_step_same D L g :
  tlookup (init_env_step D L g) (ga_var g) = rhs_set all_vars (L ++ D) (ga_rhs g).
Proof.
  unfold init_env_step. destruct (rhs_set all_vars (L ++ D) (ga_rhs g)).
  - cbn [tlookup]. rewrite var_eqb_refl. reflexivity.
  - apply tlookup_remove_same.
Qed.
Lemma tlookup_init_step_other D L g y :
  var_eqb y (ga_var g) = false -> tlookup (init_env_step D L g) y = tlookup L y.
Proof.
  intros E. unfold init_env_step. destruct (rhs_set all_vars (L ++ D) (ga_rhs g)).
  - cbn [tlookup]. rewrite E. reflexivity.
  - apply tlookup_remove_other, E.
Qed.

Lemma init_env_dom D l y : mem_var y (map ga_var l) = false ->
  forall L L', init_env D L l = Some L' -> tlookup L y = None -> tlookup L' y = None.
Proof.
  induction l as [|g l IH]; intros Hy L L' H HL.
  - injection H as <-. exact HL.
  - rewrite init_env_cons in H. cbn [map mem_var existsb] in Hy.
    apply orb_false_iff in Hy. destruct Hy as [Hg Hl]. destruct (ga_cond g); try discriminate H.
    apply (IH Hl _ _ H). rewrite (tlookup_init_step_other D L g y Hg). exact HL.
Qed.

Definition check_types (fp : flatprog) (T : tenv) : bool :=
  check_init T (fp_init fp) && forallb (check_ga T) (fp_body fp).
Lemma check_types_init fp T : check_types fp T = true -> check_init T (fp_init fp) = true.
Proof. unfold check_types. intros H. apply andb_true_iff in H. apply H. Qed.
Lemma check_types_body fp T : check_types fp T = true -> forallb (check_ga T) (fp_body fp) = true.
Proof. unfold check_types. intros H. apply andb_true_iff in H. apply H. Qed.

(* what is assumed of the state before the initial block: variables that are typed but
   not initialised there (declared types) hold a value of their type *)
Definition init_ok (fp : flatprog) (T : tenv) (s0 : state) : Prop :=
  typed (declared (map ga_var (fp_init fp)) T) s0.

Section Sound.
  Variable law : string -> list Qc -> dist Qc.

  Lemma rhs_set_sound R T s r vs :
    typed_on R T s -> rhs_set R T r = Some vs -> forall v, supp (sample law r s) v -> In v vs.
  Proof.
    intros HT H v [w Hin]. destruct r as [alts|d]; simpl in *.
    - revert vs H Hin. induction alts as [|[p e] alts IH]; simpl; intros vs H Hin; [destruct Hin|].
      destruct (eval_set R T e) as [ve|] eqn:Ee; [|discriminate].
      destruct (choice_set R T alts) as [vr|] eqn:Er; [|discriminate].
      inversion H; subst. apply in_or_app. destruct Hin as [Hin|Hin].
      + left. inversion Hin; subst. eapply eval_set_sound; eauto.
      + right. apply (IH vr eq_refl Hin).
    - destruct d as [p|ps|a b|f args]; simpl in *; try discriminate.
      + inversion H; subst. destruct Hin as [Hin|[Hin|[]]]; inversion Hin; subst; simpl; auto.
      + inversion H; subst. rewrite <- (map_length (fun e => eval e s) ps). eapply cat_law_vals; eauto.
      + inversion H; subst. eapply unif_law_vals; eauto.
  Qed.

  Lemma check_ga_sound T g s :
    check_ga T g = true -> typed T s -> forall s', supp (exec_ga law g s) s' -> typed T s'.
  Proof.
    intros H HT s' Hs'. destruct (exec_ga_supp law g s s' Hs') as [v [-> Hv]].
    apply typed_upd; [exact HT|]. intros vs Ex.
    destruct (proj1 (check_ga_iff T g) H vs Ex) as [[rs [Er Hsub]] Hdef]. destruct Hv as [Hv|[Hc ->]].
    - apply (subset_In _ _ Hsub), (rhs_set_sound all_vars T s _ _ (proj1 (typed_all T s) HT) Er v Hv).
    - destruct (Hdef Hc) as [ds [Ed Hds]]. exact (subset_In ds vs Hds _ (HT _ _ Ed)).
  Qed.

  Lemma check_gas_sound T l s :
    forallb (check_ga T) l = true -> typed T s ->
    forall s', supp (exec_gas law l s) s' -> typed T s'.
  Proof.
    revert s; induction l as [|g l IH]; cbn [forallb exec_gas]; intros s H HT s' Hs'.
    - apply supp_ret in Hs'; subst; exact HT.
    - apply andb_true_iff in H; destruct H as [Hg Hl].
      apply supp_bind in Hs'. destruct Hs' as [s1 [H1 H2]].
      exact (IH s1 Hl (check_ga_sound T g s Hg HT s1 H1) s' H2).
  Qed.

  Lemma init_env_sound D l : (forall g, In g l -> tlookup D (ga_var g) = None) ->
    forall L L' s, init_env D L l = Some L' -> typed (L ++ D) s ->
    forall s', supp (exec_gas law l s) s' -> typed (L' ++ D) s'.
  Proof.
    induction l as [|g l IH]; intros HD L L' s H HT s' Hs'.
    - injection H as <-. apply supp_ret in Hs'; subst; exact HT.
    - rewrite init_env_cons in H. apply supp_bind in Hs'. destruct Hs' as [s1 [H1 H2]].
      destruct (exec_ga_supp law g s s1 H1) as [v [-> [Hv|[Hc _]]]];
        destruct (ga_cond g); try discriminate H; [|contradiction].
      refine (IH (fun g0 Hg0 => HD g0 (or_intror Hg0)) _ _ _ H _ s' H2).
      apply (typed_upd_env (L ++ D)); [exact HT | |].
      + intros y Hne. apply var_eqb_neq in Hne. rewrite !tlookup_app, (tlookup_init_step_other D L g y Hne). reflexivity.
      + intros vs. rewrite tlookup_app, tlookup_init_step_same, (HD g (or_introl eq_refl)).
        destruct (rhs_set all_vars (L ++ D) (ga_rhs g)) as [rs|] eqn:Er; [|discriminate].
        intros E; injection E as <-.
        exact (rhs_set_sound all_vars _ s _ _ (proj1 (typed_all _ s) HT) Er v Hv).
  Qed.

  Lemma check_init_sound T l s0 s :
    check_init T l = true -> typed (declared (map ga_var l) T) s0 ->
    supp (exec_gas law l s0) s -> typed T s.
  Proof.
    unfold check_init. set (iv := map ga_var l). set (D := declared iv T). intros H H0 Hs.
    destruct (init_env D [] l) as [L|] eqn:EL; [|discriminate].
    assert (HT : typed (L ++ D) s).
    { apply (init_env_sound D l) with (L := []) (s := s0); [|exact EL | exact H0 | exact Hs].
      intros g Hg. apply tlookup_declared_init, mem_var_In, in_map, Hg. }
    intros x vs Hx. rewrite forallb_forall in H. specialize (H (x, vs) (tlookup_In _ _ _ Hx)). cbn [fst snd] in H.
    destruct (mem_var x iv) eqn:Em.
    - destruct (tlookup L x) as [rs|] eqn:ELx; [|discriminate].
      apply (subset_In _ _ H), HT. rewrite tlookup_app, ELx. reflexivity.
    - apply HT. rewrite tlookup_app, (init_env_dom D l x Em _ _ EL eq_refl).
      unfold D. rewrite tlookup_declared_other by exact Em. exact Hx.
  Qed.

  Theorem check_types_sound fp T :
    check_types fp T = true ->
    forall s0, init_ok fp T s0 ->
    forall n s, supp (frun law fp n s0) s -> typed T s.
  Proof.
    intros H s0 H0 n. induction n as [|n IH]; simpl; intros s Hs.
    - exact (check_init_sound T _ s0 s (check_types_init fp T H) H0 Hs).
    - apply supp_bind in Hs. destruct Hs as [s1 [H1 H2]].
      exact (check_gas_sound T _ s1 (check_types_body fp T H) (IH s1 H1) s H2).
  Qed.

  (* every program point inside an iteration: after any prefix of the body *)
  Theorem check_types_sound_pointwise fp T :
    check_types fp T = true ->
    forall s0, init_ok fp T s0 ->
    forall n pre post, fp_body fp = pre ++ post ->
    forall s, supp (bind (frun law fp n s0) (exec_gas law pre)) s -> typed T s.
  Proof.
    intros H s0 H0 n pre post Hsplit s Hs.
    apply supp_bind in Hs. destruct Hs as [s1 [H1 H2]].
    pose proof (check_types_sound fp T H s0 H0 n s1 H1) as HT1.
    pose proof (check_types_body fp T H) as Hb.
    rewrite Hsplit, forallb_app in Hb. apply andb_true_iff in Hb; destruct Hb as [Hpre _].
    eapply check_gas_sound; eauto.
  Qed.

  Lemma E_frun_typed fp T s0 n f g :
    check_types fp T = true -> init_ok fp T s0 -> (forall s, typed T s -> f s = g s) ->
    E (frun law fp n s0) f = E (frun law fp n s0) g.
  Proof.
    intros HT H0 H. apply E_ext_in. intros w s Hin. apply H.
    apply (check_types_sound fp T HT s0 H0 n). exists w. exact Hin.
  Qed.
End Sound.
