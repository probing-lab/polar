(* C20, part 2 — process history through caches.  State-passing model of Python's
   functools.lru_cache (and of any dict cache keyed by value): a cache in front of a PURE
   function is transparent for any call sequence, any start content consistent with the
   function, and any eviction / reordering policy.  Purity is the premise: if the function
   changes between two calls (cache keyed by the identity of an object that is mutated
   in between) the stale value is returned — [memo_stale_refuted].
   Part 4 — an Or-chain built by popping a Python set in arbitrary order has the same
   truth value in every state. *)
From Coq Require Import List Bool Arith Lia Permutation String QArith Qcanon.
From Polar Require Import Qcx Dist Syntax Sem.
Import ListNotations.

Section Memo.
  Variables K V : Type.
  Variable keqb : K -> K -> bool.
  (* only soundness of the key test is needed for transparency *)
  Hypothesis keqb_sound : forall x y, keqb x y = true -> x = y.

  Definition table := list (K * V).

  Fixpoint lookup (tbl : table) (x : K) : option V :=
    match tbl with
    | [] => None
    | (k, v) :: t => if keqb x k then Some v else lookup t x
    end.

  Definition memo_call (f : K -> V) (tbl : table) (x : K) : V * table :=
    match lookup tbl x with
    | Some v => (v, tbl)
    | None => (f x, (x, f x) :: tbl)
    end.

  Definition consistent (f : K -> V) (tbl : table) : Prop :=
    forall x v, lookup tbl x = Some v -> v = f x.

  (* [tbl'] may replace [tbl]: every answer of the new table was an answer of the old one.
     Covers eviction of any entries (maxsize), clearing, and LRU reordering. *)
  Definition shrinks (tbl tbl' : table) : Prop :=
    forall x v, lookup tbl' x = Some v -> lookup tbl x = Some v.

  Lemma consistent_nil f : consistent f [].
  Proof. intros x v H; discriminate H. Qed.

  Lemma consistent_shrinks f tbl tbl' : consistent f tbl -> shrinks tbl tbl' -> consistent f tbl'.
  Proof. intros Hc Hs x v H. apply Hc, Hs, H. Qed.

  Lemma memo_call_correct f tbl x :
    consistent f tbl -> fst (memo_call f tbl x) = f x /\ consistent f (snd (memo_call f tbl x)).
  Proof.
    intros Hc. unfold memo_call. destruct (lookup tbl x) as [v|] eqn:E; cbn [fst snd].
    - split; [apply Hc; exact E | exact Hc].
    - split; [reflexivity|]. intros y w. cbn [lookup].
      destruct (keqb y x) eqn:Ey.
      + intros H; inversion H; subst. apply keqb_sound in Ey. subst. reflexivity.
      + apply Hc.
  Qed.

  Lemma shrinks_refl tbl : shrinks tbl tbl.
  Proof. intros x v H; exact H. Qed.
  Lemma shrinks_clear tbl : shrinks tbl [].
  Proof. intros x v H; discriminate H. Qed.
  Lemma shrinks_firstn m tbl : shrinks tbl (firstn m tbl).
  Proof.
    revert tbl; induction m as [|m IH]; intros [|[k w] t] x v; cbn [firstn lookup]; try discriminate; auto.
    destruct (keqb x k); [auto | apply IH].
  Qed.
  Lemma lookup_filter_keys (p : K -> bool) tbl x :
    lookup (filter (fun kv => p (fst kv)) tbl) x = if p x then lookup tbl x else None.
  Proof.
    induction tbl as [|[k w] t IH]; cbn [filter lookup fst]; [destruct (p x); reflexivity|].
    destruct (p k) eqn:Ep; cbn [lookup]; destruct (keqb x k) eqn:Ex; try exact IH;
      apply keqb_sound in Ex; subst k; rewrite Ep in *.
    - reflexivity.
    - (* the dropped entry would have answered for x, but x fails p *) exact IH.
  Qed.

  Lemma shrinks_filter_keys (p : K -> bool) tbl : shrinks tbl (filter (fun kv => p (fst kv)) tbl).
  Proof. intros x v. rewrite lookup_filter_keys. destruct (p x); [auto | discriminate]. Qed.

  Inductive event := Call (x : K) | Replace (tbl' : table).

  Fixpoint run (f : K -> V) (tbl : table) (evs : list event) : list V * table :=
    match evs with
    | [] => ([], tbl)
    | Call x :: r =>
        let c := memo_call f tbl x in
        let rr := run f (snd c) r in (fst c :: fst rr, snd rr)
    | Replace t' :: r => run f t' r
    end.

  Fixpoint valid (f : K -> V) (tbl : table) (evs : list event) : Prop :=
    match evs with
    | [] => True
    | Call x :: r => valid f (snd (memo_call f tbl x)) r
    | Replace t' :: r => shrinks tbl t' /\ valid f t' r
    end.

  Fixpoint calls (evs : list event) : list K :=
    match evs with
    | [] => []
    | Call x :: r => x :: calls r
    | Replace _ :: r => calls r
    end.

  Theorem memo_transparent f : forall evs tbl,
    consistent f tbl -> valid f tbl evs ->
    fst (run f tbl evs) = map f (calls evs) /\ consistent f (snd (run f tbl evs)).
  Proof.
    induction evs as [|[x|t'] r IH]; intros tbl Hc Hv; cbn [run calls map fst snd].
    - split; [reflexivity | exact Hc].
    - destruct (memo_call_correct f tbl x Hc) as [H1 H2].
      cbn [valid] in Hv. destruct (IH _ H2 Hv) as [H3 H4].
      split; [rewrite H1, H3; reflexivity | exact H4].
    - cbn [valid] in Hv. destruct Hv as [Hs Hv].
      apply IH; [eapply consistent_shrinks; eauto | exact Hv].
  Qed.

  Fixpoint run_calls (f : K -> V) (tbl : table) (xs : list K) : list V * table :=
    match xs with
    | [] => ([], tbl)
    | x :: r =>
        let c := memo_call f tbl x in
        let rr := run_calls f (snd c) r in (fst c :: fst rr, snd rr)
    end.

  Theorem memo_calls_transparent f : forall xs tbl,
    consistent f tbl ->
    fst (run_calls f tbl xs) = map f xs /\ consistent f (snd (run_calls f tbl xs)).
  Proof.
    induction xs as [|x r IH]; intros tbl Hc; cbn [run_calls map fst snd].
    - split; [reflexivity | exact Hc].
    - destruct (memo_call_correct f tbl x Hc) as [H1 H2].
      destruct (IH _ H2) as [H3 H4]. split; [rewrite H1, H3; reflexivity | exact H4].
  Qed.

  (* history independence: the results do not depend on the table one starts with *)
  Corollary memo_history_independent f xs tbl1 tbl2 :
    consistent f tbl1 -> consistent f tbl2 ->
    fst (run_calls f tbl1 xs) = fst (run_calls f tbl2 xs).
  Proof.
    intros H1 H2.
    rewrite (proj1 (memo_calls_transparent f xs tbl1 H1)), (proj1 (memo_calls_transparent f xs tbl2 H2)).
    reflexivity.
  Qed.

  (* variant with the membership-based reading of "all entries were in the old table";
     needs the stronger invariant that EVERY entry (also shadowed ones) is correct *)
  Definition all_correct (f : K -> V) (tbl : table) : Prop :=
    forall k v, In (k, v) tbl -> v = f k.

  Lemma lookup_In tbl x v : lookup tbl x = Some v -> In (x, v) tbl.
  Proof.
    induction tbl as [|[k w] t IH]; cbn [lookup]; [discriminate|].
    destruct (keqb x k) eqn:E; intros H.
    - inversion H; subst. apply keqb_sound in E. subst. left; reflexivity.
    - right; apply IH; exact H.
  Qed.

  Lemma all_correct_consistent f tbl : all_correct f tbl -> consistent f tbl.
  Proof. intros H x v L. apply H, lookup_In, L. Qed.

  Lemma memo_call_all_correct f tbl x :
    all_correct f tbl -> all_correct f (snd (memo_call f tbl x)).
  Proof.
    intros Hc. unfold memo_call. destruct (lookup tbl x); cbn [snd]; [exact Hc|].
    intros k v [H|H]; [inversion H; subst; reflexivity | apply Hc; exact H].
  Qed.

  Fixpoint valid_incl (f : K -> V) (tbl : table) (evs : list event) : Prop :=
    match evs with
    | [] => True
    | Call x :: r => valid_incl f (snd (memo_call f tbl x)) r
    | Replace t' :: r => incl t' tbl /\ valid_incl f t' r
    end.

  Theorem memo_transparent_incl f : forall evs tbl,
    all_correct f tbl -> valid_incl f tbl evs ->
    fst (run f tbl evs) = map f (calls evs) /\ all_correct f (snd (run f tbl evs)).
  Proof.
    induction evs as [|[x|t'] r IH]; intros tbl Hc Hv; cbn [run calls map fst snd].
    - split; [reflexivity | exact Hc].
    - destruct (memo_call_correct f tbl x (all_correct_consistent _ _ Hc)) as [H1 _].
      cbn [valid_incl] in Hv. destruct (IH _ (memo_call_all_correct f tbl x Hc) Hv) as [H3 H4].
      split; [rewrite H1, H3; reflexivity | exact H4].
    - cbn [valid_incl] in Hv. destruct Hv as [Hs Hv].
      apply IH; [|exact Hv]. intros k v Hin. apply Hc, Hs, Hin.
  Qed.
End Memo.

Arguments lookup {K V} _ _ _. Arguments memo_call {K V} _ _ _ _.
Arguments consistent {K V} _ _ _. Arguments shrinks {K V} _ _ _.
Arguments Call {K V} _. Arguments Replace {K V} _.
Arguments run {K V} _ _ _ _. Arguments valid {K V} _ _ _ _. Arguments calls {K V} _.
Arguments run_calls {K V} _ _ _ _.
Arguments all_correct {K V} _ _. Arguments valid_incl {K V} _ _ _ _.

(* Why purity is the premise.  A cache keyed by object identity on a mutable object
   (Distribution.get_moment is lru_cached on self; subs/set_parameters mutate self): the
   function computed from the object is f before and f' after the mutation, the key is
   the same, the second call answers with the value of f. *)
Theorem memo_stale_refuted :
  exists (f f' : nat -> nat) (x : nat),
    fst (memo_call Nat.eqb f' (snd (memo_call Nat.eqb f [] x)) x) <> f' x.
Proof.
  exists (fun _ => 0%nat), (fun _ => 1%nat), 0%nat. vm_compute. discriminate.
Qed.

Definition or_chain (x : var) (vs : list Qc) : cond :=
  fold_right (fun v c => COr (CAtom (EVar x) Ceq (EConst v)) c) CFalse vs.

Lemma holds_or_chain x vs s : holds (or_chain x vs) s = existsb (fun v => Qc_eqb (s x) v) vs.
Proof.
  induction vs as [|v vs IH]; [reflexivity|].
  unfold or_chain in *. cbn [fold_right holds existsb eval cop_holds]. rewrite IH. reflexivity.
Qed.

Lemma existsb_perm {A} (p : A -> bool) l l' : Permutation l l' -> existsb p l = existsb p l'.
Proof.
  intros H; induction H as [|a l l' H IH|a b l|l l' l'' H1 IH1 H2 IH2]; cbn [existsb].
  - reflexivity.
  - rewrite IH; reflexivity.
  - destruct (p a), (p b); reflexivity.
  - rewrite IH1; exact IH2.
Qed.

Theorem or_chain_perm_invariant x vs vs' :
  Permutation vs vs' -> forall s, holds (or_chain x vs) s = holds (or_chain x vs') s.
Proof. intros H s. rewrite !holds_or_chain. apply existsb_perm; exact H. Qed.
