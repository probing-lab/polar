(* C15 — executable model (M) of Polar's Bayesian-network front end:
     bayesnet/transformer.py     BIF AST -> network   (assemble)
     bayesnet/code_generator.py  network -> loop program (topo_sort, codegen)
     bayesnet/query/*.py         query statements appended to the generated loop
   The generated program is represented in a small AST of its own (gassign / gstmt) whose
   reference semantics is in BayesNetSem.v.  Probabilities are exact rationals (Qc): the
   decimal literals of the BIF text read exactly; Python float summation is not modelled.

   Representation choices (tied to the code by the correspondence check K in
   harness/checks/c15.py on every run):
   * network variables are identified by their position in the file's declaration order
     (= iteration order of the Python dict network.variables);
   * domain values are identified by their position in the domain tuple; a CPT is an
     association list from parent-value index tuples, in itertools.product order, to rows
     (Python: dict keyed by tuples of value strings, created in product order by cpt_init);
   * NaN rows of the Python code (no default given) are None rows here. *)
From Coq Require Import String Ascii Arith Bool QArith Qcanon Lia List.
From Polar Require Import Qcx.
Import ListNotations.
Open Scope string_scope.
Open Scope list_scope.
Open Scope nat_scope.

Definition obind {A B} (o : option A) (f : A -> option B) : option B :=
  match o with Some a => f a | None => None end.
Notation "x <- o ;; k" := (obind o (fun x => k)) (at level 61, o at next level, right associativity).
Definition guard (b : bool) : option unit := if b then Some tt else None.

Fixpoint omap {A B} (f : A -> option B) (l : list A) : option (list B) :=
  match l with
  | [] => Some []
  | a :: r => b <- f a ;; bs <- omap f r ;; Some (b :: bs)
  end.

(* itertools.product of the lists ls: first component slowest *)
Fixpoint product {A} (ls : list (list A)) : list (list A) :=
  match ls with
  | [] => [[]]
  | l :: rest => flat_map (fun x => map (cons x) (product rest)) l
  end.

Fixpoint index_of (x : string) (l : list string) : option nat :=
  match l with
  | [] => None
  | y :: r => if String.eqb x y then Some 0 else option_map S (index_of x r)
  end.

Fixpoint mem_str (x : string) (l : list string) : bool :=
  match l with [] => false | y :: r => String.eqb x y || mem_str x r end.
Fixpoint nodup_str (l : list string) : bool :=
  match l with [] => true | y :: r => negb (mem_str y r) && nodup_str r end.

Definition list_eqb {A} (eqb : A -> A -> bool) : list A -> list A -> bool :=
  fix go l1 l2 := match l1, l2 with
                  | [], [] => true
                  | a :: r1, b :: r2 => eqb a b && go r1 r2
                  | _, _ => false
                  end.
Definition key_eqb : list nat -> list nat -> bool := list_eqb Nat.eqb.
Definition strs_eqb : list string -> list string -> bool := list_eqb String.eqb.
Fixpoint mem_nat (x : nat) (l : list nat) : bool :=
  match l with [] => false | y :: r => Nat.eqb x y || mem_nat x r end.

Definition qsum (l : list Qc) : Qc := fold_right Qcplus 0%Qc l.
Definition qabs (x : Qc) : Qc := if Qc_ltb x 0%Qc then (- x)%Qc else x.

(* BayesNetwork.cpt_entry_sum_valid: abs(1 - sum(probabilities)) < cpt_tolerance *)
Definition sum_valid (tol : Qc) (ps : list Qc) : bool := Qc_ltb (qabs (1 - qsum ps)%Qc) tol.

(* the BIF file as lark hands it to bayesnet/transformer.py *)
Record vardecl := { vd_name : string; vd_types : list (nat * list string) }.
Inductive cpt_item :=
| IDefault (ps : list Qc)
| ITable (ps : list Qc)
| IEntry (cond : list string) (ps : list Qc).
Record pblock := { pb_var : string; pb_parents : list string; pb_items : list cpt_item }.
Record bif := { b_vars : list vardecl; b_probs : list pblock }.

(* the network that bayesnet/transformer.py assembles from it *)
Definition row := list Qc.
Definition cpt := list (list nat * row).
Record nvar := { nv_name : string; nv_dom : list string; nv_par : list nat; nv_cpt : cpt }.
Definition network := list nvar.

(* variable_block + type: exactly one type definition, no duplicate values, declared size
   = actual size (the grammar guarantees at least one value) *)
Definition check_vardecl (v : vardecl) : option (string * list string) :=
  match vd_types v with
  | [(n, dom)] =>
      _ <- guard (nodup_str dom) ;;
      _ <- guard (Nat.eqb n (length dom)) ;;
      _ <- guard (negb (Nat.eqb (length dom) 0)) ;;
      Some (vd_name v, dom)
  | _ => None
  end.

Definition vtable := list (string * list string).
Fixpoint find_var (vars : vtable) (x : string) : option nat :=
  match vars with
  | [] => None
  | (y, _) :: r => if String.eqb x y then Some 0 else option_map S (find_var r x)
  end.
Definition dom_of (vars : vtable) (i : nat) : list string := snd (nth i vars ("", [])).
Definition dsize (vars : vtable) (i : nat) : nat := length (dom_of vars i).

(* start: variables first (file order), duplicates rejected *)
Fixpoint check_vars (vs : list vardecl) (acc : vtable) : option vtable :=
  match vs with
  | [] => Some acc
  | v :: r =>
      nd <- check_vardecl v ;;
      match find_var acc (fst nd) with
      | Some _ => None
      | None => check_vars r (acc ++ [nd])
      end
  end.

(* classification loop of __add_cpt__ *)
Fixpoint classify (items : list cpt_item) (default table : option (list Qc))
         (seen : list (list string)) (entries : list (list string * list Qc))
  : option (option (list Qc) * option (list Qc) * list (list string * list Qc)) :=
  match items with
  | [] => Some (default, table, entries)
  | IDefault ps :: r =>
      match default with Some _ => None | None => classify r (Some ps) table seen entries end
  | ITable ps :: r =>
      match table with Some _ => None | None => classify r default (Some ps) seen entries end
  | IEntry c ps :: r =>
      if existsb (strs_eqb c) seen then None
      else classify r default table (c :: seen) (entries ++ [(c, ps)])
  end.

Definition wcpt := list (list nat * option row).      (* working CPT: None = NaN row *)

Definition cpt_keys (vars : vtable) (pars : list nat) : list (list nat) :=
  product (map (fun p => seq 0 (dsize vars p)) pars).

(* BayesVariable.cpt_set_entry: dict update at an existing key *)
Definition cpt_set (key : list nat) (r : row) (c : wcpt) : wcpt :=
  map (fun kv => if key_eqb (fst kv) key then (fst kv, Some r) else kv) c.

(* __add_default__ + cpt_init *)
Definition add_default (tol : Qc) (d : nat) (keys : list (list nat)) (default : option (list Qc))
  : option wcpt :=
  match default with
  | None => Some (map (fun k => (k, None)) keys)
  | Some ps =>
      _ <- guard (Nat.eqb (length ps) d) ;;
      _ <- guard (sum_valid tol ps) ;;
      Some (map (fun k => (k, Some ps)) keys)
  end.

(* __add_table__: row number `rw`, own value i: table[rw + i * rows] *)
Definition table_row (table : list Qc) (d rows rw : nat) : row :=
  map (fun i => nth (rw + i * rows) table 0%Qc) (seq 0 d).

Fixpoint add_table_rows (tol : Qc) (table : list Qc) (d rows : nat)
         (numbered : list (nat * list nat)) (c : wcpt) : option wcpt :=
  match numbered with
  | [] => Some c
  | (rw, key) :: r =>
      let probs := table_row table d rows rw in
      _ <- guard (sum_valid tol probs) ;;
      add_table_rows tol table d rows r (cpt_set key probs c)
  end.

Definition add_table (tol : Qc) (d : nat) (keys : list (list nat)) (table : option (list Qc)) (c : wcpt)
  : option wcpt :=
  match table with
  | None => Some c
  | Some t =>
      let rows := length keys in
      _ <- guard (Nat.eqb (length t) (d * rows)) ;;
      add_table_rows tol t d rows (combine (seq 0 rows) keys) c
  end.

(* __add_entry__ *)
Definition resolve_cond (vars : vtable) (pars : list nat) (cond : list string) : option (list nat) :=
  omap (fun pc => index_of (snd pc) (dom_of vars (fst pc))) (combine pars cond).

Definition add_entry (tol : Qc) (vars : vtable) (d : nat) (pars : list nat)
           (e : list string * list Qc) (c : wcpt) : option wcpt :=
  let '(cond, ps) := e in
  _ <- guard (Nat.eqb (length cond) (length pars)) ;;
  _ <- guard (Nat.eqb (length ps) d) ;;
  _ <- guard (sum_valid tol ps) ;;
  key <- resolve_cond vars pars cond ;;
  Some (cpt_set key ps c).

Fixpoint add_entries (tol : Qc) (vars : vtable) (d : nat) (pars : list nat)
         (es : list (list string * list Qc)) (c : wcpt) : option wcpt :=
  match es with
  | [] => Some c
  | e :: r => c' <- add_entry tol vars d pars e c ;; add_entries tol vars d pars r c'
  end.

(* cpt_has_nan, and the final CPT *)
Definition finish_cpt (c : wcpt) : option cpt :=
  omap (fun kv => match snd kv with Some r => Some (fst kv, r) | None => None end) c.

(* __add_cpt__ for one probability block: (variable index, parent indices, CPT) *)
Definition assemble_cpt (tol : Qc) (vars : vtable) (pb : pblock) : option (nat * list nat * cpt) :=
  x <- find_var vars (pb_var pb) ;;
  pars <- omap (find_var vars) (pb_parents pb) ;;
  cls <- classify (pb_items pb) None None [] [] ;;
  let '(default, table, entries) := cls in
  let d := dsize vars x in
  let keys := cpt_keys vars pars in
  c0 <- add_default tol d keys default ;;
  c1 <- add_table tol d keys table c0 ;;
  c2 <- add_entries tol vars d pars entries c1 ;;
  c3 <- finish_cpt c2 ;;
  Some (x, pars, c3).

Fixpoint find_cpt (x : nat) (cs : list (nat * list nat * cpt)) : option (list nat * cpt) :=
  match cs with
  | [] => None
  | (y, ps, c) :: r => if Nat.eqb x y then Some (ps, c) else find_cpt x r
  end.

Fixpoint assemble_cpts (tol : Qc) (vars : vtable) (pbs : list pblock) (acc : list (nat * list nat * cpt))
  : option (list (nat * list nat * cpt)) :=
  match pbs with
  | [] => Some acc
  | pb :: r =>
      xc <- assemble_cpt tol vars pb ;;
      match find_cpt (fst (fst xc)) acc with
      | Some _ => None                                  (* "has two defined CPTs" *)
      | None => assemble_cpts tol vars r (acc ++ [xc])
      end
  end.

Definition build_network (vars : vtable) (cs : list (nat * list nat * cpt)) : option network :=
  omap (fun i => pc <- find_cpt i cs ;;                  (* "has no CPT" *)
                 Some {| nv_name := fst (nth i vars ("", [])); nv_dom := dom_of vars i;
                         nv_par := fst pc; nv_cpt := snd pc |})
       (seq 0 (length vars)).

(* NetworkTransformer.start *)
Definition assemble (tol : Qc) (b : bif) : option network :=
  vars <- check_vars (b_vars b) [] ;;
  cs <- assemble_cpts tol vars (b_probs b) [] ;;
  build_network vars cs.

(* the loop program that bayesnet/code_generator.py writes *)
Inductive gassign :=
| ACat (x : nat) (vals : list nat) (probs : list Qc)   (* x = v0 {p0} v1 {p1} ... v_last *)
| AMul (x a b : nat)                                    (* x = a * b *)
| AAdd (x a b : nat).                                   (* x = a + b *)
Definition gcond := list (nat * nat).                   (* x1 == c1 && x2 == c2 && ... *)
Inductive gstmt :=
| SAssign (a : gassign)
| SIf (branches : list (gcond * gassign)) (els : option gassign).
Record gprog := { g_init : list (nat * nat); g_body : list gstmt }.

Definition ndsize (net : network) (i : nat) : nat :=
  match nth_error net i with Some v => length (nv_dom v) | None => 0 end.

Fixpoint cpt_lookup (key : list nat) (c : cpt) : option row :=
  match c with
  | [] => None
  | (k, r) :: rest => if key_eqb k key then Some r else cpt_lookup key rest
  end.

(* __generate_assignment__: values 0..d-1, probabilities of all but the last value *)
Definition gen_assign (x d : nat) (r : row) : gassign := ACat x (seq 0 d) (firstn (d - 1) r).

Definition net_keys (net : network) (pars : list nat) : list (list nat) :=
  product (map (fun p => seq 0 (ndsize net p)) pars).

(* __generate_variable__ / __generate_condition__ *)
Definition gen_var (net : network) (x : nat) (v : nvar) : option gstmt :=
  let d := length (nv_dom v) in
  match nv_par v with
  | [] => r <- cpt_lookup [] (nv_cpt v) ;; Some (SAssign (gen_assign x d r))
  | pars =>
      brs <- omap (fun comb => r <- cpt_lookup comb (nv_cpt v) ;;
                               Some (combine pars comb, gen_assign x d r))
                  (net_keys net pars) ;;
      match brs with
      | [] => None
      | [b] => Some (SIf [b] None)                       (* one combination: "if ...: ... end" *)
      | _ => Some (SIf (removelast brs) (Some (snd (last brs ([], AAdd 0 0 0)))))
      end
  end.

(* __topological_sort__ (queue based).  One round: pop s, decrement the counter of every
   variable having s among its parents, enqueue those reaching 0 (in index order). *)
Definition topo_dec (pars : list (list nat)) (s : nat) (num : list nat) : list nat :=
  map (fun pc => if mem_nat s (fst pc) then pred (snd pc) else snd pc) (combine pars num).
Definition topo_new (pars : list (list nat)) (s : nat) (num' : list nat) : list nat :=
  filter (fun i => mem_nat s (nth i pars []) && Nat.eqb (nth i num' 1) 0) (seq 0 (length pars)).

Fixpoint topo_loop (fuel : nat) (pars : list (list nat)) (num queue out : list nat) : list nat :=
  match fuel with
  | O => out
  | S f =>
      match queue with
      | [] => out
      | s :: q =>
          let num' := topo_dec pars s num in
          topo_loop f pars num' (q ++ topo_new pars s num') (out ++ [s])
      end
  end.

Definition topo_sort (pars : list (list nat)) : option (list nat) :=
  let num := map (@length nat) pars in
  let q0 := filter (fun i => Nat.eqb (nth i num 1) 0) (seq 0 (length pars)) in
  let out := topo_loop (length pars) pars num q0 [] in
  if Nat.eqb (length out) (length pars) then Some out else None.     (* the assert *)

Definition gen_body (net : network) : option (list gstmt) :=
  ord <- topo_sort (map nv_par net) ;;
  omap (fun x => v <- nth_error net x ;; gen_var net x v) ord.

(* queries: indices of the two auxiliary variables are m and m+1 (m = number of variables) *)
Inductive query :=
| QNone
| QExact (target : string) (evidence : list (string * string))
| QSample (targets : list (string * string)).

Fixpoint find_nvar (net : network) (x : string) : option nat :=
  match net with
  | [] => None
  | v :: r => if String.eqb x (nv_name v) then Some 0 else option_map S (find_nvar r x)
  end.

Definition resolve_evidence (net : network) (ev : list (string * string)) : option gcond :=
  omap (fun e => i <- find_nvar net (fst e) ;;
                 v <- nth_error net i ;;
                 k <- index_of (snd e) (nv_dom v) ;;
                 Some (i, k)) ev.

Definition gen_query (net : network) (q : query) : option (list (nat * nat) * list gstmt) :=
  let m := length net in
  match q with
  | QNone => Some ([], [])
  | QExact t ev =>
      ti <- find_nvar net t ;;
      c <- resolve_evidence net ev ;;
      _ <- guard (negb (Nat.eqb (length c) 0)) ;;
      (* ind = m, inf = m+1 *)
      Some ([(m, 0); (S m, 0)],
            [SIf [(c, ACat m [1] [])] (Some (ACat m [0] [])); SAssign (AMul (S m) ti m)])
  | QSample ev =>
      c <- resolve_evidence net ev ;;
      _ <- guard (negb (Nat.eqb (length c) 0)) ;;
      (* count = m, continue = m+1 *)
      Some ([(m, 1); (S m, 1)],
            [SIf [(c, ACat (S m) [0] [])] None; SAssign (AAdd m m (S m))])
  end.

(* CodeGenerator.generate_code *)
Definition codegen (net : network) (q : query) : option gprog :=
  body <- gen_body net ;;
  qq <- gen_query net q ;;
  Some {| g_init := map (fun i => (i, 0)) (seq 0 (length net)) ++ fst qq;
          g_body := body ++ snd qq |}.

(* __generate_mapping__: lower-case, drop every character outside [A-Za-z0-9_]; "" -> "_";
   get_unique_name appends random digits while the name is taken (or reserved).  The random suffix is not
   modelled: valid_mapping is the relation "this list of names is a possible outcome". *)
Definition is_digit (c : ascii) : bool := let n := nat_of_ascii c in (48 <=? n) && (n <=? 57).
Definition is_lower (c : ascii) : bool := let n := nat_of_ascii c in (97 <=? n) && (n <=? 122).
Definition is_upper (c : ascii) : bool := let n := nat_of_ascii c in (65 <=? n) && (n <=? 90).
Definition to_lower (c : ascii) : ascii := if is_upper c then ascii_of_nat (nat_of_ascii c + 32) else c.
Fixpoint sanitize_chars (s : string) : string :=
  match s with
  | EmptyString => EmptyString
  | String c r => let c' := to_lower c in
                  if is_digit c' || is_lower c' || Ascii.eqb c' "_"%char
                  then String c' (sanitize_chars r) else sanitize_chars r
  end.
Definition sanitize (s : string) : string :=
  let t := sanitize_chars s in if String.eqb t "" then "_" else t.

Fixpoint all_digits (s : string) : bool :=
  match s with EmptyString => true | String c r => is_digit c && all_digits r end.
(* every proper extension step was forced: base ++ (proper prefix of suffix) is taken *)
Fixpoint forced_steps (existing : list string) (base suffix : string) : bool :=
  match suffix with
  | EmptyString => true
  | String c r => mem_str base existing && forced_steps existing (base ++ String c EmptyString)%string r
  end.
Definition drop_prefix (p s : string) : option string :=
  if String.prefix p s then Some (substring (String.length p) (String.length s - String.length p) s) else None.
Definition unique_name_ok (existing : list string) (base mapped : string) : bool :=
  match drop_prefix base mapped with
  | None => false
  | Some suf => all_digits suf && forced_steps existing base suf && negb (mem_str mapped existing)
  end.
Fixpoint valid_mapping_from (existing : list string) (names mapped : list string) : bool :=
  match names, mapped with
  | [], [] => true
  | n :: ns, m :: ms => unique_name_ok existing (sanitize n) m && valid_mapping_from (existing ++ [m]) ns ms
  | _, _ => false
  end.
(* identifiers the repaired __generate_mapping__ treats as taken from the start (RESERVED_NAMES in
   bayesnet/code_generator.py: keywords of Polar's language and symengine constants) *)
Definition reserved_names : list string :=
  ["if"; "elif"; "else"; "end"; "while"; "true"; "false"; "types"; "e"; "pi"; "oo"; "zoo"; "nan"; "inf"].
Definition valid_mapping (names mapped : list string) : bool := valid_mapping_from reserved_names names mapped.
(* the rule before the repair: nothing reserved *)
Definition valid_mapping_old_rule (names mapped : list string) : bool := valid_mapping_from [] names mapped.

(* decidable equality, by which the correspondence check compares the model's output with Polar's *)
Definition gassign_eq_dec (a b : gassign) : {a = b} + {a <> b}.
Proof. decide equality; try apply Nat.eq_dec; try (apply list_eq_dec; first [apply Nat.eq_dec | apply Qc_eq_dec]). Defined.
Definition gstmt_eq_dec (a b : gstmt) : {a = b} + {a <> b}.
Proof.
  decide equality.
  - apply gassign_eq_dec.
  - decide equality. apply gassign_eq_dec.
  - apply list_eq_dec. decide equality.
    + apply gassign_eq_dec.
    + apply list_eq_dec. decide equality; apply Nat.eq_dec.
Defined.
Definition gprog_eq_dec (a b : gprog) : {a = b} + {a <> b}.
Proof.
  decide equality.
  - apply list_eq_dec, gstmt_eq_dec.
  - apply list_eq_dec. decide equality; apply Nat.eq_dec.
Defined.
Definition nvar_eq_dec (a b : nvar) : {a = b} + {a <> b}.
Proof.
  decide equality.
  - apply list_eq_dec. decide equality.
    + apply list_eq_dec, Qc_eq_dec.
    + apply list_eq_dec, Nat.eq_dec.
  - apply list_eq_dec, Nat.eq_dec.
  - apply list_eq_dec, string_dec.
  - apply string_dec.
Defined.
Definition opt_eqb {A} (dec : forall a b : A, {a = b} + {a <> b}) (x y : option A) : bool :=
  match x, y with
  | Some a, Some b => if dec a b then true else false
  | None, None => true
  | _, _ => false
  end.
Definition network_eqb : option network -> option network -> bool := opt_eqb (list_eq_dec nvar_eq_dec).
Definition gprog_eqb : option gprog -> option gprog -> bool := opt_eqb gprog_eq_dec.
Definition is_some {A} (o : option A) : bool := match o with Some _ => true | None => false end.

Lemma opt_eqb_true {A} dec (x y : option A) : opt_eqb dec x y = true -> x = y.
Proof.
  destruct x, y; simpl; try discriminate; auto.
  destruct (dec a a0); [congruence | discriminate].
Qed.

Lemma obind_Some {A B} (o : option A) (f : A -> option B) b :
  obind o f = Some b -> exists a, o = Some a /\ f a = Some b.
Proof. destruct o as [a|]; [intros H; exists a; auto | discriminate]. Qed.

Lemma omap_spec {A B} (f : A -> option B) : forall l l',
  omap f l = Some l' ->
  length l' = length l /\
  forall i b, nth_error l' i = Some b -> exists a, nth_error l i = Some a /\ f a = Some b.
Proof.
  induction l as [|a l IH]; intros l' H; cbn [omap] in H.
  - injection H as <-. split; [reflexivity|]. intros [|i] b Hb; discriminate.
  - apply obind_Some in H as [b0 [Ea H]]. apply obind_Some in H as [bs [El H]].
    injection H as <-. destruct (IH bs El) as [IHl IHn].
    split; [cbn [length]; now rewrite IHl|].
    intros [|i] b Hb; cbn [nth_error] in *.
    + injection Hb as <-. exists a. auto.
    + apply IHn, Hb.
Qed.

Lemma omap_in {A B} (f : A -> option B) : forall l l' b,
  omap f l = Some l' -> In b l' -> exists a, In a l /\ f a = Some b.
Proof.
  intros l l' b H Hin. apply In_nth_error in Hin as [i Hi].
  destruct (omap_spec f l l' H) as [_ Hn]. destruct (Hn i b Hi) as [a [Ha Hf]].
  exists a. split; [eapply nth_error_In; eauto | exact Hf].
Qed.

Lemma list_eqb_eq {A} (eqb : A -> A -> bool) :
  (forall a b, eqb a b = true <-> a = b) ->
  forall l1 l2, list_eqb eqb l1 l2 = true <-> l1 = l2.
Proof.
  intros Heq. induction l1 as [|a l1 IH]; destruct l2 as [|b l2].
  - split; reflexivity.
  - split; discriminate.
  - split; discriminate.
  - change (list_eqb eqb (a :: l1) (b :: l2)) with (eqb a b && list_eqb eqb l1 l2).
    rewrite andb_true_iff, Heq, IH. split.
    + intros [-> ->]. reflexivity.
    + intros E. injection E. auto.
Qed.

Lemma key_eqb_eq k k' : key_eqb k k' = true <-> k = k'.
Proof. apply list_eqb_eq, Nat.eqb_eq. Qed.
Lemma strs_eqb_eq a b : strs_eqb a b = true <-> a = b.
Proof. apply list_eqb_eq, String.eqb_eq. Qed.

Lemma mem_nat_In x l : mem_nat x l = true <-> In x l.
Proof.
  induction l as [|y l IH]; cbn [mem_nat In]; [split; [discriminate | tauto]|].
  rewrite orb_true_iff, IH, Nat.eqb_eq. split; (intros [H|H]; [left; now symmetry | now right]).
Qed.

Lemma mem_str_In x l : mem_str x l = true <-> In x l.
Proof.
  induction l as [|y l IH]; cbn [mem_str In]; [split; [discriminate | tauto]|].
  rewrite orb_true_iff, IH, String.eqb_eq. split; (intros [H|H]; [left; now symmetry | now right]).
Qed.

Lemma index_of_lt x : forall l i, index_of x l = Some i -> i < length l.
Proof.
  induction l as [|y l IH]; intros i H; cbn [index_of] in H; [discriminate|].
  destruct (String.eqb x y); [injection H as <-; cbn [length]; lia|].
  destruct (index_of x l) as [j|]; [|discriminate].
  injection H as <-. specialize (IH j eq_refl). cbn [length]. lia.
Qed.

Lemma index_of_None x : forall l, index_of x l = None -> ~ In x l.
Proof.
  induction l as [|y l IH]; intros H; cbn [index_of] in H; [intros []|].
  destruct (String.eqb x y) eqn:E; [discriminate|].
  destruct (index_of x l); [discriminate|].
  intros [<-|Hin]; [rewrite String.eqb_refl in E; discriminate | exact (IH eq_refl Hin)].
Qed.

Lemma find_var_index_of vars x : find_var vars x = index_of x (map fst vars).
Proof.
  induction vars as [|[y d] vars IH]; [reflexivity|].
  cbn [find_var map fst index_of]. now rewrite IH.
Qed.

Lemma find_nvar_index_of net x : find_nvar net x = index_of x (map nv_name net).
Proof.
  induction net as [|v net IH]; [reflexivity|].
  cbn [find_nvar map index_of]. now rewrite IH.
Qed.

Lemma NoDup_app_iff {A} (l1 l2 : list A) :
  NoDup (l1 ++ l2) <-> NoDup l1 /\ NoDup l2 /\ forall x, In x l1 -> ~ In x l2.
Proof.
  induction l1 as [|a l1 IH]; cbn [app].
  - split; [intros H; repeat split; [constructor | exact H | intros x []] | tauto].
  - rewrite !NoDup_cons_iff, IH, in_app_iff. split.
    + intros [Ha [H1 [H2 H]]]. repeat split; [tauto | exact H1 | exact H2|].
      intros x [<-|Hx]; [tauto | exact (H x Hx)].
    + intros [[Ha H1] [H2 H]]. repeat split; [|exact H1 | exact H2 | intros x Hx; apply H; now right].
      intros [Hi|Hi]; [exact (Ha Hi) | exact (H a (or_introl eq_refl) Hi)].
Qed.

Lemma NoDup_map_inj_in {A B} (f : A -> B) : forall l,
  (forall x y, In x l -> In y l -> f x = f y -> x = y) -> NoDup l -> NoDup (map f l).
Proof.
  induction l as [|a l IH]; intros Hinj Hnd; cbn [map]; [constructor|].
  inversion Hnd as [|? ? Ha Hnd']; subst. constructor.
  - intros Hin. apply in_map_iff in Hin as [y [Hy Hyl]].
    assert (y = a) by (apply Hinj; [now right | now left | exact Hy]). subst. exact (Ha Hyl).
  - apply IH; [|exact Hnd']. intros x y Hx Hy. apply Hinj; now right.
Qed.

Lemma NoDup_flat_map {A B} (f : A -> list B) : forall l,
  NoDup l -> (forall x, In x l -> NoDup (f x)) ->
  (forall x y z, In x l -> In y l -> In z (f x) -> In z (f y) -> x = y) ->
  NoDup (flat_map f l).
Proof.
  induction l as [|a l IH]; intros Hnd Hf Hdisj; cbn [flat_map]; [constructor|].
  inversion Hnd as [|? ? Ha Hnd']; subst. apply NoDup_app_iff. repeat split.
  - apply Hf. now left.
  - apply IH; [exact Hnd' | intros; apply Hf; now right |].
    intros x y z Hx Hy. apply Hdisj; now right.
  - intros z Hz Hz'. apply in_flat_map in Hz' as [y [Hy Hzy]].
    assert (a = y) by (apply (Hdisj a y z); [now left | now right | exact Hz | exact Hzy]).
    subst. exact (Ha Hy).
Qed.

Lemma in_product {A} : forall (ls : list (list A)) key,
  In key (product ls) <-> Forall2 (fun k l => In k l) key ls.
Proof.
  induction ls as [|l rest IH]; intros key; cbn [product].
  - split.
    + intros [<-|[]]. constructor.
    + intros H. inversion H. now left.
  - rewrite in_flat_map. split.
    + intros [x [Hx Hk]]. apply in_map_iff in Hk as [k' [<- Hk']].
      constructor; [exact Hx | now apply IH].
    + intros H. inversion H as [|k l0 key' rest0 Hk Hrest]; subst.
      exists k. split; [exact Hk|]. apply in_map_iff. exists key'. split; [reflexivity | now apply IH].
Qed.

Lemma NoDup_product {A} : forall (ls : list (list A)),
  (forall l, In l ls -> NoDup l) -> NoDup (product ls).
Proof.
  induction ls as [|l rest IH]; intros H; cbn [product].
  - constructor; [intros [] | constructor].
  - apply NoDup_flat_map.
    + apply H. now left.
    + intros x _. apply NoDup_map_inj_in.
      * intros a b _ _ E. now injection E.
      * apply IH. intros l0 Hl0. apply H. now right.
    + intros x y z _ _ Hx Hy.
      apply in_map_iff in Hx as [zx [<- _]]. apply in_map_iff in Hy as [zy [E _]]. now injection E.
Qed.

Lemma in_product_map {A B} (f : A -> B) (g : A -> list B) l :
  (forall p, In p l -> In (f p) (g p)) -> In (map f l) (product (map g l)).
Proof.
  induction l as [|p l IH]; intros H; cbn [map product]; [now left|].
  apply in_flat_map. exists (f p). split; [apply H; now left|].
  apply in_map. apply IH. intros q Hq. apply H. now right.
Qed.

Lemma in_product_nth {A} (d : A) (ls : list (list A)) a :
  In a (product ls) <->
  length a = length ls /\ forall i, i < length ls -> In (nth i a d) (nth i ls []).
Proof.
  revert a. induction ls as [|l ls IH]; intros a; cbn [product].
  - split.
    + intros [<-|[]]. split; [reflexivity | cbn [length]; intros; lia].
    + intros [H _]. destruct a; [now left | discriminate].
  - rewrite in_flat_map. split.
    + intros [x [Hx Hk]]. rewrite in_map_iff in Hk. destruct Hk as [k' [<- Hk']].
      apply IH in Hk'. destruct Hk' as [Hlen Hnth]. cbn [length]. split; [lia|].
      intros [|i] Hi; cbn [nth]; [exact Hx | apply Hnth; lia].
    + intros [Hlen Hnth]. destruct a as [|x a]; [discriminate|]. cbn [length] in *.
      exists x. split; [apply (Hnth 0); lia|].
      apply in_map. apply IH. split; [lia|]. intros i Hi. apply (Hnth (S i)). lia.
Qed.

Lemma map_fst_combine {A B} : forall (l1 : list A) (l2 : list B),
  length l2 = length l1 -> map fst (combine l1 l2) = l1.
Proof.
  induction l1 as [|a l1 IH]; intros [|b l2] H; try discriminate; [reflexivity|].
  cbn [combine map fst]. f_equal. apply IH. cbn [length] in H. lia.
Qed.

Lemma combine_map_r {A B} (f : A -> B) (l : list A) :
  combine l (map f l) = map (fun a => (a, f a)) l.
Proof. induction l as [|a l IH]; cbn [map combine]; [reflexivity | now rewrite IH]. Qed.

Lemma combine_map_self {A B} (f : A -> B) l : combine (map f l) l = map (fun x => (f x, x)) l.
Proof. induction l as [|a l IH]; cbn [map combine]; [reflexivity | now rewrite IH]. Qed.

Lemma map_nth_seq {A} (l : list A) def n :
  length l = n -> map (fun i => nth i l def) (seq 0 n) = l.
Proof.
  intros <-. induction l as [|a l IH]; cbn [length seq map]; [reflexivity|].
  cbn [nth]. f_equal. rewrite <- seq_shift, map_map. exact IH.
Qed.
