(* C12 — Gallina transcription of Polar's simulator (simulation/simulator.py) as a
   path-indexed DETERMINISTIC executor, and the theorem that summing over all scripts of
   random choices gives the monadic law.

   What is transcribed (file : function -> definition here):
     simulation/simulator.py : Simulator.execute(list)      -> sim_block
                               Simulator.execute(IfStatem)  -> sim_stmt (PIf ..) / sim_branches
                               Simulator.execute(Assignment)-> sim_stmt (PAssign ..)
                               Simulator.simulate           -> sim_loop / sim_run
     program/assignment/assignment.py : Assignment.evaluate -> sim_assign
     program/assignment/poly_assignment.py : evaluate_right_side (random.choices)
     program/distribution/*.py : sample (random.choices / random.choice / scipy rvs)
                                                            -> [pick] on the option list
                                                               given by the sampler
   The simulator runs on the PARSED program: a list of Assignment objects (variable,
   condition, default, right side) and IfStatem objects (conditions, branches, optional
   else branch).  [pstmt] is that structure; SimulatorParse.v transcribes the parser's
   desugaring of Syntax.stmt into it.

   A script is the list of indices returned by the random sources, one entry per call
   (a deterministic PolyAssignment also calls random.choices, with one option).  *)
From Coq Require Import List String QArith Qcanon ZArith Bool Lia.
From Polar Require Import Qcx Dist Syntax Sem.
Import ListNotations.
Local Open Scope Qc_scope.

Inductive pstmt :=
| PAssign (g : gassign)                          (* Assignment: variable, condition, default, rhs *)
| PIf (bs : pbranches) (els : pblock)            (* IfStatem: conditions/branches, else_branch (None and [] are both
                                                    falsy in `if else_branch:` and both mean: return state -> PNil) *)
with pblock :=
| PNil
| PCons (s : pstmt) (b : pblock)
with pbranches :=
| PBrNil
| PBrCons (c : cond) (b : pblock) (bs : pbranches).

Scheme pstmt_mut := Induction for pstmt Sort Prop
with pblock_mut := Induction for pblock Sort Prop
with pbranches_mut := Induction for pbranches Sort Prop.
Combined Scheme pstmt_pblock_pbranches_ind from pstmt_mut, pblock_mut, pbranches_mut.

Record pprog := { pp_init : pblock; pp_guard : cond; pp_body : pblock }.

Fixpoint pblock_app (b1 b2 : pblock) : pblock :=
  match b1 with PNil => b2 | PCons s b => PCons s (pblock_app b b2) end.

Definition script := list nat.
Definition outcome := (Qc * state * script)%type.      (* probability, state, rest of the script *)

(* one entry of the enumerated law: the script consumed, its probability, the end state *)
Definition path := (script * (Qc * state))%type.
Definition law_of (ps : list path) : dist state := map snd ps.

Fixpoint indexed {A} (i : nat) (d : list A) : list (nat * A) :=
  match d with [] => [] | a :: d' => (i, a) :: indexed (S i) d' end.

Lemma indexed_in {A} (d : list A) : forall i j a,
  In (j, a) (indexed i d) <-> (i <= j)%nat /\ nth_error d (j - i) = Some a.
Proof.
  induction d as [|b d IH]; intros i j a; cbn [indexed In].
  - split; [intros [] | intros [_ H]; destruct (j - i)%nat; discriminate].
  - rewrite IH. split.
    + intros [H | [Hle Hn]].
      * inversion H; subst. split; [lia|]. rewrite Nat.sub_diag. reflexivity.
      * split; [lia|]. replace (j - i)%nat with (S (j - S i)) by lia. exact Hn.
    + intros [Hle Hn]. destruct (Nat.eq_dec i j) as [->|Hne].
      * left. rewrite Nat.sub_diag in Hn. cbn in Hn. inversion Hn. reflexivity.
      * right. split; [lia|]. replace (j - i)%nat with (S (j - S i)) in Hn by lia. exact Hn.
Qed.

Lemma map_snd_indexed {A} (d : list A) i : map snd (indexed i d) = d.
Proof. revert i; induction d as [|a d IH]; intros i; cbn; [reflexivity | rewrite IH; reflexivity]. Qed.

(* sequential composition of enumerated laws: scripts are concatenated, probabilities multiplied *)
Definition pext (sc1 : script) (w1 : Qc) (ps : list path) : list path :=
  map (fun p => (sc1 ++ fst p, (w1 * fst (snd p), snd (snd p)))) ps.
Fixpoint pbind (ps : list path) (k : state -> list path) : list path :=
  match ps with
  | [] => []
  | (sc1, (w1, s1)) :: ps' => pext sc1 w1 (k s1) ++ pbind ps' k
  end.

Lemma law_of_pext sc w ps : law_of (pext sc w ps) = dscale w (law_of ps).
Proof. unfold law_of, pext, dscale. rewrite !map_map. reflexivity. Qed.
Lemma law_of_app ps1 ps2 : law_of (ps1 ++ ps2) = law_of ps1 ++ law_of ps2.
Proof. apply map_app. Qed.
Lemma law_of_pbind ps k : law_of (pbind ps k) = bind (law_of ps) (fun s => law_of (k s)).
Proof.
  induction ps as [|[sc1 [w1 s1]] ps IH]; [reflexivity|].
  cbn [pbind]. rewrite law_of_app, IH, law_of_pext. reflexivity.
Qed.

Lemma pbind_flat_map ps k :
  pbind ps k = flat_map (fun p => pext (fst p) (fst (snd p)) (k (snd (snd p)))) ps.
Proof.
  induction ps as [|[sc1 [w1 s1]] ps IH]; [reflexivity|].
  cbn [pbind flat_map fst snd]. rewrite IH. reflexivity.
Qed.

Lemma in_pbind ps k sc w s :
  In (sc, (w, s)) (pbind ps k) <->
  exists sc1 w1 s1 sc2 w2, In (sc1, (w1, s1)) ps /\ In (sc2, (w2, s)) (k s1) /\ sc = sc1 ++ sc2 /\ w = w1 * w2.
Proof.
  rewrite pbind_flat_map, in_flat_map. split.
  - intros [[sc1 [w1 s1]] [H1 H2]]. apply in_map_iff in H2. destruct H2 as [[sc2 [w2 s2]] [Heq H2]].
    cbn [fst snd] in Heq. injection Heq as <- <- <-. exists sc1, w1, s1, sc2, w2. auto.
  - intros (sc1 & w1 & s1 & sc2 & w2 & H1 & H2 & -> & ->). exists (sc1, (w1, s1)). split; [exact H1|].
    apply in_map_iff. exists (sc2, (w2, s)). split; [reflexivity | exact H2].
Qed.

Lemma last_cons {A} (tr : list A) : forall a d, last (a :: tr) d = last tr a.
Proof.
  induction tr as [|b tr IH]; intros a d; [reflexivity|].
  change (last (a :: b :: tr) d) with (last (b :: tr) d). rewrite !IH. reflexivity.
Qed.

Section Sim.
  (* the options offered by the random source of a right-hand side, in the order of the
     call (values with their probabilities); the script picks one by index *)
  Variable sampler : rhs -> state -> dist Qc.

  (* one call of random.choices / random.choice / <family>.rvs under the scripted source *)
  Definition pick (d : dist Qc) (sc : script) : option (Qc * Qc * script) :=
    match sc with
    | [] => None
    | i :: sc' => match nth_error d i with Some (w, v) => Some (w, v, sc') | None => None end
    end.

  (* Assignment.evaluate: condition ? evaluate_right_side : state[default]; state[variable] = result *)
  Definition sim_assign (g : gassign) (s : state) (sc : script) : option outcome :=
    if holds (ga_cond g) s then
      match pick (sampler (ga_rhs g) s) sc with
      | Some (w, v, sc') => Some (w, upd s (ga_var g) v, sc')
      | None => None
      end
    else Some (1, upd s (ga_var g) (s (ga_default g)), sc).

  (* Simulator.execute *)
  Fixpoint sim_stmt (st : pstmt) (s : state) (sc : script) {struct st} : option outcome :=
    match st with
    | PAssign g => sim_assign g s sc
    | PIf bs els =>
        (* for i in range(len(conditions)): if conditions[i].evaluate(state): return execute(branches[i]) *)
        match sim_branches bs s sc with
        | Some r => r
        | None =>
            (* if else_branch: return execute(else_branch, state);  return state *)
            sim_block els s sc
        end
    end
  with sim_block (b : pblock) (s : state) (sc : script) {struct b} : option outcome :=
    (* for element in program_element: state = self.execute(element, state) *)
    match b with
    | PNil => Some (1, s, sc)
    | PCons st b' =>
        match sim_stmt st s sc with
        | Some (w1, s1, sc1) =>
            match sim_block b' s1 sc1 with
            | Some (w2, s2, sc2) => Some (w1 * w2, s2, sc2)
            | None => None
            end
        | None => None
        end
    end
  with sim_branches (bs : pbranches) (s : state) (sc : script) {struct bs} : option (option outcome) :=
    match bs with
    | PBrNil => None
    | PBrCons c b bs' => if holds c s then Some (sim_block b s sc) else sim_branches bs' s sc
    end.

  (* Simulator.simulate, one sample: states = [execute(initial, {})];
     for _ in range(iterations):
        if not guard(states[-1]): states.append(states[-1].copy())
        else: states.append(execute(loop_body, states[-1].copy()))
     [sim_loop p n s] returns the states appended after [s] *)
  Fixpoint sim_loop (p : pprog) (n : nat) (s : state) (sc : script) : option (Qc * list state * script) :=
    match n with
    | O => Some (1, [], sc)
    | S n' =>
        let step := if holds (pp_guard p) s then sim_block (pp_body p) s sc else Some (1, s, sc) in
        match step with
        | Some (w1, s1, sc1) =>
            match sim_loop p n' s1 sc1 with
            | Some (w2, tr, sc2) => Some (w1 * w2, s1 :: tr, sc2)
            | None => None
            end
        | None => None
        end
    end.

  Definition sim_run (p : pprog) (n : nat) (s0 : state) (sc : script) : option (Qc * list state * script) :=
    match sim_block (pp_init p) s0 sc with
    | Some (w0, s1, sc1) =>
        match sim_loop p n s1 sc1 with
        | Some (w, tr, sc2) => Some (w0 * w, s1 :: tr, sc2)
        | None => None
        end
    | None => None
    end.

  Definition enum_assign (g : gassign) (s : state) : list path :=
    if holds (ga_cond g) s then
      map (fun iwv => ([fst iwv], (fst (snd iwv), upd s (ga_var g) (snd (snd iwv)))))
          (indexed 0 (sampler (ga_rhs g) s))
    else [([], (1, upd s (ga_var g) (s (ga_default g))))].

  Fixpoint enum_stmt (st : pstmt) (s : state) {struct st} : list path :=
    match st with
    | PAssign g => enum_assign g s
    | PIf bs els =>
        match enum_branches bs s with
        | Some r => r
        | None => enum_block els s
        end
    end
  with enum_block (b : pblock) (s : state) {struct b} : list path :=
    match b with
    | PNil => [([], (1, s))]
    | PCons st b' => pbind (enum_stmt st s) (enum_block b')
    end
  with enum_branches (bs : pbranches) (s : state) {struct bs} : option (list path) :=
    match bs with
    | PBrNil => None
    | PBrCons c b bs' => if holds c s then Some (enum_block b s) else enum_branches bs' s
    end.

  Definition enum_iter (p : pprog) (s : state) : list path :=
    if holds (pp_guard p) s then enum_block (pp_body p) s else [([], (1, s))].

  Fixpoint enum_loop (p : pprog) (n : nat) (s : state) : list path :=
    match n with
    | O => [([], (1, s))]
    | S n' => pbind (enum_iter p s) (enum_loop p n')
    end.

  (* the path-enumerated law of the state after n iterations *)
  Definition enum_run (p : pprog) (n : nat) (s0 : state) : list path :=
    pbind (enum_block (pp_init p) s0) (enum_loop p n).

  (* the monadic reading of the same structure *)
  Definition pexec_ga (g : gassign) (s : state) : dist state :=
    if holds (ga_cond g) s
    then bind (sampler (ga_rhs g) s) (fun v => ret (upd s (ga_var g) v))
    else ret (upd s (ga_var g) (s (ga_default g))).

  Fixpoint pexec_stmt (st : pstmt) (s : state) {struct st} : dist state :=
    match st with
    | PAssign g => pexec_ga g s
    | PIf bs els =>
        match pexec_branches bs s with
        | Some d => d
        | None => pexec_block els s
        end
    end
  with pexec_block (b : pblock) (s : state) {struct b} : dist state :=
    match b with
    | PNil => ret s
    | PCons st b' => bind (pexec_stmt st s) (pexec_block b')
    end
  with pexec_branches (bs : pbranches) (s : state) {struct bs} : option (dist state) :=
    match bs with
    | PBrNil => None
    | PBrCons c b bs' => if holds c s then Some (pexec_block b s) else pexec_branches bs' s
    end.

  Definition piter (p : pprog) (s : state) : dist state :=
    if holds (pp_guard p) s then pexec_block (pp_body p) s else ret s.
  Fixpoint ploop (p : pprog) (n : nat) (s : state) : dist state :=
    match n with O => ret s | S n' => bind (piter p s) (ploop p n') end.
  Fixpoint prun (p : pprog) (n : nat) (s0 : state) : dist state :=
    match n with O => pexec_block (pp_init p) s0 | S n' => bind (prun p n' s0) (piter p) end.

  Lemma law_enum_assign g s : law_of (enum_assign g s) = pexec_ga g s.
  Proof.
    unfold enum_assign, pexec_ga. destruct (holds (ga_cond g) s); [|reflexivity].
    unfold law_of. rewrite map_map. cbn [snd].
    generalize 0%nat. induction (sampler (ga_rhs g) s) as [|[w v] d IH]; intros i; [reflexivity|].
    cbn [indexed map bind ret dscale fst snd app]. rewrite IH, Qcmult_1_r. reflexivity.
  Qed.

  Lemma law_enum :
    (forall st s, law_of (enum_stmt st s) = pexec_stmt st s) /\
    (forall b s, law_of (enum_block b s) = pexec_block b s) /\
    (forall bs s, option_map law_of (enum_branches bs s) = pexec_branches bs s).
  Proof.
    apply pstmt_pblock_pbranches_ind.
    - intros g s. apply law_enum_assign.
    - intros bs IHbs els IHels s. cbn [enum_stmt pexec_stmt]. rewrite <- IHbs.
      destruct (enum_branches bs s); cbn [option_map]; [reflexivity|].
      exact (IHels s).
    - intros s. reflexivity.
    - intros st IHst b IHb s. cbn [enum_block pexec_block]. rewrite law_of_pbind, IHst.
      apply bind_ext. exact IHb.
    - intros s. reflexivity.
    - intros c b IHb bs IHbs s. cbn [enum_branches pexec_branches].
      destruct (holds c s); [cbn [option_map]; rewrite IHb; reflexivity | apply IHbs].
  Qed.

  (* first-match: an IfStatem executes exactly the first branch whose condition holds,
     the else branch if none does *)
  Fixpoint first_match (bs : pbranches) (s : state) : option pblock :=
    match bs with
    | PBrNil => None
    | PBrCons c b bs' => if holds c s then Some b else first_match bs' s
    end.
  Definition selected (bs : pbranches) (els : pblock) (s : state) : pblock :=
    match first_match bs s with Some b => b | None => els end.

  Lemma sim_branches_first bs s sc :
    sim_branches bs s sc = option_map (fun b => sim_block b s sc) (first_match bs s).
  Proof. induction bs as [|c b bs IH]; cbn; [reflexivity|]. destruct (holds c s); [reflexivity | exact IH]. Qed.
  Lemma enum_branches_first bs s :
    enum_branches bs s = option_map (fun b => enum_block b s) (first_match bs s).
  Proof. induction bs as [|c b bs IH]; cbn; [reflexivity|]. destruct (holds c s); [reflexivity | exact IH]. Qed.
  Lemma pexec_branches_first bs s :
    pexec_branches bs s = option_map (fun b => pexec_block b s) (first_match bs s).
  Proof. induction bs as [|c b bs IH]; cbn; [reflexivity|]. destruct (holds c s); [reflexivity | exact IH]. Qed.

  Lemma sim_if_first_match bs els s sc : sim_stmt (PIf bs els) s sc = sim_block (selected bs els s) s sc.
  Proof. cbn [sim_stmt]. rewrite sim_branches_first. unfold selected. destruct (first_match bs s); reflexivity. Qed.
  Lemma enum_if_first_match bs els s : enum_stmt (PIf bs els) s = enum_block (selected bs els s) s.
  Proof. cbn [enum_stmt]. rewrite enum_branches_first. unfold selected. destruct (first_match bs s); reflexivity. Qed.
  Lemma pexec_if_first_match bs els s : pexec_stmt (PIf bs els) s = pexec_block (selected bs els s) s.
  Proof. cbn [pexec_stmt]. rewrite pexec_branches_first. unfold selected. destruct (first_match bs s); reflexivity. Qed.

  (* [en] enumerates the executor [ex], whose results are read as end states through [fin]:
     every script on which [ex] succeeds starts with an enumerated one of that probability and
     end state, and every enumerated script drives [ex] to such a result whatever follows it *)
  Definition enumerates {A} (fin : A -> state) (en : list path) (ex : script -> option (Qc * A * script)) : Prop :=
    (forall sc w a rest, ex sc = Some (w, a, rest) -> exists pre, sc = pre ++ rest /\ In (pre, (w, fin a)) en) /\
    (forall sc w s', In (sc, (w, s')) en -> forall rest, exists a, ex (sc ++ rest) = Some (w, a, rest) /\ fin a = s').

  Lemma enumerates_ext {A} (fin : A -> state) en ex ex' :
    (forall sc, ex sc = ex' sc) -> enumerates fin en ex' -> enumerates fin en ex.
  Proof.
    intros He [Hc Hs]. split.
    - intros sc w a rest H. rewrite He in H. exact (Hc _ _ _ _ H).
    - intros sc w s' Hin rest. rewrite He. exact (Hs _ _ _ Hin rest).
  Qed.

  (* no random source is called *)
  Lemma enumerates_unit {A} (fin : A -> state) a : enumerates fin [([], (1, fin a))] (fun sc => Some (1, a, sc)).
  Proof.
    split.
    - intros sc w a' rest H. injection H as <- <- <-. exists []. split; [reflexivity | left; reflexivity].
    - intros sc w s' [Heq|[]] rest. injection Heq as <- <- <-. exists a. split; reflexivity.
  Qed.

  (* sequential composition, the shape shared by sim_block, sim_loop and sim_run: the second
     executor starts in the end state of the first on what is left of the script, probabilities
     are multiplied; [g] combines the results (keeps the last state / conses the trajectory) *)
  Definition andthen {A B} (ex1 : script -> option outcome) (ex2 : state -> script -> option (Qc * A * script))
      (g : state -> A -> B) (sc : script) : option (Qc * B * script) :=
    match ex1 sc with
    | Some (w1, s1, sc1) =>
        match ex2 s1 sc1 with Some (w2, a, sc2) => Some (w1 * w2, g s1 a, sc2) | None => None end
    | None => None
    end.

  Lemma andthen_some {A B ex1} {ex2 : state -> script -> option (Qc * A * script)} (g : state -> A -> B)
      {sc w1 s1 sc1 w2 a rest} :
    ex1 sc = Some (w1, s1, sc1) -> ex2 s1 sc1 = Some (w2, a, rest) ->
    andthen ex1 ex2 g sc = Some (w1 * w2, g s1 a, rest).
  Proof. unfold andthen. intros -> ->. reflexivity. Qed.

  Lemma andthen_inv {A B ex1} {ex2 : state -> script -> option (Qc * A * script)} {g : state -> A -> B} {sc w b rest} :
    andthen ex1 ex2 g sc = Some (w, b, rest) ->
    exists w1 s1 sc1 w2 a,
      ex1 sc = Some (w1, s1, sc1) /\ ex2 s1 sc1 = Some (w2, a, rest) /\ w = w1 * w2 /\ b = g s1 a.
  Proof.
    unfold andthen. intros H.
    destruct (ex1 sc) as [[[w1 s1] sc1]|]; [|discriminate].
    destruct (ex2 s1 sc1) as [[[w2 a] sc2]|] eqn:E2; [|discriminate].
    injection H as <- <- <-. exists w1, s1, sc1, w2, a. auto.
  Qed.

  Lemma sim_block_cons st b s : sim_block (PCons st b) s = andthen (sim_stmt st s) (sim_block b) (fun _ a => a).
  Proof. reflexivity. Qed.

  Lemma enumerates_seq {A B} {fin : state -> A -> state} {g : state -> A -> B} {fin' : B -> state} {en1 ex1 en2 ex2} :
    enumerates (fun s => s) en1 ex1 -> (forall s, enumerates (fin s) (en2 s) (ex2 s)) ->
    (forall s a, fin' (g s a) = fin s a) ->
    enumerates fin' (pbind en1 en2) (andthen ex1 ex2 g).
  Proof.
    intros [Hc1 Hs1] H2 Hg. split.
    - intros sc w b rest H. apply andthen_inv in H. destruct H as (w1 & s1 & sc1 & w2 & a & E1 & E2 & -> & ->).
      destruct (Hc1 _ _ _ _ E1) as [pre1 [-> Hin1]]. destruct (proj1 (H2 s1) _ _ _ _ E2) as [pre2 [-> Hin2]].
      exists (pre1 ++ pre2). split; [apply app_assoc|]. rewrite Hg.
      apply in_pbind. exists pre1, w1, s1, pre2, w2. auto.
    - intros sc w s' Hin rest. apply in_pbind in Hin.
      destruct Hin as (sc1 & w1 & s1 & sc2 & w2 & Hin1 & Hin2 & -> & ->).
      destruct (Hs1 _ _ _ Hin1 (sc2 ++ rest)) as [s1' [E1 Es]]. cbv beta in Es. subst s1'.
      destruct (proj2 (H2 s1) _ _ _ Hin2 rest) as [a [E2 <-]].
      exists (g s1 a). rewrite <- app_assoc. split; [exact (andthen_some g E1 E2) | apply Hg].
  Qed.

  Lemma enum_assign_spec g s : enumerates (fun a => a) (enum_assign g s) (sim_assign g s).
  Proof.
    unfold enum_assign, sim_assign. destruct (holds (ga_cond g) s); [|apply (enumerates_unit (fun a => a))].
    split.
    - intros sc w s' rest H. destruct sc as [|i sc]; [discriminate|]. cbn [pick] in H.
      destruct (nth_error (sampler (ga_rhs g) s) i) as [[w0 v]|] eqn:Hn; [|discriminate].
      injection H as <- <- <-. exists [i]. split; [reflexivity|].
      apply in_map_iff. exists (i, (w0, v)). split; [reflexivity|].
      apply indexed_in. split; [lia|]. rewrite Nat.sub_0_r. exact Hn.
    - intros sc w s' Hin rest. apply in_map_iff in Hin. destruct Hin as [[i [w0 v]] [Heq Hin]].
      cbn [fst snd] in Heq. injection Heq as <- <- <-.
      apply indexed_in in Hin. destruct Hin as [_ Hn]. rewrite Nat.sub_0_r in Hn.
      cbn [app pick]. rewrite Hn. eexists. split; reflexivity.
  Qed.

  Lemma enum_spec :
    (forall st s, enumerates (fun a => a) (enum_stmt st s) (sim_stmt st s)) /\
    (forall b s, enumerates (fun a => a) (enum_block b s) (sim_block b s)) /\
    (forall bs s b, first_match bs s = Some b -> enumerates (fun a => a) (enum_block b s) (sim_block b s)).
  Proof.
    apply pstmt_pblock_pbranches_ind.
    - exact enum_assign_spec.
    - intros bs IHbs els IHels s. rewrite enum_if_first_match.
      apply (enumerates_ext _ _ _ _ (sim_if_first_match bs els s)). unfold selected.
      destruct (first_match bs s) as [b|] eqn:Hf; [exact (IHbs s b Hf) | exact (IHels s)].
    - intros s. exact (enumerates_unit (fun a => a) s).
    - intros st IHst b IHb s. rewrite sim_block_cons. exact (enumerates_seq (IHst s) IHb (fun _ _ => eq_refl)).
    - intros s b H. discriminate H.
    - intros c b IHb bs IHbs s b0 H. cbn [first_match] in H. destruct (holds c s).
      + inversion H; subst. exact (IHb s).
      + exact (IHbs s b0 H).
  Qed.

  (* one iteration of Simulator.simulate, the [step] of [sim_loop]: guard tested on the last state, copy when false *)
  Definition sim_iter (p : pprog) (s : state) (sc : script) : option outcome :=
    if holds (pp_guard p) s then sim_block (pp_body p) s sc else Some (1, s, sc).

  Lemma sim_loop_S p n s : sim_loop p (S n) s = andthen (sim_iter p s) (sim_loop p n) cons.
  Proof. reflexivity. Qed.
  Lemma sim_run_eq p n s0 : sim_run p n s0 = andthen (sim_block (pp_init p) s0) (sim_loop p n) cons.
  Proof. reflexivity. Qed.

  Lemma enum_iter_spec p s : enumerates (fun a => a) (enum_iter p s) (sim_iter p s).
  Proof.
    unfold enum_iter, sim_iter. destruct (holds (pp_guard p) s).
    - exact (proj1 (proj2 enum_spec) _ s).
    - exact (enumerates_unit (fun a => a) s).
  Qed.

  (* the trajectory is read through its last state; it has one state per iteration *)
  Lemma enum_loop_spec p n : forall s, enumerates (fun tr => last tr s) (enum_loop p n s) (sim_loop p n s).
  Proof.
    induction n as [|n IH]; intros s.
    - exact (enumerates_unit (fun tr => last tr s) []).
    - rewrite sim_loop_S. exact (enumerates_seq (enum_iter_spec p s) IH (fun s1 tr => last_cons tr s1 s)).
  Qed.

  Lemma sim_loop_length p n : forall s sc w tr rest, sim_loop p n s sc = Some (w, tr, rest) -> List.length tr = n.
  Proof.
    induction n as [|n IH]; intros s sc w tr rest H.
    - inversion H. reflexivity.
    - rewrite sim_loop_S in H. apply andthen_inv in H. destruct H as (w1 & s1 & sc1 & w2 & tr2 & _ & H2 & _ & ->).
      cbn [List.length]. f_equal. exact (IH _ _ _ _ _ H2).
  Qed.

  Lemma enum_run_spec p n s0 : enumerates (fun tr => last tr s0) (enum_run p n s0) (sim_run p n s0).
  Proof.
    rewrite sim_run_eq.
    exact (enumerates_seq (proj1 (proj2 enum_spec) _ s0) (enum_loop_spec p n) (fun s1 tr => last_cons tr s1 s0)).
  Qed.

  (* every enumerated script drives the executor to that end state with that probability;
     the trajectory has the n+1 states  states[0..n]  of Simulator.simulate *)
  Theorem enum_run_sound p n s0 sc w s' :
    In (sc, (w, s')) (enum_run p n s0) ->
    forall rest, exists tr, sim_run p n s0 (sc ++ rest) = Some (w, tr, rest) /\ last tr s0 = s' /\ List.length tr = S n.
  Proof.
    intros Hin rest. destruct (proj2 (enum_run_spec p n s0) _ _ _ Hin rest) as [tr [H Hl]].
    exists tr. repeat split; [exact H | exact Hl |].
    rewrite sim_run_eq in H. apply andthen_inv in H. destruct H as (w1 & s1 & sc1 & w2 & tr2 & _ & H2 & _ & ->).
    cbn [List.length]. f_equal. exact (sim_loop_length _ _ _ _ _ _ _ H2).
  Qed.

  (* every script on which the executor succeeds is enumerated (no path is missing) *)
  Theorem enum_run_complete p n s0 sc w tr rest :
    sim_run p n s0 sc = Some (w, tr, rest) ->
    exists pre, sc = pre ++ rest /\ In (pre, (w, last tr s0)) (enum_run p n s0).
  Proof. exact (proj1 (enum_run_spec p n s0) sc w tr rest). Qed.

  Lemma law_enum_iter p s : law_of (enum_iter p s) = piter p s.
  Proof. unfold enum_iter, piter. destruct (holds (pp_guard p) s); [apply law_enum | reflexivity]. Qed.
  Lemma law_enum_loop p n : forall s, law_of (enum_loop p n s) = ploop p n s.
  Proof.
    induction n as [|n IH]; intros s; [reflexivity|].
    cbn [enum_loop ploop]. rewrite law_of_pbind, law_enum_iter. apply bind_ext. exact IH.
  Qed.

  Lemma ploop_snoc p n : forall s f, E (ploop p (S n) s) f = E (ploop p n s) (fun a => E (piter p a) f).
  Proof.
    induction n as [|n IH]; intros s f.
    - cbn [ploop]. rewrite E_bind, E_ret. apply E_ext. intros a. rewrite E_ret. reflexivity.
    - change (ploop p (S (S n)) s) with (bind (piter p s) (ploop p (S n))).
      rewrite E_bind. cbn [ploop]. rewrite E_bind. apply E_ext. intros a. apply IH.
  Qed.

  Lemma prun_ploop p n : forall s0 f,
    E (prun p n s0) f = E (pexec_block (pp_init p) s0) (fun s => E (ploop p n s) f).
  Proof.
    induction n as [|n IH]; intros s0 f.
    - cbn [prun ploop]. apply E_ext. intros a. rewrite E_ret. reflexivity.
    - cbn [prun]. rewrite E_bind, IH. apply E_ext. intros a. symmetry. apply ploop_snoc.
  Qed.

  (* summing over all scripts gives the monadic law of the parsed program *)
  Theorem enum_run_law p n s0 f : E (law_of (enum_run p n s0)) f = E (prun p n s0) f.
  Proof.
    unfold enum_run. rewrite law_of_pbind, E_bind, prun_ploop.
    rewrite (proj1 (proj2 law_enum)). apply E_ext. intros a. rewrite law_enum_loop. reflexivity.
  Qed.

  Lemma piter_frozen p s : holds (pp_guard p) s = false -> piter p s = ret s.
  Proof. unfold piter. intros ->. reflexivity. Qed.

  (* once the guard is false on the last state every later state is a copy of it and no
     random source is called any more *)
  Lemma sim_loop_frozen p n : forall s sc,
    holds (pp_guard p) s = false -> sim_loop p n s sc = Some (1, repeat s n, sc).
  Proof.
    induction n as [|n IH]; intros s sc Hg; [reflexivity|].
    cbn [sim_loop]. rewrite Hg. rewrite (IH s sc Hg). cbn [repeat]. replace (1 * 1) with 1 by ring. reflexivity.
  Qed.

  (* the first k iterations of a run of k+m iterations are the run of k iterations on the same script *)
  Lemma sim_loop_split p k m : forall s sc w tr rest,
    sim_loop p (k + m) s sc = Some (w, tr, rest) ->
    exists w1 tr1 mid w2 tr2,
      sim_loop p k s sc = Some (w1, tr1, mid) /\ sim_loop p m (last tr1 s) mid = Some (w2, tr2, rest) /\
      w = w1 * w2 /\ tr = tr1 ++ tr2.
  Proof.
    induction k as [|k IH]; intros s sc w tr rest H.
    - cbn [Nat.add] in H. exists 1, [], sc, w, tr. cbn [sim_loop last app]. repeat split; [exact H | ring].
    - cbn [Nat.add] in H. rewrite sim_loop_S in H |- *. apply andthen_inv in H.
      destruct H as (w1 & s1 & sc1 & w2 & tr' & H1 & H2 & -> & ->).
      destruct (IH _ _ _ _ _ H2) as (wa & tra & mid & wb & trb & Ha & Hb & -> & ->).
      exists (w1 * wa), (s1 :: tra), mid, wb, trb. rewrite last_cons.
      repeat split; [exact (andthen_some cons H1 Ha) | exact Hb | ring].
  Qed.
End Sim.
