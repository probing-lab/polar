(* C02, pass ConditionsNormalizer: the BERNOULLI ABSTRACTION of conditions over variables
   without a finite type (program/transformer/conditions_normalizer.py,
   _normalize_conditions / _try_abstract_failed_condition / _partition_condition).

   When an atom of the condition of a guarded assignment is over a variable without a finite
   type (d = DiscreteUniform(1,30): more values than the typer's limit), the conjuncts C that
   touch such variables are replaced by  a == 1  where  a = Bernoulli(p)  is a fresh coin
   inserted right before the assignment and p is a SYMBOL standing for P(C); the same C met
   again later in the iteration reuses the coin.

   First over Dist.v (weighted lists): consulting C(d) for d ~ D is tossing a coin with
   probability E D [C].  Then the transformation [abstract_at] on Syntax.flatprog with the
   boolean side-condition checker [abstraction_ok]: for every n, every start state with
   s0 p = [abs_prob] and every observation f that ignores the hidden variables and the coin,
   E (frun (abstract_at ...) n s0) f = E (frun fp n s0) f.
   HIDDEN variables H (a parameter, superset of the variables of C): variables assigned
   before the coin, in the same iteration, by UNCONDITIONAL assignments of total mass 1
   that read only hidden variables assigned earlier in the same iteration (direct draws
   with constant parameters AND deterministic / random functions of them, e.g. the
   ConditionsReducer's  _r0 = d - 15); nothing else in the body reads a hidden variable,
   except the conditions after the coin through conjuncts syntactically equal to C.
   DISCRETE draws only: a continuous family (DCont, whose law is a parameter of Sem.v of
   unknown mass) among the hidden assignments makes [abstraction_ok] false.
   Last, chains of abstractions, their composition with the verified model of the rest of
   the pass (PassCondNorm.cn_pass) and the functions that compute the parameters of an
   abstraction from the program and the types ([auto_specs]: only the position and the two
   generated names are read off Polar's output).

   What [abstraction_ok] does NOT cover although Polar accepts it at this stage: statements
   that read a hidden variable after the draw (y = y + d).  There the pass does not preserve
   the joint law of (x, y) — Polar relies on RecBuilder._check_abstraction_is_independent
   (c349038) to refuse the affected moments later; such programs are validated only
   (harness/pass_abstraction.py, exact oracle). *)
From Coq Require Import List String QArith Qcanon ZArith Bool Ring Field Lia.
From Polar Require Import Qcx Dist DistBase Syntax Sem Types PassGuard PassCNBase PassCondNorm.
From Polar Require PassIfAux.
Import ListNotations.
Local Open Scope Qc_scope.

Definition coin (q : Qc) : dist bool := [(q, true); (1 - q, false)].
Definition ind {A} (C : A -> bool) (a : A) : Qc := if C a then 1 else 0.
Definition prob_of {A} (D : dist A) (C : A -> bool) : Qc := E D (ind C).

(* a continuation that consults the draw only through C sees two cases *)
Lemma E_bind_cond {A B} (D : dist A) (C : A -> bool) (k : bool -> dist B) f :
  E (bind D (fun d => k (C d))) f = prob_of D C * E (k true) f + (mass D - prob_of D C) * E (k false) f.
Proof.
  rewrite E_bind. unfold prob_of, mass, ind. induction D as [|[w a] D IH]; cbn [E]; [ring|].
  rewrite IH. destruct (C a); ring.
Qed.

Lemma E_coin {B} q (k : bool -> dist B) f :
  E (bind (coin q) k) f = q * E (k true) f + (1 - q) * E (k false) f.
Proof. rewrite E_bind. unfold coin. cbn [E]. ring. Qed.

Theorem abstraction_lemma {A B} (D : dist A) (C : A -> bool) (k : bool -> dist B) (f : B -> Qc) :
  mass D = 1 ->
  E (bind D (fun d => k (C d))) f = E (bind (coin (prob_of D C)) k) f.
Proof. intros Hm. rewrite E_bind_cond, E_coin, Hm. reflexivity. Qed.

(* any mass (the draw stays in the program, as in Polar's output): q * mass D = E D [C] *)
Theorem abstraction_lemma_mass {A B} (D : dist A) (C : A -> bool) (q : Qc) (k : bool -> dist B) (f : B -> Qc) :
  q * mass D = prob_of D C ->
  E (bind D (fun d => k (C d))) f = E (bind D (fun _ => bind (coin q) k)) f.
Proof. intros Hq. rewrite E_bind_cond, E_bind, E_const, E_coin, <- Hq. ring. Qed.

(* the same condition consulted twice: ONE coin, reused *)
Theorem abstraction_reuse {A B B'} (D : dist A) (C : A -> bool)
        (k1 : bool -> dist B) (k2 : B -> bool -> dist B') (f : B' -> Qc) :
  mass D = 1 ->
  E (bind D (fun d => bind (k1 (C d)) (fun x => k2 x (C d)))) f =
  E (bind (coin (prob_of D C)) (fun b => bind (k1 b) (fun x => k2 x b))) f.
Proof. intros Hm. apply (abstraction_lemma D C (fun b => bind (k1 b) (fun x => k2 x b)) f Hm). Qed.

(* two DIFFERENT conditions over the same draw must not get two independent coins:
   D fair on {true,false}, C1 = id, C2 = negb, both hold with probability 0, not 1/4 *)
Theorem two_conditions_two_coins_refuted :
  exists (D : dist bool) (C1 C2 : bool -> bool) (k : bool -> bool -> dist bool) (f : bool -> Qc),
    mass D = 1 /\
    E (bind D (fun d => k (C1 d) (C2 d))) f <>
    E (bind (coin (prob_of D C1)) (fun b1 => bind (coin (prob_of D C2)) (fun b2 => k b1 b2))) f.
Proof.
  exists [(mkq 1 2, true); (mkq 1 2, false)], (fun b : bool => b), negb, (fun b1 b2 : bool => ret (b1 && b2)),
         (fun b : bool => if b then 1 else 0).
  split; [apply Qc_is_canon; vm_compute; reflexivity | apply Qc_neq_by_eqb; vm_compute; reflexivity].
Qed.

(* a continuation that reads the draw itself, not only C d, breaks the equation
   (E(d * [d == 1]) = 1/2, but E(d) * P(d == 1) = 1/4): the c349038 defect *)
Theorem continuation_reads_draw_refuted :
  exists (D : dist Qc) (C : Qc -> bool) (k : Qc -> bool -> dist Qc) (f : Qc -> Qc),
    mass D = 1 /\
    E (bind D (fun d => k d (C d))) f <>
    E (bind D (fun d => bind (coin (prob_of D C)) (k d))) f.
Proof.
  exists [(mkq 1 2, 0); (mkq 1 2, 1)], (fun d : Qc => Qc_eqb d 1), (fun (d : Qc) (b : bool) => ret (d * (if b then 1 else 0))),
         (fun x : Qc => x).
  split; [apply Qc_is_canon; vm_compute; reflexivity | apply Qc_neq_by_eqb; vm_compute; reflexivity].
Qed.

Definition agree_off (U : list var) (s t : state) : Prop := forall y, ~ In y U -> s y = t y.
Definition ignores (U : list var) (f : state -> Qc) : Prop := forall s t, agree_off U s t -> f s = f t.

Lemma agree_off_refl U s : agree_off U s s.
Proof. intros y _. reflexivity. Qed.
Lemma agree_off_upd U s t x v : agree_off U s t -> agree_off U (upd s x v) (upd t x v).
Proof. intros H y Hy. unfold upd. destruct (var_eqb y x); [reflexivity | apply H; exact Hy]. Qed.
Lemma agree_off_upd_l U s x v : In x U -> agree_off U (upd s x v) s.
Proof. intros Hx y Hy. apply upd_other. intros ->. exact (Hy Hx). Qed.
Lemma agree_off_mono U U' s t : (forall x, In x U -> In x U') -> agree_off U s t -> agree_off U' s t.
Proof. intros Hs H y Hy. apply H. intros Hin. exact (Hy (Hs y Hin)). Qed.
Lemma ignores_mono U U' f : (forall x, In x U -> In x U') -> ignores U' f -> ignores U f.
Proof. intros Hs H s t Hst. apply H. exact (agree_off_mono U U' s t Hs Hst). Qed.

Lemma ignores_app U V f : ignores (U ++ V) f -> ignores U f /\ ignores V f.
Proof. intros Hf. split; apply (ignores_mono _ (U ++ V)); try exact Hf; intros x Hx; apply in_or_app; auto. Qed.

Definition subsetv (a b : list var) : bool := forallb (fun x => mem_var x b) a.
Lemma subsetv_spec a b : subsetv a b = true -> forall x, In x a -> In x b.
Proof. unfold subsetv. intros H x Hx. rewrite forallb_forall in H. apply mem_var_true, H, Hx. Qed.
Lemma notin_b x l : negb (mem_var x l) = true -> ~ In x l.
Proof. intros H. apply mem_var_false, negb_true_iff, H. Qed.

(* total mass one whatever the laws of the continuous families are *)
Definition mass_one_rhs (r : rhs) : bool :=
  match r with
  | RDraw (DCont _ _) => false
  | _ => PassIfAux.rhs_mass1 r
  end.

Lemma sample_law_indep law law' r s : mass_one_rhs r = true -> sample law r s = sample law' r s.
Proof. destruct r as [alts|[p|ps|a b|f args]]; cbn [mass_one_rhs]; intros H; [reflexivity..|discriminate H]. Qed.

(* no law is consulted, so any law of total mass one may stand in for [law] *)
Lemma mass_one_sound law r : mass_one_rhs r = true -> forall s c, E (sample law r s) (fun _ => c) = c.
Proof.
  intros H s c. rewrite (sample_law_indep law (fun _ _ => ret 0) r s H).
  apply (PassIfAux.mass_sample _ (fun _ _ => mass_ret 0)).
  destruct r as [alts|[p|ps|a b|f args]]; [exact H..|discriminate H].
Qed.

Fixpoint conjuncts (c : cond) : list cond :=
  match c with CAnd c1 c2 => conjuncts c1 ++ conjuncts c2 | _ => [c] end.
Definition conj_list (l : list cond) : cond := fold_left and_s l CTrue.
Definition touches (bv : list var) (c : cond) : bool := existsb (fun x => mem_var x bv) (cvars c).

Lemma holds_conjuncts c s : holds c s = forallb (fun d => holds d s) (conjuncts c).
Proof.
  induction c as [| |a o b|c1 IH|c1 IH1 c2 IH2|c1 IH1 c2 IH2]; cbn [conjuncts holds forallb];
    try (rewrite andb_true_r; reflexivity).
  rewrite forallb_app, IH1, IH2. reflexivity.
Qed.
Lemma holds_fold_and_s l acc s :
  holds (fold_left and_s l acc) s = holds acc s && forallb (fun d => holds d s) l.
Proof.
  revert acc; induction l as [|d l IH]; intros acc; cbn [fold_left forallb].
  - rewrite andb_true_r. reflexivity.
  - rewrite IH, holds_and_s, andb_assoc. reflexivity.
Qed.
Lemma holds_conj_list l s : holds (conj_list l) s = forallb (fun d => holds d s) l.
Proof. unfold conj_list. rewrite holds_fold_and_s. reflexivity. Qed.
Lemma forallb_filter_split {A} (f P : A -> bool) l :
  forallb f l = forallb f (filter P l) && forallb f (filter (fun x => negb (P x)) l).
Proof.
  induction l as [|x l IH]; cbn [forallb filter]; [reflexivity|].
  rewrite IH. destruct (P x); cbn [negb forallb]; destruct (f x); cbn [andb]; try reflexivity.
  rewrite andb_false_r. reflexivity.
Qed.

Lemma expr_eqb_eq a b : expr_eqb a b = true -> a = b.
Proof.
  revert b; induction a as [q|x|a1 IH1 a2 IH2|a1 IH1 a2 IH2|a1 IH1 k]; intros b H; destruct b; cbn [expr_eqb] in H; try discriminate.
  - apply Qc_eqb_true in H. subst. reflexivity.
  - apply String.eqb_eq in H. subst. reflexivity.
  - apply andb_true_iff in H. destruct H as [Ha Hb]. rewrite (IH1 _ Ha), (IH2 _ Hb). reflexivity.
  - apply andb_true_iff in H. destruct H as [Ha Hb]. rewrite (IH1 _ Ha), (IH2 _ Hb). reflexivity.
  - apply andb_true_iff in H. destruct H as [Ha Hk]. apply Nat.eqb_eq in Hk. rewrite (IH1 _ Ha), Hk. reflexivity.
Qed.
Lemma cop_eqb_eq a b : cop_eqb a b = true -> a = b.
Proof. destruct a, b; cbn; intros H; try discriminate; reflexivity. Qed.

Fixpoint cond_eqb (c d : cond) : bool :=
  match c, d with
  | CTrue, CTrue | CFalse, CFalse => true
  | CAtom a o b, CAtom a' o' b' => expr_eqb a a' && cop_eqb o o' && expr_eqb b b'
  | CNot c1, CNot d1 => cond_eqb c1 d1
  | CAnd c1 c2, CAnd d1 d2 | COr c1 c2, COr d1 d2 => cond_eqb c1 d1 && cond_eqb c2 d2
  | _, _ => false
  end.
Lemma cond_eqb_eq c d : cond_eqb c d = true -> c = d.
Proof.
  revert d; induction c as [| |a o b|c1 IH|c1 IH1 c2 IH2|c1 IH1 c2 IH2]; intros d H; destruct d; cbn [cond_eqb] in H; try discriminate.
  - reflexivity.
  - reflexivity.
  - apply andb_true_iff in H. destruct H as [H Hb]. apply andb_true_iff in H. destruct H as [Ha Ho].
    rewrite (expr_eqb_eq _ _ Ha), (cop_eqb_eq _ _ Ho), (expr_eqb_eq _ _ Hb). reflexivity.
  - rewrite (IH _ H). reflexivity.
  - apply andb_true_iff in H. destruct H as [H1 H2]. rewrite (IH1 _ H1), (IH2 _ H2). reflexivity.
  - apply andb_true_iff in H. destruct H as [H1 H2]. rewrite (IH1 _ H1), (IH2 _ H2). reflexivity.
Qed.
Fixpoint cond_list_eqb (l1 l2 : list cond) : bool :=
  match l1, l2 with
  | [], [] => true
  | c :: l1', d :: l2' => cond_eqb c d && cond_list_eqb l1' l2'
  | _, _ => false
  end.
Lemma cond_list_eqb_eq l1 l2 : cond_list_eqb l1 l2 = true -> l1 = l2.
Proof.
  revert l2; induction l1 as [|c l1 IH]; intros [|d l2] H; cbn [cond_list_eqb] in H; try discriminate; [reflexivity|].
  apply andb_true_iff in H. destruct H as [H1 H2]. rewrite (cond_eqb_eq _ _ H1), (IH _ H2). reflexivity.
Qed.

(* _partition_condition: conjuncts touching the failed variables [bv] are "bad"; if the bad
   part IS the abstracted condition C the result is  good /\ a == 1  (And(...).simplify()) *)
Definition abs_split (bv : list var) (C : cond) (c : cond) : option cond :=
  let cs := conjuncts c in
  match filter (touches bv) cs with
  | [] => None
  | bad => if cond_list_eqb bad (conjuncts C)
           then Some (conj_list (filter (fun x => negb (touches bv x)) cs))
           else None
  end.
Definition abs_cond (bv : list var) (C : cond) (a : var) (c : cond) : cond :=
  match abs_split bv C c with
  | Some good => and_s good (eq_atom a 1)
  | None => c
  end.
Definition abs_ga (bv : list var) (C : cond) (a : var) (g : gassign) : gassign :=
  {| ga_var := ga_var g; ga_cond := abs_cond bv C a (ga_cond g); ga_default := ga_default g; ga_rhs := ga_rhs g |}.
Definition coin_ga (a p : var) : gassign :=
  {| ga_var := a; ga_cond := CTrue; ga_default := a; ga_rhs := RDraw (DBern (EVar p)) |}.

(* insert  a = Bernoulli(p)  before body position i; replace the bad conjuncts C by  a == 1
   in the assignments from position i on *)
Definition abstract_at (fp : flatprog) (i : nat) (bv : list var) (C : cond) (a p : var) : flatprog :=
  {| fp_init := fp_init fp;
     fp_body := firstn i (fp_body fp) ++ coin_ga a p :: map (abs_ga bv C a) (skipn i (fp_body fp)) |}.

Lemma abs_split_sound bv C c good : abs_split bv C c = Some good ->
  forall s, holds c s = holds good s && holds C s.
Proof.
  unfold abs_split. intros H s.
  destruct (filter (touches bv) (conjuncts c)) as [|b0 bad] eqn:Eb; [discriminate|].
  destruct (cond_list_eqb (b0 :: bad) (conjuncts C)) eqn:Ec; [|discriminate].
  injection H as <-. apply cond_list_eqb_eq in Ec.
  rewrite (holds_conjuncts c), (forallb_filter_split _ (touches bv)), Eb, Ec.
  rewrite <- (holds_conjuncts C), holds_conj_list. apply andb_comm.
Qed.
Lemma holds_abs_cond bv C a c t :
  holds (abs_cond bv C a c) t =
  match abs_split bv C c with Some good => holds good t && Qc_eqb (t a) 1 | None => holds c t end.
Proof. unfold abs_cond. destruct (abs_split bv C c); [rewrite holds_and_s|]; reflexivity. Qed.

Definition clean (U : list var) (g : gassign) : bool :=
  negb (mem_var (ga_var g) U) && negb (mem_var (ga_default g) U) && disjointb (ga_reads g) U.
Definition hid_ok (H : list var) (g : gassign) : bool :=
  match ga_cond g with CTrue => true | _ => false end
  && mass_one_rhs (ga_rhs g) && subsetv (rvars (ga_rhs g)) H.
Definition pre_ok (U H : list var) (g : gassign) : bool :=
  if mem_var (ga_var g) H then hid_ok H g else clean U g.
Definition post_ok (U : list var) (bv : list var) (C : cond) (g : gassign) : bool :=
  negb (mem_var (ga_var g) U) && negb (mem_var (ga_default g) U) && disjointb (rvars (ga_rhs g)) U
  && match abs_split bv C (ga_cond g) with
     | Some good => disjointb (cvars good) U
     | None => disjointb (cvars (ga_cond g)) U
     end.
Definition onlyH (H : list var) (l : list gassign) : list gassign := filter (fun g => mem_var (ga_var g) H) l.
Lemma onlyH_cons H g l : onlyH H (g :: l) = if mem_var (ga_var g) H then g :: onlyH H l else onlyH H l.
Proof. reflexivity. Qed.
(* every hidden assignment reads only hidden variables assigned EARLIER in this iteration,
   and all the variables of C are assigned: the law of C does not depend on the iteration *)
Fixpoint closed_from (C : cond) (A : list var) (l : list gassign) : bool :=
  match l with
  | [] => subsetv (cvars C) A
  | g :: l' => subsetv (rvars (ga_rhs g)) A && closed_from C (ga_var g :: A) l'
  end.

Definition abstraction_ok (fp : flatprog) (i : nat) (H bv : list var) (C : cond) (a p : var) : bool :=
  let U := H ++ [a] in
  let pre := firstn i (fp_body fp) in
  let post := skipn i (fp_body fp) in
  negb (mem_var a H) && negb (mem_var p H) && negb (var_eqb p a)
  && forallb (fun g => negb (var_eqb (ga_var g) p)) (fp_init fp ++ fp_body fp)
  && subsetv (cvars C) H
  && forallb (pre_ok U H) pre
  && closed_from C [] (onlyH H pre)
  && forallb (post_ok U bv C) post.

Definition cind (C : cond) (s : state) : Qc := if holds C s then 1 else 0.
(* the probability of C under the hidden assignments (computable: no continuous law) *)
Definition abs_prob (fp : flatprog) (i : nat) (H : list var) (C : cond) : Qc :=
  E (exec_gas no_law (onlyH H (firstn i (fp_body fp))) st0) (cind C).

Lemma cind_eqb C s : Qc_eqb (cind C s) 1 = holds C s.
Proof. unfold cind. destruct (holds C s); vm_compute; reflexivity. Qed.

Definition reads_only (H : list var) (chi : state -> Qc) : Prop :=
  forall s t, (forall x, In x H -> s x = t x) -> chi s = chi t.
Lemma cind_reads_only H C : (forall x, In x (cvars C) -> In x H) -> reads_only H (cind C).
Proof. intros HC s t Hst. unfold cind. rewrite (holds_ext C s t); [reflexivity|]. intros x Hx. apply Hst, HC, Hx. Qed.

Lemma clean_spec U g : clean U g = true ->
  ~ In (ga_var g) U /\ ~ In (ga_default g) U /\
  (forall x, In x (cvars (ga_cond g)) -> ~ In x U) /\ (forall x, In x (rvars (ga_rhs g)) -> ~ In x U).
Proof.
  unfold clean, ga_reads. rewrite !andb_true_iff. intros [[Hv Hd] Hr]. pose proof (disjointb_spec _ _ Hr) as Hs.
  repeat split.
  - exact (notin_b _ _ Hv).
  - exact (notin_b _ _ Hd).
  - intros x Hx. apply Hs, in_or_app. left. exact Hx.
  - intros x Hx. apply Hs, in_or_app. right. exact Hx.
Qed.

Lemma hid_ok_spec H g : hid_ok H g = true ->
  ga_cond g = CTrue /\ mass_one_rhs (ga_rhs g) = true /\ (forall x, In x (rvars (ga_rhs g)) -> In x H).
Proof.
  unfold hid_ok. rewrite !andb_true_iff. intros [[Hc Hm] Hs].
  repeat split; [destruct (ga_cond g); try discriminate; reflexivity | exact Hm | exact (subsetv_spec _ _ Hs)].
Qed.

(* an assignment after the coin neither writes nor reads U, except that its guard may have C
   as a conjunct (k), which the abstraction replaces by the coin *)
Lemma post_ok_spec U bv C a g : post_ok U bv C g = true ->
  ~ In (ga_var g) U /\ ~ In (ga_default g) U /\ (forall x, In x (rvars (ga_rhs g)) -> ~ In x U) /\
  exists good (k : bool), (forall x, In x (cvars good) -> ~ In x U) /\
    (forall s, holds (ga_cond g) s = holds good s && (negb k || holds C s)) /\
    (forall t, holds (abs_cond bv C a (ga_cond g)) t = holds good t && (negb k || Qc_eqb (t a) 1)).
Proof.
  unfold post_ok. rewrite !andb_true_iff. intros [[[Hv Hd] Hr] Hc].
  split; [exact (notin_b _ _ Hv)|]. split; [exact (notin_b _ _ Hd)|]. split; [exact (disjointb_spec _ _ Hr)|].
  destruct (abs_split bv C (ga_cond g)) as [good|] eqn:Es.
  - exists good, true. split; [exact (disjointb_spec _ _ Hc)|]. split; intros s.
    + exact (abs_split_sound bv C _ good Es s).
    + rewrite holds_abs_cond, Es. reflexivity.
  - exists (ga_cond g), false. split; [exact (disjointb_spec _ _ Hc)|]. split; intros s.
    + symmetry. apply andb_true_r.
    + rewrite holds_abs_cond, Es. symmetry. apply andb_true_r.
Qed.

Lemma abstraction_ok_spec fp i H bv C a p : abstraction_ok fp i H bv C a p = true ->
  ~ In p (H ++ [a]) /\
  (forall g, In g (fp_init fp ++ fp_body fp) -> ga_var g <> p) /\
  (forall x, In x (cvars C) -> In x H) /\
  forallb (pre_ok (H ++ [a]) H) (firstn i (fp_body fp)) = true /\
  closed_from C [] (onlyH H (firstn i (fp_body fp))) = true /\
  forallb (post_ok (H ++ [a]) bv C) (skipn i (fp_body fp)) = true.
Proof.
  unfold abstraction_ok. rewrite !andb_true_iff. intros [[[[[[[_ HpH] Hpa] Hp] HC] Hpre] Hclosed] Hpost].
  repeat split; try assumption.
  - intros Hin. apply in_app_or in Hin. destruct Hin as [Hin|[<-|[]]].
    + exact (notin_b _ _ HpH Hin).
    + rewrite var_eqb_refl in Hpa. discriminate Hpa.
  - intros g Hg Heq. rewrite forallb_forall in Hp. specialize (Hp g Hg).
    rewrite Heq, var_eqb_refl in Hp. discriminate Hp.
  - exact (subsetv_spec _ _ HC).
Qed.

Lemma E_hid law H g s (F : state -> Qc) : hid_ok H g = true ->
  E (exec_ga law g s) F = E (sample law (ga_rhs g) s) (fun v => F (upd s (ga_var g) v)).
Proof. intros Hh. apply E_exec_ga_true, (hid_ok_spec H g Hh). Qed.

Section Abstraction.
  Variable law : string -> list Qc -> dist Qc.

  (* the assignments before the coin: H the hidden variables, U what the observation ignores *)
  Section Pre.
    Variables U H : list var.
    Hypothesis HU : forall x, In x H -> In x U.

    (* a hidden assignment has mass one: an observation that ignores its variable does not see it *)
    Lemma E_hid_ignored g s (F : state -> Qc) : hid_ok H g = true -> In (ga_var g) U -> ignores U F ->
      E (exec_ga law g s) F = F s.
    Proof.
      intros Hg Hx HF. rewrite (E_hid law H g s F Hg).
      rewrite (E_ext _ _ (fun _ => F s)) by (intros v; apply HF, agree_off_upd_l, Hx).
      apply mass_one_sound. apply (hid_ok_spec H g Hg).
    Qed.

    Lemma onlyH_hid l : forallb (pre_ok U H) l = true -> forallb (hid_ok H) (onlyH H l) = true.
    Proof.
      induction l as [|g l IH]; cbn [forallb]; intros Hl; [reflexivity|].
      apply andb_true_iff in Hl. destruct Hl as [Hg Hl]. rewrite onlyH_cons. unfold pre_ok in Hg.
      destruct (mem_var (ga_var g) H); [|apply IH, Hl].
      cbn [forallb]. rewrite Hg. apply IH, Hl.
    Qed.

    (* the hidden variables of the start state do not matter (the hidden assignments overwrite
       what the observation ignores, the others read nothing of U) *)
    Lemma pre_insens l : forallb (pre_ok U H) l = true ->
      forall F : state -> Qc, ignores U F -> ignores U (fun s => E (exec_gas law l s) F).
    Proof.
      induction l as [|g l IH]; intros Hl F HF s t Hst.
      - rewrite !E_exec_gas_nil. apply HF, Hst.
      - cbn [forallb] in Hl. apply andb_true_iff in Hl. destruct Hl as [Hg Hl]. specialize (IH Hl F HF).
        rewrite !E_exec_gas_cons. unfold pre_ok in Hg. destruct (mem_var (ga_var g) H) eqn:EH.
        + apply mem_var_true, HU in EH. rewrite !(E_hid_ignored g _ _ Hg EH IH). apply IH, Hst.
        + destruct (clean_spec U g Hg) as [_ [Hd [Hc Hr]]]. apply E_exec_ga_rel.
          * apply holds_ext. intros x Hx. apply Hst, Hc, Hx.
          * apply sample_ext. intros x Hx. apply Hst, Hr, Hx.
          * apply Hst, Hd.
          * intros v. apply IH, agree_off_upd, Hst.
    Qed.

    Lemma hid_agree l : forallb (hid_ok H) l = true ->
      forall s t chi, (forall x, In x H -> s x = t x) -> reads_only H chi ->
      E (exec_gas law l s) chi = E (exec_gas law l t) chi.
    Proof.
      induction l as [|g l IH]; intros Hl s t chi Hst Hchi.
      - rewrite !E_exec_gas_nil. apply Hchi, Hst.
      - cbn [forallb] in Hl. apply andb_true_iff in Hl. destruct Hl as [Hg Hl].
        destruct (hid_ok_spec H g Hg) as [_ [_ Hr]].
        rewrite !E_exec_gas_cons, !(E_hid law H g _ _ Hg).
        rewrite (sample_ext law (ga_rhs g) s t) by (intros x Hx; apply Hst, Hr, Hx).
        apply E_ext. intros v. apply (IH Hl); [|exact Hchi].
        intros x Hx. apply (upd_agree H), or_intror, Hx. exact Hst.
    Qed.

    (* independence: a function of the hidden variables times a function that ignores them *)
    Lemma pre_split l : forallb (pre_ok U H) l = true ->
      forall s chi psi, reads_only H chi -> ignores U psi ->
      E (exec_gas law l s) (fun t => chi t * psi t) =
      E (exec_gas law (onlyH H l) s) chi * E (exec_gas law l s) psi.
    Proof.
      induction l as [|g l IH]; intros Hl s chi psi Hchi Hpsi.
      - cbn [onlyH filter]. rewrite !E_exec_gas_nil. reflexivity.
      - cbn [forallb] in Hl. apply andb_true_iff in Hl. destruct Hl as [Hg Hl].
        pose proof (pre_insens l Hl psi Hpsi) as Hins.
        rewrite E_exec_gas_cons, (E_ext _ _ _ (fun t => IH Hl t chi psi Hchi Hpsi)).
        rewrite onlyH_cons. unfold pre_ok in Hg.
        destruct (mem_var (ga_var g) H) eqn:EH.
        + (* a hidden assignment: the second factor does not see its value *)
          apply mem_var_true, HU in EH.
          rewrite !E_exec_gas_cons, (E_hid_ignored g s _ Hg EH Hins), !(E_hid law H g _ _ Hg).
          rewrite <- E_mulr. apply E_ext. intros v. f_equal. apply Hins, agree_off_upd_l, EH.
        + (* an assignment that does not touch U: the first factor does not see its value *)
          destruct (clean_spec U g Hg) as [Hv _].
          rewrite E_exec_gas_cons, <- E_cmul.
          apply E_exec_ga_rel; try reflexivity. intros v. f_equal.
          apply (hid_agree _ (onlyH_hid l Hl)); [|exact Hchi].
          intros x Hx. apply upd_other. intros ->. apply Hv, HU, Hx.
    Qed.

    (* the law of C after the hidden assignments is the same from every state, for every law *)
    Lemma closed_sound C l : forallb (hid_ok H) l = true ->
      forall A s t, closed_from C A l = true -> (forall x, In x A -> s x = t x) ->
      E (exec_gas law l s) (cind C) = E (exec_gas no_law l t) (cind C).
    Proof.
      induction l as [|g l IH]; intros Hl A s t Hc Hst.
      - cbn [closed_from] in Hc. rewrite !E_exec_gas_nil.
        apply (cind_reads_only A C (subsetv_spec _ _ Hc)), Hst.
      - cbn [forallb] in Hl. apply andb_true_iff in Hl. destruct Hl as [Hg Hl].
        cbn [closed_from] in Hc. apply andb_true_iff in Hc. destruct Hc as [Hr Hc].
        destruct (hid_ok_spec H g Hg) as [_ [Hm _]].
        rewrite !E_exec_gas_cons, (E_hid law H g _ _ Hg), (E_hid no_law H g _ _ Hg).
        rewrite (sample_law_indep law no_law _ s Hm).
        rewrite (sample_ext no_law (ga_rhs g) s t) by (intros x Hx; apply Hst, (subsetv_spec _ _ Hr), Hx).
        apply E_ext. intros v. apply (IH Hl (ga_var g :: A)); [exact Hc|].
        apply upd_agree, Hst.
    Qed.
  End Pre.

  Section One.
    Variables (fp : flatprog) (i : nat) (H bv : list var) (C : cond) (a p : var).
    Let U := H ++ [a].
    Let pre := firstn i (fp_body fp).
    Let post := skipn i (fp_body fp).
    Let post' := map (abs_ga bv C a) post.
    Let q := abs_prob fp i H C.
    Hypotheses (HpU : ~ In p U)
               (Hp : forall g, In g (fp_init fp ++ fp_body fp) -> ga_var g <> p)
               (HC : forall x, In x (cvars C) -> In x H)
               (Hpre : forallb (pre_ok U H) pre = true)
               (Hclosed : closed_from C [] (onlyH H pre) = true)
               (Hpost : forallb (post_ok U bv C) post = true).

    Lemma H_in_U x : In x H -> In x U.
    Proof. intros Hx. unfold U. apply in_or_app. left. exact Hx. Qed.
    Lemma a_in_U : In a U.
    Proof. unfold U. apply in_or_app. right. left. reflexivity. Qed.

    (* after the coin: the original block from a state where C has truth value b and the
       abstracted block from a state where the coin shows b *)
    Lemma post_sim l : forallb (post_ok U bv C) l = true ->
      forall s t (F : state -> Qc), agree_off U s t -> t a = cind C s -> ignores U F ->
      E (exec_gas law l s) F = E (exec_gas law (map (abs_ga bv C a) l) t) F.
    Proof.
      induction l as [|g l IH]; intros Hl s t F Hst Hta HF; cbn [map].
      - rewrite !E_exec_gas_nil. apply HF, Hst.
      - cbn [forallb] in Hl. apply andb_true_iff in Hl. destruct Hl as [Hg Hl].
        destruct (post_ok_spec U bv C a g Hg) as (Hv & Hd & Hr & good & k & Hgood & Hcg & Hca).
        rewrite !E_exec_gas_cons. apply E_exec_ga_rel; cbn [abs_ga ga_cond ga_var ga_default ga_rhs].
        + rewrite Hcg, Hca, Hta, cind_eqb, (holds_ext good s t); [reflexivity|]. intros x Hx. apply Hst, Hgood, Hx.
        + apply sample_ext. intros x Hx. apply Hst, Hr, Hx.
        + apply Hst, Hd.
        + intros w. apply (IH Hl); [apply agree_off_upd; exact Hst | | exact HF].
          (* the assigned variable is neither the coin nor a variable of C *)
          rewrite upd_other by (intros Ea; apply Hv; rewrite <- Ea; exact a_in_U).
          rewrite Hta. apply (cind_reads_only H C HC). intros x Hx. symmetry. apply upd_other.
          intros ->. apply Hv, H_in_U, Hx.
    Qed.

    (* of U the abstracted block reads the coin only *)
    Lemma post_abs_insens l : forallb (post_ok U bv C) l = true ->
      forall s t (F : state -> Qc), agree_off U s t -> s a = t a -> ignores U F ->
      E (exec_gas law (map (abs_ga bv C a) l) s) F = E (exec_gas law (map (abs_ga bv C a) l) t) F.
    Proof.
      induction l as [|g l IH]; intros Hl s t F Hst Ha HF; cbn [map].
      - rewrite !E_exec_gas_nil. apply HF, Hst.
      - cbn [forallb] in Hl. apply andb_true_iff in Hl. destruct Hl as [Hg Hl].
        destruct (post_ok_spec U bv C a g Hg) as (_ & Hd & Hr & good & k & Hgood & _ & Hca).
        rewrite !E_exec_gas_cons. apply E_exec_ga_rel; cbn [abs_ga ga_cond ga_var ga_default ga_rhs].
        + rewrite !Hca, Ha, (holds_ext good s t); [reflexivity|]. intros x Hx. apply Hst, Hgood, Hx.
        + apply sample_ext. intros x Hx. apply Hst, Hr, Hx.
        + apply Hst, Hd.
        + intros w. apply (IH Hl); [apply agree_off_upd; exact Hst | | exact HF].
          unfold upd. rewrite Ha. reflexivity.
    Qed.

    (* the rest of the iteration after the coin has shown v *)
    Definition after_coin (F : state -> Qc) (v : Qc) (t : state) : Qc := E (exec_gas law post' (upd t a v)) F.

    Lemma after_coin_ignores F v : ignores U F -> ignores U (after_coin F v).
    Proof.
      intros HF s t Hst. unfold after_coin, post'.
      apply (post_abs_insens post Hpost); [apply agree_off_upd; exact Hst | rewrite !upd_same; reflexivity | exact HF].
    Qed.

    (* ... shows 1 with probability r *)
    Definition mix (F : state -> Qc) (r : Qc) (t : state) : Qc :=
      r * (after_coin F 1 t - after_coin F 0 t) + after_coin F 0 t.

    Lemma diff_ignores F : ignores U F -> ignores U (fun t => after_coin F 1 t - after_coin F 0 t).
    Proof.
      intros HF s t Hst. rewrite (after_coin_ignores F 1 HF s t Hst), (after_coin_ignores F 0 HF s t Hst). reflexivity.
    Qed.
    Lemma mix_ignores F r : ignores U F -> ignores U (mix F r).
    Proof.
      intros HF s t Hst. unfold mix. rewrite (diff_ignores F HF s t Hst), (after_coin_ignores F 0 HF s t Hst). reflexivity.
    Qed.

    (* after the assignments before the coin the ORIGINAL iteration continues as if a coin had
       shown the truth value of C ... *)
    Lemma post_orig t (F : state -> Qc) : ignores U F -> E (exec_gas law post t) F = mix F (cind C t) t.
    Proof.
      intros HF. rewrite (post_sim post Hpost t (upd t a (cind C t)) F).
      - unfold mix, after_coin, post', cind. destruct (holds C t); ring.
      - intros y Hy. symmetry. apply upd_other. intros ->. apply Hy, a_in_U.
      - apply upd_same.
      - exact HF.
    Qed.
    (* ... and the ABSTRACTED one tosses a coin with the value of p as its probability *)
    Lemma post_abs t (F : state -> Qc) : E (exec_gas law (coin_ga a p :: post') t) F = mix F (t p) t.
    Proof.
      rewrite E_exec_gas_cons, E_exec_ga.
      cbn [coin_ga ga_cond ga_rhs ga_var holds sample draw_law eval E]. unfold mix, after_coin. ring.
    Qed.

    (* one iteration of the original program: the truth value of C is independent of what the
       rest of the iteration does and has the same law, abs_prob, from every state *)
    Lemma step_orig s (F : state -> Qc) : ignores U F ->
      E (fstep law fp s) F = E (exec_gas law pre s) (mix F q).
    Proof.
      intros HF. unfold fstep. rewrite <- (firstn_skipn i (fp_body fp)). fold pre post.
      rewrite E_exec_gas_app, (E_ext _ _ _ (fun t => post_orig t F HF)). unfold mix.
      rewrite E_add, (pre_split U H H_in_U pre Hpre s (cind C) _ (cind_reads_only H C HC) (diff_ignores F HF)).
      rewrite (closed_sound H C _ (onlyH_hid U H pre Hpre) [] s st0 Hclosed) by (intros x []).
      rewrite E_add, E_cmul. reflexivity.
    Qed.

    (* one iteration of the abstracted program; the probability symbol is not assigned *)
    Lemma step_abs s (F : state -> Qc) :
      E (fstep law (abstract_at fp i bv C a p) s) F = E (exec_gas law pre s) (mix F (s p)).
    Proof.
      unfold fstep, abstract_at. cbn [fp_body]. fold pre post post'.
      rewrite E_exec_gas_app, (E_ext _ _ _ (fun t => post_abs t F)).
      apply (exec_gas_keeps law p pre) with (K := mix F). intros g Hg. apply Hp, in_or_app. right.
      rewrite <- (firstn_skipn i (fp_body fp)). apply in_or_app. left. exact Hg.
    Qed.

    (* [U] = the hidden variables and the coin; under the section's hypotheses, which
       [abstraction_ok] decides, every observation that ignores [U] has the same expectation *)
    Theorem abstraction_sound_U : forall n s0 (f : state -> Qc),
      s0 p = q -> ignores U f ->
      E (frun law (abstract_at fp i bv C a p) n s0) f = E (frun law fp n s0) f.
    Proof.
      intros n s0 f Hp0. revert f. induction n as [|n IH]; intros f Hf; [reflexivity|].
      cbn [frun]. rewrite !E_bind, (E_ext _ _ _ (fun s => step_abs s f)).
      rewrite IH.
      - rewrite (frun_keeps law p fp Hp n s0 (fun r s => E (exec_gas law pre s) (mix f r))), Hp0.
        apply E_ext. intros s. symmetry. apply step_orig, Hf.
      - intros s t Hst. rewrite (Hst p HpU). apply (pre_insens U H H_in_U pre Hpre), Hst. apply mix_ignores, Hf.
    Qed.
  End One.

  (* THE THEOREM: every n, every start state in which the probability symbol has the value
     P(C), every observation that reads neither the hidden variables nor the coin *)
  Theorem abstraction_sound fp i H bv C a p :
    abstraction_ok fp i H bv C a p = true ->
    forall n s0 (f : state -> Qc),
      s0 p = abs_prob fp i H C -> ignores (H ++ [a]) f ->
      E (frun law (abstract_at fp i bv C a p) n s0) f = E (frun law fp n s0) f.
  Proof.
    intros Hok. destruct (abstraction_ok_spec fp i H bv C a p Hok) as (HpU & Hp & HC & Hpre & Hclosed & Hpost).
    exact (abstraction_sound_U fp i H bv C a p HpU Hp HC Hpre Hclosed Hpost).
  Qed.

  (* direct draws: the hidden variables are exactly the variables of C *)
  Corollary abstraction_sound_direct fp i bv C a p :
    abstraction_ok fp i (cvars C) bv C a p = true ->
    forall n s0 (f : state -> Qc),
      s0 p = abs_prob fp i (cvars C) C -> ignores (cvars C ++ [a]) f ->
      E (frun law (abstract_at fp i bv C a p) n s0) f = E (frun law fp n s0) f.
  Proof. apply abstraction_sound. Qed.

  (* chains of abstractions: several coins *)
  Record aspec := { as_i : nat; as_H : list var; as_bv : list var; as_C : cond; as_a : var; as_p : var }.
  Definition abstract_spec (fp : flatprog) (sp : aspec) : flatprog :=
    abstract_at fp (as_i sp) (as_bv sp) (as_C sp) (as_a sp) (as_p sp).
  Definition spec_ok (fp : flatprog) (sp : aspec) : bool :=
    abstraction_ok fp (as_i sp) (as_H sp) (as_bv sp) (as_C sp) (as_a sp) (as_p sp).
  Definition spec_prob (fp : flatprog) (sp : aspec) : Qc := abs_prob fp (as_i sp) (as_H sp) (as_C sp).
  Fixpoint abstract_many (fp : flatprog) (l : list aspec) : flatprog :=
    match l with [] => fp | sp :: l' => abstract_many (abstract_spec fp sp) l' end.
  Fixpoint many_ok (fp : flatprog) (l : list aspec) : bool :=
    match l with [] => true | sp :: l' => spec_ok fp sp && many_ok (abstract_spec fp sp) l' end.
  Fixpoint probs_ok (fp : flatprog) (l : list aspec) (s0 : state) : Prop :=
    match l with [] => True | sp :: l' => s0 (as_p sp) = spec_prob fp sp /\ probs_ok (abstract_spec fp sp) l' s0 end.
  Fixpoint many_probs (fp : flatprog) (l : list aspec) : list (var * Qc) :=
    match l with [] => [] | sp :: l' => (as_p sp, spec_prob fp sp) :: many_probs (abstract_spec fp sp) l' end.
  Definition hidden (l : list aspec) : list var := flat_map (fun sp => as_H sp ++ [as_a sp]) l.

  Theorem abstract_many_sound l : forall fp,
    many_ok fp l = true ->
    forall n s0 (f : state -> Qc), probs_ok fp l s0 -> ignores (hidden l) f ->
      E (frun law (abstract_many fp l) n s0) f = E (frun law fp n s0) f.
  Proof.
    induction l as [|sp l IH]; intros fp Hok n s0 f Hp Hf; [reflexivity|].
    cbn [many_ok] in Hok. apply andb_true_iff in Hok. destruct Hok as [Hsp Hl].
    cbn [probs_ok] in Hp. destruct Hp as [Hp0 Hp].
    unfold hidden in Hf. cbn [flat_map] in Hf. apply ignores_app in Hf. destruct Hf as [Hf0 Hf].
    cbn [abstract_many]. rewrite (IH _ Hl n s0 f Hp Hf).
    apply (abstraction_sound _ _ _ _ _ _ _ Hsp n s0 f Hp0 Hf0).
  Qed.

  (* the whole pass = abstraction of the failed conjuncts, then normalisation of the atoms over
     finitely typed variables (the coins have type {0,1}) by the verified PassCondNorm.cn_pass *)
  Theorem abs_then_cn_sound T fp l fp' :
    many_ok fp l = true ->
    cn_pass T (abstract_many fp l) = Some fp' ->
    check_types (abstract_many fp l) T = true ->
    forall s0, init_ok (abstract_many fp l) T s0 -> probs_ok fp l s0 ->
    forall n (f : state -> Qc), ignores (hidden l) f ->
      E (frun law fp' n s0) f = E (frun law fp n s0) f.
  Proof.
    intros Hok Hcn Hty s0 Hinit Hp n f Hf.
    rewrite (cn_pass_preserves law T _ fp' Hcn Hty s0 Hinit n f).
    apply (abstract_many_sound l fp Hok n s0 f Hp Hf).
  Qed.
End Abstraction.

(* a start state satisfying [probs_ok] exists whenever the probability symbols are pairwise
   distinct: non-vacuity of the hypothesis on s0 *)
Fixpoint set_probs (l : list (var * Qc)) (s : state) : state :=
  match l with [] => s | (x, v) :: l' => upd (set_probs l' s) x v end.
Lemma set_probs_lookup l s x v : NoDup (map fst l) -> In (x, v) l -> set_probs l s x = v.
Proof.
  induction l as [|[y w] l IH]; cbn [map fst set_probs]; intros Hnd Hin; [destruct Hin|].
  inversion Hnd as [|y0 l0 Hy Hnd']; subst. destruct Hin as [Hin|Hin].
  - injection Hin as -> ->. apply upd_same.
  - rewrite upd_other; [apply IH; assumption|].
    intros ->. apply Hy. change y with (fst (y, v)). apply in_map. exact Hin.
Qed.
Lemma probs_ok_all l : forall fp s0, (forall x v, In (x, v) (many_probs fp l) -> s0 x = v) -> probs_ok fp l s0.
Proof.
  induction l as [|sp l IH]; intros fp s0 H; cbn [probs_ok many_probs] in *; [exact I|].
  split; [apply H; left; reflexivity | apply IH; intros x v Hin; apply H; right; exact Hin].
Qed.
Theorem probs_ok_satisfiable fp l s :
  NoDup (map fst (many_probs fp l)) -> probs_ok fp l (set_probs (many_probs fp l) s).
Proof. intros Hnd. apply probs_ok_all. intros x v Hin. apply set_probs_lookup; assumption. Qed.

(* Atom.get_normalized: a reduced atom over a variable without finite type "fails" *)
Fixpoint failed_vars (T : tenv) (c : cond) : list var :=
  match c with
  | CAtom (EVar x) _ (EConst _) => match tlookup T x with None => [x] | Some _ => [] end
  | CNot c1 => failed_vars T c1
  | CAnd c1 c2 | COr c1 c2 => failed_vars T c1 ++ failed_vars T c2
  | _ => []
  end.
Definition bad_of (bv : list var) (c : cond) : cond := conj_list (filter (touches bv) (conjuncts c)).
(* the variables the truth value of C is computed from: backwards closure over the
   assignments before the coin *)
Definition hid_of (pre : list gassign) (vs : list var) : list var :=
  fold_left (fun acc g => if mem_var (ga_var g) acc
                          then acc ++ filter (fun x => negb (mem_var x acc)) (nodup string_dec (rvars (ga_rhs g)))
                          else acc) (rev pre) vs.
Definition dummy_ga : gassign := {| ga_var := EmptyString; ga_cond := CTrue; ga_default := EmptyString; ga_rhs := RChoice [] |}.
Definition auto_spec (T : tenv) (fp : flatprog) (i : nat) (a p : var) : aspec :=
  let c := ga_cond (nth i (fp_body fp) dummy_ga) in
  let bv := nodup string_dec (failed_vars T c) in
  let C := bad_of bv c in
  {| as_i := i; as_H := hid_of (firstn i (fp_body fp)) (nodup string_dec (cvars C)); as_bv := bv; as_C := C; as_a := a; as_p := p |}.
Fixpoint auto_specs (T : tenv) (fp : flatprog) (l : list (nat * (var * var))) : list aspec :=
  match l with
  | [] => []
  | (i, (a, p)) :: l' => let sp := auto_spec T fp i a p in sp :: auto_specs T (abstract_spec fp sp) l'
  end.

(* the side conditions are not superfluous: two shapes Polar accepted before /repo 50b0bdd
   resp. accepts at this stage (c349038 refuses the moment later), with concrete numbers *)
Local Open Scope string_scope.
Definition wq (z : Z) : expr := EConst (mkq z 1).
Definition wasg (x : var) (e : expr) : gassign := {| ga_var := x; ga_cond := CTrue; ga_default := x; ga_rhs := RDet e |}.
Definition wdrw (x : var) (d : draw) : gassign := {| ga_var := x; ga_cond := CTrue; ga_default := x; ga_rhs := RDraw d |}.
Definition wgasg (x : var) (c : cond) (e : expr) : gassign := {| ga_var := x; ga_cond := c; ga_default := x; ga_rhs := RDet e |}.
Definition wle (x : var) (k : Z) : cond := CAtom (EVar x) Cle (wq k).
(* d = DiscreteUniform(1,2); if d <= 1: x = x + 1 end; y = y + d *)
Definition wit_later_read : flatprog :=
  {| fp_init := [wasg "x" (wq 0); wasg "y" (wq 0)];
     fp_body := [wdrw "d" (DUnif 1 2); wgasg "x" (wle "d" 1) (EAdd (EVar "x") (wq 1)); wasg "y" (EAdd (EVar "y") (EVar "d"))] |}.
(* d = DiscreteUniform(1,2); y = d; if d <= 1: x = x + y end *)
Definition wit_reads_copy : flatprog :=
  {| fp_init := [wasg "x" (wq 0); wasg "y" (wq 0)];
     fp_body := [wdrw "d" (DUnif 1 2); wasg "y" (EVar "d"); wgasg "x" (wle "d" 1) (EAdd (EVar "x") (EVar "y"))] |}.

Lemma wit_ignores_xy : ignores (["d"] ++ ["_a0"]) (fun s => s "x" * s "y").
Proof.
  intros s t Hst. rewrite (Hst "x"), (Hst "y"); [reflexivity| |]; intros [H|[H|[]]]; discriminate H.
Qed.
Lemma wit_ignores_x : ignores (["d"] ++ ["_a0"]) (fun s => s "x").
Proof. intros s t Hst. apply Hst. intros [H|[H|[]]]; discriminate H. Qed.

(* E(x*y) after one iteration, abstracted and original *)
Lemma wit_later_read_abs :
  E (frun no_law (abstract_at wit_later_read 1 ["d"] (wle "d" 1) "_a0" "_prob1") 1 (upd st0 "_prob1" (mkq 1 2))) (fun s => s "x" * s "y")
  = mkq 3 4.
Proof. apply Qc_is_canon. vm_compute. reflexivity. Qed.
Lemma wit_later_read_orig :
  E (frun no_law wit_later_read 1 (upd st0 "_prob1" (mkq 1 2))) (fun s => s "x" * s "y") = mkq 1 2.
Proof. apply Qc_is_canon. vm_compute. reflexivity. Qed.
Lemma wit_later_read_rejected : abstraction_ok wit_later_read 1 ["d"] ["d"] (wle "d" 1) "_a0" "_prob1" = false.
Proof. vm_compute. reflexivity. Qed.
Lemma wit_reads_copy_rejected : abstraction_ok wit_reads_copy 2 ["d"] ["d"] (wle "d" 1) "_a0" "_prob1" = false.
Proof. vm_compute. reflexivity. Qed.

Theorem abstract_at_later_read_refuted :
  exists (fp : flatprog) (i : nat) (H bv : list var) (C : cond) (a p : var) (n : nat) (s0 : state) (f : state -> Qc),
    abstraction_ok fp i H bv C a p = false /\ s0 p = abs_prob fp i H C /\ ignores (H ++ [a]) f /\
    E (frun no_law (abstract_at fp i bv C a p) n s0) f <> E (frun no_law fp n s0) f.
Proof.
  exists wit_later_read, 1%nat, ["d"], ["d"], (wle "d" 1), "_a0", "_prob1", 1%nat, (upd st0 "_prob1" (mkq 1 2)), (fun s : state => s "x" * s "y").
  split; [exact wit_later_read_rejected|]. split; [apply Qc_is_canon; vm_compute; reflexivity|]. split; [exact wit_ignores_xy|].
  rewrite wit_later_read_abs, wit_later_read_orig. apply Qc_neq_by_eqb. vm_compute. reflexivity.
Qed.
Theorem abstract_at_reads_copy_refuted :
  exists (fp : flatprog) (i : nat) (H bv : list var) (C : cond) (a p : var) (n : nat) (s0 : state) (f : state -> Qc),
    abstraction_ok fp i H bv C a p = false /\ s0 p = abs_prob fp i H C /\ ignores (H ++ [a]) f /\
    E (frun no_law (abstract_at fp i bv C a p) n s0) f <> E (frun no_law fp n s0) f.
Proof.
  exists wit_reads_copy, 2%nat, ["d"], ["d"], (wle "d" 1), "_a0", "_prob1", 1%nat, (upd st0 "_prob1" (mkq 1 2)), (fun s => s "x").
  split; [exact wit_reads_copy_rejected|]. split; [apply Qc_is_canon; vm_compute; reflexivity|]. split; [exact wit_ignores_x|].
  apply Qc_neq_by_eqb. vm_compute. reflexivity.
Qed.
