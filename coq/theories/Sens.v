(* C10 — sensitivity analysis, part 1: the algebra.
   * dual numbers  D = R[eps]/(eps^2)  over any commutative ring R form a commutative ring;
   * evaluating a polynomial P (coefficient list over R) at the dual number (x, 1) gives
     (P(x), P'(x)) with P' the FORMAL derivative [pderiv]   (product rule, induction);
   * iterating a matrix of dual numbers  A + eps A'  on  v + eps v'  is, componentwise,
     iterating the block matrix [[A,0],[A',A]] on (v, v')                    (all n);
   * hence for every linear system  x(n+1) = A(p) x(n), x(0) = v(p)  whose entries are
     polynomials in the parameter p, the "sensitivity recurrences"  [[A,0],[A',A]], (v,v')
     compute, at every parameter value and every n, the value and the formal p-derivative
     of the polynomial (A^n v)(p)                                            [deriv_system]. *)
From Coq Require Import List Bool Arith Lia Ring.
From Polar Require Import CRing ExpPoly ClosedForm.
Import ListNotations.

Section Dual.
  Variable R : cring.
  Add Ring Rring : (rth R).
  Local Open Scope cr_scope.

  Definition dcar : Type := (R * R)%type.
  Definition d0 : dcar := (r0, r0).
  Definition d1 : dcar := (r1, r0).
  Definition dadd (x y : dcar) : dcar := (fst x + fst y, snd x + snd y).
  (* (a + eps a') (b + eps b') = ab + eps (a b' + a' b) *)
  Definition dmul (x y : dcar) : dcar := (fst x * fst y, fst x * snd y + snd x * fst y).
  Definition dopp (x : dcar) : dcar := (- fst x, - snd x).
  Definition dsub (x y : dcar) : dcar := (fst x - fst y, snd x - snd y).
  Definition deqb (x y : dcar) : bool := reqb (fst x) (fst y) && reqb (snd x) (snd y).

  (* D is the quadratic extension R[t]/(t^2 - 0): only the product is written differently *)
  Lemma dmul_quad x y : dmul x y = qmul R r0 x y.
  Proof. unfold dmul, qmul. f_equal. ring. Qed.

  Lemma dual_rth : ring_theory d0 d1 dadd dmul dsub dopp (@eq dcar).
  Proof.
    destruct (quad_rth R r0); constructor; intros; rewrite ?dmul_quad; auto.
  Qed.

  Lemma deqb_eq : forall x y, deqb x y = true -> x = y.
  Proof. exact (qeqb_eq R). Qed.

  Definition dual_cring : cring :=
    {| car := dcar; r0 := d0; r1 := d1; radd := dadd; rmul := dmul; rsub := dsub;
       ropp := dopp; reqb := deqb; rth := dual_rth; reqb_eq := deqb_eq |}.

  Lemma dual_eps_sq : dmul (r0, r1) (r0, r1) = d0.
  Proof. rewrite dmul_quad. apply quad_gen_sq. Qed.

  (* R embeds as a subring *)
  Definition dinj (a : R) : dual_cring := (a, r0).
  Lemma dinj_add a b : dinj (a + b) = radd (c := dual_cring) (dinj a) (dinj b).
  Proof. unfold dinj; simpl; unfold dadd; simpl; f_equal; ring. Qed.
  Lemma dinj_mul a b : dinj (a * b) = rmul (c := dual_cring) (dinj a) (dinj b).
  Proof. unfold dinj; simpl; unfold dmul; simpl; f_equal; ring. Qed.
End Dual.

Arguments dinj {R} _.

Section Deriv.
  Variable R : cring.
  Add Ring Rring2 : (rth R).
  Local Open Scope cr_scope.
  Notation "0" := (@r0 R).
  Notation "1" := (@r1 R).
  Notation D := (dual_cring R).

  (* (a + x Q)' = Q + x Q' *)
  Fixpoint pderiv (P : list R) : list R :=
    match P with [] => [] | _ :: Q => padd R Q (0 :: pderiv Q) end.

  (* it is the usual formal derivative: coefficient k of P' is (k+1) * coefficient k+1 of P *)
  Lemma nth_padd (P Q : list R) k : nth k (padd R P Q) 0 = nth k P 0 + nth k Q 0.
  Proof.
    revert Q k; induction P as [|a P IH]; intros [|b Q] [|k]; cbn [padd nth]; try apply IH; ring.
  Qed.
  Lemma pderiv_coeff P : forall k, nth k (pderiv P) 0 = (rnat k + 1) * nth (S k) P 0.
  Proof.
    induction P as [|a P IH]; intros k.
    - simpl. destruct k; simpl; ring.
    - cbn [pderiv]. rewrite nth_padd. destruct k as [|k].
      + cbn [nth rnat]. ring.
      + cbn [nth]. rewrite IH. cbn [rnat]. ring.
  Qed.

  (* ... and it is the derivative in the analytic sense: P(x+h) = P(x) + h P'(x) + h^2 T(x,h)
     with T a polynomial expression (so the difference quotient tends to P'(x)) *)
  Fixpoint ptay (P : list R) (x h : R) : R :=
    match P with [] => 0 | _ :: Q => peval (pderiv Q) x + (x + h) * ptay Q x h end.
  Theorem pderiv_taylor P x h :
    peval P (x + h) = peval P x + h * peval (pderiv P) x + h * h * ptay P x h.
  Proof.
    induction P as [|a P IH]; [simpl; ring|].
    cbn [peval pderiv ptay]. rewrite IH, peval_padd. cbn [peval]. ring.
  Qed.

  (* product rule, in the only form needed: P evaluated at the dual number x + eps *)
  Theorem peval_dual (P : list R) (x : R) :
    peval (R := D) (map dinj P) (x, 1) = (peval P x, peval (pderiv P) x).
  Proof.
    induction P as [|a P IH]; [reflexivity|].
    cbn [map peval pderiv]. rewrite IH. rewrite peval_padd. cbn [peval].
    simpl. unfold dadd, dmul, dinj; simpl. f_equal; ring.
  Qed.

  (* a polynomial without p (all higher coefficients zero) has derivative 0 everywhere *)
  Definition mentions (P : list R) : bool := negb (pzero R (tl P)).
  Lemma pderiv_const P x : mentions P = false -> peval (pderiv P) x = 0.
  Proof.
    unfold mentions; intros H. apply negb_false_iff in H.
    induction P as [|a Q IH]; [reflexivity|]. cbn [tl] in H. cbn [pderiv].
    rewrite peval_padd. cbn [peval]. rewrite (pzero_sound R Q H), IH; [ring|].
    destruct Q as [|b Q']; [reflexivity|].
    cbn [pzero forallb] in H. apply andb_true_iff in H. apply H.
  Qed.

  Lemma map_dinj_padd P Q : map dinj (padd R P Q) = padd D (map dinj P) (map dinj Q).
  Proof.
    revert Q; induction P as [|a P IH]; intros [|b Q]; simpl; try reflexivity.
    rewrite IH. f_equal. apply dinj_add.
  Qed.
  Lemma map_dinj_pscale c P : map dinj (pscale R c P) = pscale D (dinj c) (map dinj P).
  Proof.
    unfold pscale. rewrite !map_map. apply map_ext. intros a. apply dinj_mul.
  Qed.
  Lemma map_dinj_pmul P Q : map dinj (pmul R P Q) = pmul D (map dinj P) (map dinj Q).
  Proof.
    induction P as [|a P IH]; [reflexivity|].
    cbn [pmul map]. rewrite map_dinj_padd, map_dinj_pscale. cbn [map]. rewrite IH. reflexivity.
  Qed.
End Deriv.

Arguments pderiv {R} _. Arguments mentions {R} _. Arguments ptay {R} _ _ _.

Section Block.
  Variable R : cring.
  Add Ring Rring3 : (rth R).
  Local Open Scope cr_scope.
  Notation "0" := (@r0 R).
  Notation D := (dual_cring R).

  Definition zeros {X} (l : list X) : list R := map (fun _ => 0) l.

  (* [[A, 0], [A', A]] *)
  Definition block (A A' : list (list R)) : list (list R) :=
    map (fun r => r ++ zeros r) A ++ map (fun rr => fst rr ++ snd rr) (combine A' A).

  Definition fstM (A : list (list D)) : list (list R) := map (map fst) A.
  Definition sndM (A : list (list D)) : list (list R) := map (map snd) A.

  Lemma dot_nil_r (r : list R) : dot r [] = 0.
  Proof. destruct r; reflexivity. Qed.

  Lemma dot_zeros {X} (l : list X) (x : list R) : dot (zeros l) x = 0.
  Proof.
    revert x; induction l as [|a l IH]; intros [|b x]; simpl; try reflexivity.
    fold (zeros l). rewrite IH. ring.
  Qed.

  Lemma dot_dual (r x : list D) :
    dot (R := D) r x =
    (dot (map fst r) (map fst x), dot (map fst r) (map snd x) + dot (map snd r) (map fst x)).
  Proof.
    revert x; induction r as [|a r IH]; intros [|b x]; simpl; [unfold d0; f_equal; ring ..|].
    rewrite IH. destruct a as [a a'], b as [b b']. simpl. unfold dadd, dmul; simpl. f_equal; ring.
  Qed.

  Lemma block_dual (A : list (list D)) :
    block (fstM A) (sndM A)
    = map (fun r => map fst r ++ zeros r) A ++ map (fun r => map snd r ++ map fst r) A.
  Proof.
    unfold block, fstM, sndM. f_equal.
    - rewrite map_map. apply map_ext. intros r. unfold zeros. rewrite map_map. reflexivity.
    - induction A as [|r A IH]; [reflexivity|]. simpl. rewrite IH. reflexivity.
  Qed.

  Definition wfM {X} (k : nat) (A : list (list X)) : Prop :=
    length A = k /\ Forall (fun r => length r = k) A.

  Lemma mvec_block (A : list (list D)) (x : list D) :
    Forall (fun r => length r = length x) A ->
    mvec (block (fstM A) (sndM A)) (map fst x ++ map snd x)
    = map fst (mvec A x) ++ map snd (mvec A x).
  Proof.
    intros H. rewrite block_dual. unfold mvec. rewrite map_app, !map_map.
    f_equal; apply map_ext_Forall; revert H; apply Forall_impl; intros r Hr;
      (rewrite dot_app by (rewrite !map_length; exact Hr)); rewrite dot_dual; simpl.
    - rewrite dot_zeros. ring.
    - ring.
  Qed.

  (* the dual iteration IS the block iteration, componentwise, for every n *)
  Theorem iter_block (A : list (list D)) (v : list D) k :
    wfM k A -> length v = k -> forall n,
    iter_mat (block (fstM A) (sndM A)) n (map fst v ++ map snd v)
    = map fst (iter_mat A n v) ++ map snd (iter_mat A n v).
  Proof.
    intros [HA HR] Hv.
    apply (iter_mat_sim (fun y => length y = k) (fun y : list D => map fst y ++ map snd y));
      [| | exact Hv]; intros y Hy.
    - rewrite mvec_length. exact HA.
    - apply mvec_block. rewrite Hy. exact HR.
  Qed.

  (* the first component is the original system *)
  Lemma mvec_fst (A : list (list D)) (x : list D) : mvec (fstM A) (map fst x) = map fst (mvec A x).
  Proof.
    unfold mvec, fstM. rewrite !map_map. apply map_ext. intros r. rewrite dot_dual. reflexivity.
  Qed.
  Theorem iter_fst (A : list (list D)) (v : list D) n :
    map fst (iter_mat A n v) = iter_mat (fstM A) n (map fst v).
  Proof.
    symmetry. apply (iter_mat_sim (fun _ => True)); auto. intros y _. apply mvec_fst.
  Qed.
End Block.

Arguments block {R} _ _. Arguments zeros {R X} _. Arguments wfM {X} _ _.

(* Linear systems whose entries are polynomials in the parameter. *)
Section PolySystem.
  Variable R : cring.
  Add Ring Rring4 : (rth R).
  Local Open Scope cr_scope.
  Notation D := (dual_cring R).
  Notation poly := (list R).

  Definition evalV (Pv : list poly) (x : R) : list R := map (fun P => peval P x) Pv.
  Definition evalM (PA : list (list poly)) (x : R) : list (list R) := map (fun r => evalV r x) PA.
  Lemma evalV_app l1 l2 x : evalV (l1 ++ l2) x = evalV l1 x ++ evalV l2 x.
  Proof. apply map_app. Qed.
  Definition derivV (Pv : list poly) : list poly := map pderiv Pv.
  Definition derivM (PA : list (list poly)) : list (list poly) := map derivV PA.

  (* the same iteration carried out on polynomials: (A^n v)(p) as a vector of polynomials *)
  Fixpoint pdot (r x : list poly) : poly :=
    match r, x with a :: r', b :: x' => padd R (pmul R a b) (pdot r' x') | _, _ => [] end.
  Definition pmvec (PA : list (list poly)) (x : list poly) : list poly := map (fun r => pdot r x) PA.
  Fixpoint piter (PA : list (list poly)) (n : nat) (Pv : list poly) : list poly :=
    match n with O => Pv | S n => pmvec PA (piter PA n Pv) end.

  Section AnyRing.
    (* evaluation in any ring S receiving R through a map [lift] that commutes with padd/pmul
       on coefficient lists (instances: identity, and the embedding into dual numbers) *)
    Variable S : cring.
    Variable lift : poly -> list S.
    Hypothesis lift_nil : lift [] = [].
    Hypothesis lift_padd : forall P Q, lift (padd R P Q) = padd S (lift P) (lift Q).
    Hypothesis lift_pmul : forall P Q, lift (pmul R P Q) = pmul S (lift P) (lift Q).
    Variable X : S.
    Add Ring Sring : (rth S).

    Definition ev (P : poly) : S := peval (lift P) X.

    Lemma ev_pdot r x : ev (pdot r x) = dot (map ev r) (map ev x).
    Proof.
      revert x; induction r as [|a r IH]; intros [|b x]; simpl;
        try (unfold ev; rewrite lift_nil; reflexivity).
      unfold ev in *. rewrite lift_padd, peval_padd, lift_pmul, peval_pmul, IH. reflexivity.
    Qed.

    Lemma ev_piter PA n Pv :
      map ev (piter PA n Pv) = iter_mat (map (map ev) PA) n (map ev Pv).
    Proof.
      induction n as [|n IH]; [reflexivity|].
      cbn [piter iter_mat]. rewrite <- IH. unfold pmvec, mvec. rewrite !map_map.
      apply map_ext. intros r. apply ev_pdot.
    Qed.
  End AnyRing.

  (* the polynomial iteration evaluates to the matrix iteration at every parameter value *)
  Theorem piter_eval PA Pv x n :
    evalV (piter PA n Pv) x = iter_mat (evalM PA x) n (evalV Pv x).
  Proof.
    exact (ev_piter R (fun P => P) eq_refl (fun _ _ => eq_refl) (fun _ _ => eq_refl) x PA n Pv).
  Qed.

  Lemma wfM_map {X Y} (f : X -> Y) k (A : list (list X)) : wfM k A -> wfM k (map (map f) A).
  Proof.
    intros [H1 H2]. split; [rewrite map_length; exact H1|].
    apply Forall_map. revert H2. apply Forall_impl. intros r Hr. rewrite map_length. exact Hr.
  Qed.

  (* evaluation at the dual number x + eps: value and formal derivative in one pass *)
  Definition evD (x : R) : poly -> D := ev D (map dinj) (x, r1).

  Lemma evD_pair x P : evD x P = (peval P x, peval (pderiv P) x).
  Proof. apply peval_dual. Qed.
  Lemma evD_fst x l : map fst (map (evD x) l) = evalV l x.
  Proof. rewrite map_map. apply map_ext. intros P. rewrite evD_pair. reflexivity. Qed.
  Lemma evD_snd x l : map snd (map (evD x) l) = evalV (derivV l) x.
  Proof.
    unfold evalV, derivV. rewrite !map_map. apply map_ext. intros P. rewrite evD_pair. reflexivity.
  Qed.
  Lemma evD_split x l :
    map fst (map (evD x) l) ++ map snd (map (evD x) l) = evalV l x ++ evalV (derivV l) x.
  Proof. rewrite evD_fst, evD_snd. reflexivity. Qed.
  Lemma evD_fstM x PA : fstM R (map (map (evD x)) PA) = evalM PA x.
  Proof. unfold fstM. rewrite map_map. apply map_ext. intros r. apply evD_fst. Qed.
  Lemma evD_sndM x PA : sndM R (map (map (evD x)) PA) = evalM (derivM PA) x.
  Proof.
    unfold sndM, evalM, derivM. rewrite !map_map. apply map_ext. intros r. apply evD_snd.
  Qed.
  Lemma evD_piter x PA n Pv :
    map (evD x) (piter PA n Pv) = iter_mat (map (map (evD x)) PA) n (map (evD x) Pv).
  Proof. apply ev_piter; [reflexivity | apply map_dinj_padd | apply map_dinj_pmul]. Qed.

  (* for ALL polynomial systems, ALL parameter values x and ALL n, the
     extended ("sensitivity") system built from the entrywise formal derivatives iterates
     to the value and the formal derivative of the polynomial vector A^n v. *)
  Theorem deriv_system (PA : list (list poly)) (Pv : list poly) k :
    wfM k PA -> length Pv = k -> forall (x : R) (n : nat),
    iter_mat (block (evalM PA x) (evalM (derivM PA) x)) n (evalV Pv x ++ evalV (derivV Pv) x)
    = evalV (piter PA n Pv) x ++ evalV (derivV (piter PA n Pv)) x.
  Proof.
    intros HA Hv x n.
    rewrite <- evD_fstM, <- evD_sndM, <- !evD_split, evD_piter.
    apply (iter_block R _ _ k); [apply wfM_map; exact HA | rewrite map_length; exact Hv].
  Qed.
End PolySystem.

Arguments evalV {R} _ _. Arguments evalM {R} _ _. Arguments derivV {R} _. Arguments derivM {R} _.
Arguments piter {R} _ _ _. Arguments pdot {R} _ _. Arguments evD {R} _ _.
