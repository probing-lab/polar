(* Small helpers on Qc shared by models, validators and generated case files. *)
From Coq Require Import QArith Qcanon ZArith List Arith Lia.
Import ListNotations.

Definition mkq (n : Z) (d : positive) : Qc := Q2Qc (n # d).
Definition qnum (q : Qc) : Z := Qnum (this q).
Definition qden (q : Qc) : positive := Qden (this q).
Definition qpair (q : Qc) : Z * positive := (qnum q, qden q).

Fixpoint qpow (b : Qc) (n : nat) : Qc := match n with O => 1%Qc | S n => (b * qpow b n)%Qc end.
Fixpoint qnat (n : nat) : Qc := match n with O => 0%Qc | S n => (qnat n + 1)%Qc end.

Definition Qc_eqb (x y : Qc) : bool := Qc_eq_bool x y.
Lemma Qc_eqb_true x y : Qc_eqb x y = true -> x = y.
Proof. apply Qc_eq_bool_correct. Qed.
Lemma Qc_eqb_refl x : Qc_eqb x x = true.
Proof.
  unfold Qc_eqb, Qc_eq_bool. destruct (Qc_eq_dec x x) as [_|n]; [reflexivity | exfalso; apply n; reflexivity].
Qed.
Lemma Qc_eqb_spec x y : reflect (x = y) (Qc_eqb x y).
Proof.
  destruct (Qc_eqb x y) eqn:E; constructor.
  - apply Qc_eqb_true; exact E.
  - intros ->. rewrite Qc_eqb_refl in E. discriminate.
Qed.
Lemma Qc_neq_by_eqb x y : Qc_eqb x y = false -> x <> y.
Proof. intros H ->. rewrite Qc_eqb_refl in H. discriminate H. Qed.

Definition Qc_leb (x y : Qc) : bool := match Qccompare x y with Gt => false | _ => true end.
Definition Qc_ltb (x y : Qc) : bool := match Qccompare x y with Lt => true | _ => false end.

Lemma Qc_leb_iff x y : Qc_leb x y = true <-> (x <= y)%Qc.
Proof.
  unfold Qc_leb. rewrite Qcle_alt. destruct (x ?= y)%Qc; split; intros; try discriminate; try reflexivity; congruence.
Qed.
Lemma Qc_ltb_iff x y : Qc_ltb x y = true <-> (x < y)%Qc.
Proof.
  unfold Qc_ltb. rewrite Qclt_alt. destruct (x ?= y)%Qc; split; intros; try discriminate; try reflexivity; congruence.
Qed.
Lemma Qc_ltb_false x y : Qc_ltb x y = false <-> (y <= x)%Qc.
Proof.
  rewrite <- Bool.not_true_iff_false, Qc_ltb_iff. split; [apply Qcnot_lt_le | intros H L; exact (Qclt_not_le _ _ L H)].
Qed.

Lemma mkq_0_1 : mkq 0 1 = 0%Qc.
Proof. apply Qc_is_canon. reflexivity. Qed.
Lemma mkq_1_1 : mkq 1 1 = 1%Qc.
Proof. apply Qc_is_canon. reflexivity. Qed.
Lemma mkq_m1_1 : mkq (-1) 1 = (- (1))%Qc.
Proof. apply Qc_is_canon. reflexivity. Qed.

Local Open Scope Qc_scope.

Lemma Qcmult_nonneg x y : 0 <= x -> 0 <= y -> 0 <= x * y.
Proof. intros Hx Hy. rewrite <- (Qcmult_0_l y). apply Qcmult_le_compat_r; assumption. Qed.
Lemma Qcmult_pos x y : 0 < x -> 0 < y -> 0 < x * y.
Proof. intros Hx Hy. rewrite <- (Qcmult_0_l y). apply Qcmult_lt_compat_r; assumption. Qed.
Lemma Qcplus_nonneg x y : 0 <= x -> 0 <= y -> 0 <= x + y.
Proof. intros Hx Hy. rewrite <- (Qcplus_0_l 0). apply Qcplus_le_compat; assumption. Qed.
Lemma Qc_0_le_1 : 0 <= 1. Proof. discriminate. Qed.
Lemma Qc_0_lt_1 : 0 < 1. Proof. reflexivity. Qed.
Lemma Qclt_neq0 x : 0 < x -> x <> 0.
Proof. intros H E. apply (Qclt_not_eq _ _ H). symmetry. exact E. Qed.
Lemma Qc_inv_pos x : 0 < x -> 0 < / x.
Proof.
  unfold Qclt. intros H. change (this (/ x)) with (Qred (/ this x)). rewrite Qred_correct. apply Qinv_lt_0_compat. exact H.
Qed.
Lemma Qcinv_nonneg x : 0 <= x -> 0 <= / x.
Proof.
  unfold Qcle. intros H. change (this (/ x)) with (Qred (/ this x)). rewrite Qred_correct. apply Qinv_le_0_compat. exact H.
Qed.
Lemma Qcle_add_nonneg x y : 0 <= y -> x <= x + y.
Proof. intros H. rewrite <- (Qcplus_0_r x) at 1. apply Qcplus_le_compat; [apply Qcle_refl | exact H]. Qed.
Lemma Qc_minus_0 x y : x - y = 0 -> x = y.
Proof. intros H. transitivity (x - y + y); [ring | rewrite H; ring]. Qed.
Lemma Qcminus_neq0 x y : x <> y -> y - x <> 0.
Proof. intros H E. apply H. symmetry. apply Qc_minus_0, E. Qed.
Lemma Qcplus_reg_l x y z : x + y = x + z -> y = z.
Proof. intros E. transitivity (x + y - x); [ring | rewrite E; ring]. Qed.
Lemma Qcmult_reg_l x y z : x <> 0 -> x * y = x * z -> y = z.
Proof.
  intros Hx E. rewrite <- (Qcmult_1_l y), <- (Qcmult_1_l z), <- (Qcmult_inv_l x Hx), <- !Qcmult_assoc, E.
  reflexivity.
Qed.
Lemma Qc_inv_unique x y : x * y = 1 -> / x = y.
Proof.
  intros H. assert (Hx : x <> 0) by (intros E; rewrite E, Qcmult_0_l in H; discriminate H).
  apply (Qcmult_reg_l x); [exact Hx | rewrite Qcmult_inv_r, H by exact Hx; reflexivity].
Qed.

Lemma qpow_S b n : qpow b (S n) = b * qpow b n.
Proof. reflexivity. Qed.
Lemma qpow_add b n m : qpow b (n + m) = qpow b n * qpow b m.
Proof. induction n as [|n IH]; cbn [qpow Nat.add]; [ring | rewrite IH; ring]. Qed.
Lemma qpow_mul a b n : qpow (a * b) n = qpow a n * qpow b n.
Proof. induction n as [|n IH]; cbn [qpow]; [ring | rewrite IH; ring]. Qed.
Lemma qpow_inv b n : qpow (/ b) n = / qpow b n.
Proof. induction n as [|n IH]; cbn [qpow]; [reflexivity | rewrite IH, Qcinv_mult_distr; reflexivity]. Qed.
Lemma qpow_div a b n : qpow (a / b) n = qpow a n / qpow b n.
Proof. unfold Qcdiv. rewrite qpow_mul, qpow_inv. reflexivity. Qed.
Lemma qpow_1 n : qpow 1 n = 1.
Proof. induction n as [|n IH]; cbn [qpow]; [reflexivity | rewrite IH; ring]. Qed.
Lemma qpow_0_S n : qpow 0 (S n) = 0.
Proof. cbn [qpow]. ring. Qed.
Lemma qpow_neq0 b n : b <> 0 -> qpow b n <> 0.
Proof.
  intros Hb. induction n as [|n IH]; [discriminate|]. cbn [qpow]. intros H.
  apply Qcmult_integral in H. destruct H; auto.
Qed.

Lemma qpow_one b : qpow b 1 = b.
Proof. apply Qcmult_1_r. Qed.
Lemma qpow_two b : qpow b 2 = b * b.
Proof. cbn [qpow]. rewrite Qcmult_1_r. reflexivity. Qed.
Lemma qpow_nonneg b n : 0 <= b -> 0 <= qpow b n.
Proof.
  intros H. induction n as [|n IH]; cbn [qpow]; [apply Qc_0_le_1 | apply Qcmult_nonneg; assumption].
Qed.
Lemma qpow_pos b n : 0 < b -> 0 < qpow b n.
Proof.
  intros H. induction n as [|n IH]; cbn [qpow]; [apply Qc_0_lt_1 | apply Qcmult_pos; assumption].
Qed.
Lemma qpow_le_compat a b n : 0 <= a -> a <= b -> qpow a n <= qpow b n.
Proof.
  intros Ha Hab. induction n as [|n IH]; cbn [qpow]; [apply Qcle_refl|].
  apply Qcle_trans with (a * qpow b n).
  - rewrite !(Qcmult_comm a). apply Qcmult_le_compat_r; assumption.
  - apply Qcmult_le_compat_r; [exact Hab | apply qpow_nonneg, Qcle_trans with a; assumption].
Qed.

Lemma qnat_S n : qnat (S n) = qnat n + 1.
Proof. reflexivity. Qed.
Lemma qnat_add a b : qnat (a + b) = qnat a + qnat b.
Proof. induction a as [|a IH]; cbn [qnat Nat.add]; [ring | rewrite IH; ring]. Qed.
Lemma qnat_mul a b : qnat (a * b) = qnat a * qnat b.
Proof. induction a as [|a IH]; cbn [qnat Nat.mul]; [ring | rewrite qnat_add, IH; ring]. Qed.
Lemma qnat_nonneg n : 0 <= qnat n.
Proof.
  induction n as [|n IH]; [apply Qcle_refl|].
  rewrite qnat_S. replace 0 with (0 + 0) by ring.
  apply Qcplus_le_compat; [exact IH | discriminate].
Qed.
Lemma pos_add_qnat x n : 0 < x -> 0 < x + qnat n.
Proof. intros Hx. apply Qclt_le_trans with x; [exact Hx | apply Qcle_add_nonneg, qnat_nonneg]. Qed.
Lemma qnat_S_pos n : 0 < qnat (S n).
Proof.
  rewrite qnat_S. apply Qclt_le_trans with (y := 0 + 1); [reflexivity|].
  apply Qcplus_le_compat; [apply qnat_nonneg | apply Qcle_refl].
Qed.
Lemma qnat_S_neq0 n : qnat (S n) <> 0.
Proof. intros H. pose proof (qnat_S_pos n) as P. rewrite H in P. discriminate P. Qed.
Lemma qnat_inj i j : qnat i = qnat j -> i = j.
Proof.
  assert (D : forall i k, qnat (i + S k) <> qnat i).
  { intros a k H. rewrite qnat_add in H. apply (qnat_S_neq0 k).
    transitivity (qnat a + qnat (S k) - qnat a); [ring | rewrite H; ring]. }
  intros H. destruct (Nat.lt_trichotomy i j) as [L|[L|L]]; [|exact L|]; exfalso.
  - replace j with (i + S (j - i - 1))%nat in H by lia. symmetry in H. exact (D _ _ H).
  - replace i with (j + S (i - j - 1))%nat in H by lia. exact (D _ _ H).
Qed.
