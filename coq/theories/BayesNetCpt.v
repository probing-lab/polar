(* C15 — the CPT assembly of BayesNet.v (model of bayesnet/transformer.py): what it accepts is a
   well-formed network with valid rows, and the notations of a CPT (table, per-entry, either
   after a default that is completely overwritten, entries after a full table) denote the
   same CPT. *)
From Coq Require Import String Arith Bool QArith Qcanon Lia List.
From Polar Require Import Qcx BayesNet BayesNetSem BayesNetSpec.
Import ListNotations.
Open Scope nat_scope.

Lemma guard_true b : guard b = Some tt -> b = true.
Proof. destruct b; [reflexivity | discriminate]. Qed.

Lemma obind_guard {B} b (k : option B) x :
  obind (guard b) (fun _ => k) = Some x -> b = true /\ k = Some x.
Proof. intros H. apply obind_Some in H as [[] [Hb H]]. exact (conj (guard_true b Hb) H). Qed.

Lemma nth_error_seq0 n x i : nth_error (seq 0 n) x = Some i -> i = x /\ x < n.
Proof.
  intros H. assert (Hlt : x < n).
  { rewrite <- (seq_length n 0). apply nth_error_Some. congruence. }
  split; [|exact Hlt]. apply (nth_error_nth _ _ 0) in H. rewrite seq_nth in H by exact Hlt. lia.
Qed.

Lemma cpt_keys_NoDup vars pars : NoDup (cpt_keys vars pars).
Proof.
  unfold cpt_keys. apply NoDup_product. intros l Hl.
  apply in_map_iff in Hl as [p [<- _]]. apply seq_NoDup.
Qed.

Lemma cpt_keys_in vars pars key :
  In key (cpt_keys vars pars) -> Forall2 (fun k p => k < dsize vars p) key pars.
Proof.
  unfold cpt_keys. rewrite in_product. revert key.
  induction pars as [|p pars IH]; intros key H; cbn [map] in H;
    inversion H as [|k l key' ls Hk Hrest]; subst; constructor.
  - apply in_seq in Hk. lia.
  - apply IH, Hrest.
Qed.

Lemma nodup_str_NoDup l : nodup_str l = true -> NoDup l.
Proof.
  induction l as [|y l IH]; cbn [nodup_str]; intros H; [constructor|].
  apply andb_true_iff in H as [Hm Hn]. constructor; [|now apply IH].
  intros Hin. apply mem_str_In in Hin. rewrite Hin in Hm. discriminate.
Qed.

Lemma check_vardecl_ok v nd : check_vardecl v = Some nd -> NoDup (snd nd) /\ snd nd <> [].
Proof.
  unfold check_vardecl. destruct (vd_types v) as [|[n dom] [|? ?]]; try discriminate.
  intros H. apply obind_guard in H as [Hnd H]. apply obind_guard in H as [_ H].
  apply obind_guard in H as [Hl H]. injection H as <-. cbn [snd].
  split; [now apply nodup_str_NoDup|]. intros ->. discriminate.
Qed.

Lemma find_var_lt vars x i : find_var vars x = Some i -> i < length vars.
Proof. rewrite find_var_index_of, <- (map_length fst vars). apply index_of_lt. Qed.

Lemma find_var_None vars x : find_var vars x = None -> ~ In x (map fst vars).
Proof. rewrite find_var_index_of. apply index_of_None. Qed.

Definition wf_vtable (vars : vtable) : Prop :=
  NoDup (map fst vars) /\ forall n d, In (n, d) vars -> NoDup d /\ d <> [].

Lemma check_vars_wf_gen : forall vs acc vars,
  check_vars vs acc = Some vars -> wf_vtable acc -> wf_vtable vars.
Proof.
  induction vs as [|v vs IH]; intros acc vars H Hacc; cbn [check_vars] in H.
  - now injection H as <-.
  - apply obind_Some in H as [nd [Ev H]].
    destruct (find_var acc (fst nd)) eqn:Ef; [discriminate|].
    apply (IH _ _ H). destruct Hacc as [Hn Hd]. split.
    + rewrite map_app. cbn [map]. apply NoDup_app_iff. split; [exact Hn|].
      split; [constructor; [intros [] | constructor]|].
      intros y Hy [<-|[]]. exact (find_var_None _ _ Ef Hy).
    + intros n d Hin. apply in_app_iff in Hin as [Hin|[Hin|[]]]; [now apply (Hd n)|].
      subst nd. apply (check_vardecl_ok _ _ Ev).
Qed.

Theorem check_vars_wf vs vars : check_vars vs [] = Some vars -> wf_vtable vars.
Proof.
  intros H. apply (check_vars_wf_gen _ _ _ H). split; [constructor | intros n d []].
Qed.

Lemma dom_of_wf vars p :
  wf_vtable vars -> p < length vars -> NoDup (dom_of vars p) /\ dom_of vars p <> [].
Proof.
  intros [_ Hd] Hlt. unfold dom_of. pose proof (nth_In vars (""%string, []) Hlt) as Hin.
  destruct (nth p vars (""%string, [])) as [n d]. exact (Hd n d Hin).
Qed.

Lemma dom_of_NoDup vars p : wf_vtable vars -> NoDup (dom_of vars p).
Proof.
  intros Hwf. destruct (Nat.lt_ge_cases p (length vars)) as [Hlt|Hge].
  - now apply dom_of_wf.
  - unfold dom_of. rewrite nth_overflow by exact Hge. constructor.
Qed.

Lemma dom_of_nonempty vars p : wf_vtable vars -> p < length vars -> 1 <= dsize vars p.
Proof.
  intros Hwf Hlt. destruct (dom_of_wf vars p Hwf Hlt) as [_ Hne]. unfold dsize.
  destruct (dom_of vars p); [congruence | cbn [length]; lia].
Qed.

Lemma cpt_set_fst key r c : map fst (cpt_set key r c) = map fst c.
Proof.
  unfold cpt_set. rewrite map_map. apply map_ext. intros kv.
  destruct (key_eqb (fst kv) key); reflexivity.
Qed.

Lemma cpt_set_in key r c k r' :
  In (k, Some r') (cpt_set key r c) -> r' = r \/ In (k, Some r') c.
Proof.
  unfold cpt_set. intros H. apply in_map_iff in H as [kv [E Hin]].
  destruct (key_eqb (fst kv) key).
  - injection E as _ E. now left.
  - subst. now right.
Qed.

(* every key present, every specified row has the right length and passes the sum test *)
Definition wgood (tol : Qc) (d : nat) (keys : list (list nat)) (c : wcpt) : Prop :=
  map fst c = keys /\ forall k r, In (k, Some r) c -> length r = d /\ sum_valid tol r = true.

Lemma cpt_set_good tol d keys key r c :
  wgood tol d keys c -> length r = d -> sum_valid tol r = true -> wgood tol d keys (cpt_set key r c).
Proof.
  intros [Hk Hr] Hl Hs. split; [now rewrite cpt_set_fst|].
  intros k r' Hin. apply cpt_set_in in Hin as [->|Hin]; [auto | eauto].
Qed.

Lemma add_default_Some tol d keys df c :
  add_default tol d keys df = Some c <->
  match df with Some ps => length ps = d /\ sum_valid tol ps = true | None => True end /\
  c = map (fun k => (k, df)) keys.
Proof.
  unfold add_default. destruct df as [ps|].
  - split.
    + intros H. apply obind_guard in H as [Hl H]. apply obind_guard in H as [Hs H].
      injection H as <-. apply Nat.eqb_eq in Hl. auto.
    + intros [[<- ->] ->]. rewrite Nat.eqb_refl. reflexivity.
  - split; [intros H; injection H as <-; auto | intros [_ ->]; reflexivity].
Qed.

Lemma default_fst (keys : list (list nat)) (df : option row) :
  map fst (map (fun k => (k, df)) keys) = keys.
Proof. rewrite map_map. apply map_id. Qed.

Lemma add_default_good tol d keys df c :
  add_default tol d keys df = Some c -> wgood tol d keys c.
Proof.
  intros H. apply add_default_Some in H as [Hdf ->]. split; [apply default_fst|].
  intros k r Hin. apply in_map_iff in Hin as [k' [E _]]. injection E as _ ->. exact Hdf.
Qed.

Lemma table_row_length t d R rw : length (table_row t d R rw) = d.
Proof. unfold table_row. now rewrite map_length, seq_length. Qed.

Lemma add_table_rows_good tol t d R keys : forall numbered c c',
  add_table_rows tol t d R numbered c = Some c' -> wgood tol d keys c -> wgood tol d keys c'.
Proof.
  induction numbered as [|[rw key] numbered IH]; intros c c' H Hc; cbn [add_table_rows] in H.
  - now injection H as <-.
  - apply obind_guard in H as [Es H].
    apply (IH _ _ H). apply cpt_set_good; auto using table_row_length.
Qed.

Lemma add_table_good tol d keys tb c c' :
  add_table tol d keys tb c = Some c' -> wgood tol d keys c -> wgood tol d keys c'.
Proof.
  unfold add_table. destruct tb as [t|]; [|now intros H; injection H as <-].
  intros H. apply obind_guard in H as [_ H]. exact (add_table_rows_good _ _ _ _ _ _ _ _ H).
Qed.

Lemma add_entry_good tol vars d pars keys e c c' :
  add_entry tol vars d pars e c = Some c' -> wgood tol d keys c -> wgood tol d keys c'.
Proof.
  unfold add_entry. destruct e as [cond ps]. intros H.
  apply obind_guard in H as [_ H]. apply obind_guard in H as [El H]. apply obind_guard in H as [Es H].
  apply obind_Some in H as [key [_ H]]. injection H as <-.
  intros Hc. apply Nat.eqb_eq in El. now apply cpt_set_good.
Qed.

Lemma add_entries_good tol vars d pars keys : forall es c c',
  add_entries tol vars d pars es c = Some c' -> wgood tol d keys c -> wgood tol d keys c'.
Proof.
  induction es as [|e es IH]; intros c c' H Hc; cbn [add_entries] in H.
  - now injection H as <-.
  - apply obind_Some in H as [c1 [Ee H]].
    apply (IH _ _ H). eapply add_entry_good; eauto.
Qed.

Lemma finish_cpt_spec : forall c c3,
  finish_cpt c = Some c3 ->
  map fst c3 = map fst c /\ forall k r, In (k, r) c3 -> In (k, Some r) c.
Proof.
  unfold finish_cpt. induction c as [|[k o] c IH]; intros c3 H; cbn [omap] in H.
  - injection H as <-. split; [reflexivity | intros k r []].
  - cbn [snd fst] in H. destruct o as [r0|]; [|discriminate].
    apply obind_Some in H as [kr [E H]]. injection E as <-.
    apply obind_Some in H as [c3' [E H]]. injection H as <-. destruct (IH c3' E) as [Hf Hi]. split.
    + cbn [map fst]. now rewrite Hf.
    + intros k' r [Heq|Hin]; [injection Heq as <- <-; now left | right; now apply Hi].
Qed.

Definition cpt_good (tol : Qc) (vars : vtable) (xc : nat * list nat * cpt) : Prop :=
  (forall p, In p (snd (fst xc)) -> p < length vars) /\
  map fst (snd xc) = cpt_keys vars (snd (fst xc)) /\
  forall k r, In (k, r) (snd xc) -> length r = dsize vars (fst (fst xc)) /\ sum_valid tol r = true.

Lemma assemble_cpt_good tol vars pb xc :
  assemble_cpt tol vars pb = Some xc -> cpt_good tol vars xc.
Proof.
  unfold assemble_cpt. intros H.
  apply obind_Some in H as [x [Ex H]]. apply obind_Some in H as [pars [Ep H]].
  apply obind_Some in H as [[[df tb] es] [_ H]].
  apply obind_Some in H as [c0 [E0 H]]. apply obind_Some in H as [c1 [E1 H]].
  apply obind_Some in H as [c2 [E2 H]]. apply obind_Some in H as [c3 [E3 H]].
  injection H as <-. unfold cpt_good; cbn [fst snd].
  apply add_default_good in E0. apply (add_table_good _ _ _ _ _ _ E1) in E0.
  apply (add_entries_good _ _ _ _ _ _ _ _ E2) in E0. destruct E0 as [Hk Hr].
  destruct (finish_cpt_spec _ _ E3) as [Hf Hi]. split; [|split].
  - intros p Hp. destruct (omap_in _ _ _ _ Ep Hp) as [n [_ Hn]]. eapply find_var_lt; eauto.
  - now rewrite Hf.
  - intros k r Hin. apply (Hr k), Hi, Hin.
Qed.

Lemma assemble_cpts_good tol vars : forall pbs acc cs,
  assemble_cpts tol vars pbs acc = Some cs -> Forall (cpt_good tol vars) acc ->
  Forall (cpt_good tol vars) cs.
Proof.
  induction pbs as [|pb pbs IH]; intros acc cs H Hacc; cbn [assemble_cpts] in H.
  - now injection H as <-.
  - apply obind_Some in H as [xc [E H]].
    destruct (find_cpt (fst (fst xc)) acc); [discriminate|].
    apply (IH _ _ H). apply Forall_app. split; [exact Hacc|].
    constructor; [|constructor]. eapply assemble_cpt_good; eauto.
Qed.

Lemma find_cpt_in : forall cs x ps c, find_cpt x cs = Some (ps, c) -> In (x, ps, c) cs.
Proof.
  induction cs as [|[[y ps0] c0] cs IH]; intros x ps c H; cbn [find_cpt] in H; [discriminate|].
  destruct (Nat.eqb x y) eqn:E.
  - apply Nat.eqb_eq in E. subst. injection H as <- <-. now left.
  - right. now apply IH.
Qed.

Lemma build_network_spec vars cs net :
  build_network vars cs = Some net ->
  length net = length vars /\
  forall x v, nth_error net x = Some v ->
    x < length vars /\ nv_dom v = dom_of vars x /\ In (x, nv_par v, nv_cpt v) cs.
Proof.
  unfold build_network. intros H. apply omap_spec in H as [Hl Hn].
  rewrite seq_length in Hl. split; [exact Hl|].
  intros x v Hv. destruct (Hn x v Hv) as [i [Hi Hf]].
  apply nth_error_seq0 in Hi as [-> Hlt]. split; [exact Hlt|].
  apply obind_Some in Hf as [[ps c] [Ec Hf]]. injection Hf as <-.
  cbn [nv_dom nv_par nv_cpt fst snd]. split; [reflexivity | now apply find_cpt_in].
Qed.

Lemma build_network_ndsize vars cs net :
  build_network vars cs = Some net -> forall p, ndsize net p = dsize vars p.
Proof.
  intros H p. destruct (build_network_spec _ _ _ H) as [Hl Hn]. unfold ndsize.
  destruct (nth_error net p) as [v|] eqn:E.
  - destruct (Hn p v E) as [_ [Hd _]]. now rewrite Hd.
  - apply nth_error_None in E. unfold dsize, dom_of. rewrite nth_overflow by lia. reflexivity.
Qed.

Theorem assemble_wf : forall tol b net,
  assemble tol b = Some net -> wf_network net /\ rows_valid tol net.
Proof.
  intros tol b net H. unfold assemble in H.
  apply obind_Some in H as [vars [Ev H]]. apply obind_Some in H as [cs [Ec H]].
  apply check_vars_wf in Ev.
  apply assemble_cpts_good in Ec; [|constructor].
  pose proof (build_network_ndsize _ _ _ H) as Hnd.
  destruct (build_network_spec _ _ _ H) as [Hl Hn].
  assert (Hgood : forall x v, nth_error net x = Some v ->
            x < length vars /\ nv_dom v = dom_of vars x /\ cpt_good tol vars (x, nv_par v, nv_cpt v)).
  { intros x v Hv. destruct (Hn x v Hv) as [Hlt [Hd Hin]].
    split; [exact Hlt | split; [exact Hd|]]. rewrite Forall_forall in Ec. apply (Ec _ Hin). }
  split.
  - intros x v Hv. destruct (Hgood x v Hv) as [Hlt [Hd [Hp [Hk Hr]]]]. cbn [fst snd] in *.
    repeat split.
    + rewrite Hd. now apply dom_of_nonempty.
    + intros p Hp'. rewrite Hl. now apply Hp.
    + rewrite Hk. unfold net_keys, cpt_keys. f_equal. apply map_ext. intros p. now rewrite Hnd.
    + intros k r Hin. rewrite Hd. apply (Hr k r Hin).
  - intros x v k r Hv Hin. destruct (Hgood x v Hv) as [_ [_ [_ [_ Hr]]]]. apply (Hr k r Hin).
Qed.

(* table notation: own value slowest (column-major) *)
Definition table_of (d : nat) (rows : list row) : list Qc :=
  flat_map (fun i => map (fun r => nth i r 0%Qc) rows) (seq 0 d).
Definition cond_of (vars : vtable) (pars : list nat) (key : list nat) : list string :=
  map (fun pk => nth (snd pk) (dom_of vars (fst pk)) ""%string) (combine pars key).
Definition entries_of (vars : vtable) (pars : list nat) (rows : list row) : list cpt_item :=
  map (fun kr => IEntry (cond_of vars pars (fst kr)) (snd kr)) (combine (cpt_keys vars pars) rows).

(* the same entries as [classify] collects them *)
Definition es_of (vars : vtable) (pars : list nat) (rows : list row) : list (list string * list Qc) :=
  map (fun kr => (cond_of vars pars (fst kr), snd kr)) (combine (cpt_keys vars pars) rows).

Lemma entries_of_eq vars pars rows :
  entries_of vars pars rows = map (fun e => IEntry (fst e) (snd e)) (es_of vars pars rows).
Proof. unfold entries_of, es_of. rewrite map_map. reflexivity. Qed.

Lemma flat_map_length_const {A B} (f : A -> list B) R :
  (forall x, length (f x) = R) -> forall l, length (flat_map f l) = length l * R.
Proof.
  intros Hf. induction l as [|a l IH]; cbn [flat_map length Nat.mul]; [reflexivity|].
  now rewrite app_length, Hf, IH.
Qed.

Lemma table_of_length d rows : length (table_of d rows) = d * length rows.
Proof.
  unfold table_of. rewrite (flat_map_length_const _ (length rows)).
  - now rewrite seq_length.
  - intros i. apply map_length.
Qed.

Lemma nth_flat_map_blocks {A} (f : nat -> list A) R def :
  (forall x, length (f x) = R) ->
  forall d s i rw, rw < R -> i < d ->
  nth (rw + i * R) (flat_map f (seq s d)) def = nth rw (f (s + i)) def.
Proof.
  intros Hf. induction d as [|d IH]; intros s i rw Hrw Hi; [lia|].
  cbn [seq flat_map]. destruct i as [|i].
  - cbn [Nat.mul]. rewrite !Nat.add_0_r. apply app_nth1. now rewrite Hf.
  - cbn [Nat.mul]. rewrite app_nth2 by (rewrite Hf; lia). rewrite Hf.
    replace (rw + (R + i * R) - R) with (rw + i * R) by lia.
    rewrite IH by lia. f_equal. f_equal. lia.
Qed.

Lemma table_of_nth d (rows : list row) rw i :
  rw < length rows -> i < d ->
  nth (rw + i * length rows) (table_of d rows) 0%Qc = nth i (nth rw rows []) 0%Qc.
Proof.
  intros Hrw Hi. unfold table_of.
  rewrite (nth_flat_map_blocks (fun i => map (fun r => nth i r 0%Qc) rows) (length rows));
    [| intros; apply map_length | exact Hrw | exact Hi].
  cbn [Nat.add]. rewrite <- (map_nth (fun r => nth i r 0%Qc)). destruct i; reflexivity.
Qed.

Lemma table_row_of d (rows : list row) rw :
  rw < length rows -> length (nth rw rows []) = d ->
  table_row (table_of d rows) d (length rows) rw = nth rw rows [].
Proof.
  intros Hrw Hl. unfold table_row.
  transitivity (map (fun i => nth i (nth rw rows []) 0%Qc) (seq 0 d)).
  - apply map_ext_in. intros i Hi. apply in_seq in Hi. apply table_of_nth; lia.
  - apply map_nth_seq, Hl.
Qed.

Lemma cpt_set_notin key r : forall c, ~ In key (map fst c) -> cpt_set key r c = c.
Proof.
  unfold cpt_set. induction c as [|kv c IH]; intros H; cbn [map]; [reflexivity|].
  cbn [map In] in H. destruct (key_eqb (fst kv) key) eqn:E.
  - apply key_eqb_eq in E. exfalso. apply H. now left.
  - f_equal. apply IH. intros Hin. apply H. now right.
Qed.

Lemma cpt_set_here key r o c1 c2 :
  ~ In key (map fst c1) -> ~ In key (map fst c2) ->
  cpt_set key r (c1 ++ (key, o) :: c2) = c1 ++ (key, Some r) :: c2.
Proof.
  intros H1 H2. unfold cpt_set. rewrite map_app. cbn [map fst].
  rewrite (proj2 (key_eqb_eq key key) eq_refl).
  f_equal; [exact (cpt_set_notin key r c1 H1)|]. f_equal. exact (cpt_set_notin key r c2 H2).
Qed.

Definition set_list (krs : list (list nat * row)) (c : wcpt) : wcpt :=
  fold_left (fun c kr => cpt_set (fst kr) (snd kr) c) krs c.

Lemma set_list_cons kr krs c : set_list (kr :: krs) c = set_list krs (cpt_set (fst kr) (snd kr) c).
Proof. reflexivity. Qed.

(* setting every key once, in order, produces the fully specified table whatever was there *)
Lemma set_list_full : forall ks (rows : list row) c1 c2,
  map fst c2 = ks -> length rows = length ks -> NoDup (map fst c1 ++ ks) ->
  set_list (combine ks rows) (c1 ++ c2) = c1 ++ combine ks (map Some rows).
Proof.
  induction ks as [|k ks IH]; intros rows c1 c2 Hf Hl Hnd.
  - destruct c2; [reflexivity | discriminate].
  - destruct c2 as [|[k' o] c2]; [discriminate|]. cbn [map fst] in Hf. injection Hf as -> Hf.
    destruct rows as [|r rows]; [discriminate|]. cbn [length] in Hl.
    cbn [combine map]. rewrite set_list_cons. cbn [fst snd].
    pose proof (NoDup_remove_2 _ _ _ Hnd) as Hnotin. rewrite in_app_iff in Hnotin.
    rewrite cpt_set_here by (rewrite ?Hf; tauto).
    replace (c1 ++ (k, Some r) :: c2) with ((c1 ++ [(k, Some r)]) ++ c2)
      by (rewrite <- app_assoc; reflexivity).
    rewrite IH; [rewrite <- app_assoc; reflexivity | exact Hf | lia |].
    rewrite map_app, <- app_assoc. exact Hnd.
Qed.

Lemma finish_full : forall ks (rows : list row),
  finish_cpt (combine ks (map Some rows)) = Some (combine ks rows).
Proof.
  unfold finish_cpt. induction ks as [|k ks IH]; intros rows; [reflexivity|].
  destruct rows as [|r rows]; [reflexivity|].
  cbn [map combine omap fst snd obind]. rewrite IH. reflexivity.
Qed.

(* rows numbered from length done onwards are the rows of rest *)
Lemma add_table_rows_set tol d R : forall keys (done rest : list row) c,
  R = length (done ++ rest) ->
  (forall r, In r (done ++ rest) -> length r = d /\ sum_valid tol r = true) ->
  length rest = length keys ->
  add_table_rows tol (table_of d (done ++ rest)) d R
                 (combine (seq (length done) (length keys)) keys) c
  = Some (set_list (combine keys rest) c).
Proof.
  induction keys as [|k keys IH]; intros done rest c HR Hrows Hl; [reflexivity|].
  destruct rest as [|r rest]; [discriminate|]. cbn [length] in Hl.
  cbn [length seq combine add_table_rows]. subst R.
  assert (Hr : nth (length done) (done ++ r :: rest) [] = r) by apply nth_middle.
  destruct (Hrows r (in_elt _ _ _)) as [Hlr Hsr].
  rewrite table_row_of, Hr by (rewrite ?Hr, ?app_length; cbn [length]; lia).
  rewrite Hsr. cbn [guard obind]. rewrite set_list_cons. cbn [fst snd].
  specialize (IH (done ++ [r]) rest). rewrite <- app_assoc, (app_length done [r]) in IH.
  cbn [app length] in IH. rewrite Nat.add_1_r in IH. apply IH; [reflexivity | exact Hrows | lia].
Qed.

Lemma index_of_nth : forall dom k,
  NoDup dom -> k < length dom -> index_of (nth k dom ""%string) dom = Some k.
Proof.
  induction dom as [|y dom IH]; intros k Hnd Hk; cbn [length] in Hk; [lia|].
  inversion Hnd as [|? ? Hy Hnd']; subst. destruct k as [|k]; cbn [nth index_of].
  - now rewrite String.eqb_refl.
  - assert (Hlt : k < length dom) by lia.
    destruct (String.eqb (nth k dom ""%string) y) eqn:E.
    + apply String.eqb_eq in E. exfalso. apply Hy. rewrite <- E. now apply nth_In.
    + rewrite IH by assumption. reflexivity.
Qed.

Lemma resolve_cond_of vars pars key :
  wf_vtable vars -> Forall2 (fun k p => k < dsize vars p) key pars ->
  resolve_cond vars pars (cond_of vars pars key) = Some key.
Proof.
  intros Hwf H. unfold resolve_cond, cond_of.
  induction H as [|k p key pars Hk H IH]; [reflexivity|].
  cbn [combine map fst snd omap]. rewrite index_of_nth by (auto using dom_of_NoDup).
  cbn [obind]. rewrite IH. reflexivity.
Qed.

Lemma Forall2_len {A B} (P : A -> B -> Prop) l1 l2 : Forall2 P l1 l2 -> length l1 = length l2.
Proof. induction 1; cbn [length]; congruence. Qed.

Lemma cond_of_length vars pars key :
  Forall2 (fun k p => k < dsize vars p) key pars -> length (cond_of vars pars key) = length pars.
Proof.
  intros H. apply Forall2_len in H. unfold cond_of. rewrite map_length, combine_length. lia.
Qed.

Lemma add_entries_set tol vars d pars : wf_vtable vars ->
  forall krs c,
  (forall k r, In (k, r) krs ->
     In k (cpt_keys vars pars) /\ length r = d /\ sum_valid tol r = true) ->
  add_entries tol vars d pars (map (fun kr => (cond_of vars pars (fst kr), snd kr)) krs) c
  = Some (set_list krs c).
Proof.
  intros Hwf. induction krs as [|[k r] krs IH]; intros c H; cbn [map add_entries]; [reflexivity|].
  destruct (H k r (or_introl eq_refl)) as [Hk [Hl Hs]]. apply cpt_keys_in in Hk.
  unfold add_entry. cbn [fst snd]. rewrite cond_of_length by exact Hk. rewrite Nat.eqb_refl.
  cbn [guard obind]. rewrite Hl, Nat.eqb_refl. cbn [guard obind]. rewrite Hs. cbn [guard obind].
  rewrite resolve_cond_of by assumption. cbn [obind]. rewrite set_list_cons. cbn [fst snd].
  apply IH. intros k' r' Hin. apply H. now right.
Qed.

Lemma classify_entries : forall es df tb seen acc,
  NoDup (map fst es) -> (forall c, In c (map fst es) -> ~ In c seen) ->
  classify (map (fun e => IEntry (fst e) (snd e)) es) df tb seen acc = Some (df, tb, acc ++ es).
Proof.
  induction es as [|[c ps] es IH]; intros df tb seen acc Hnd Hs; cbn [map classify fst snd].
  - now rewrite app_nil_r.
  - cbn [map fst] in Hnd, Hs. inversion Hnd as [|? ? Hc Hnd']; subst.
    assert (E : existsb (strs_eqb c) seen = false).
    { apply not_true_iff_false. rewrite existsb_exists. intros [s [Hs1 Hs2]].
      apply strs_eqb_eq in Hs2. subst s. apply (Hs c); [now left | exact Hs1]. }
    rewrite E. rewrite IH; [now rewrite <- app_assoc | exact Hnd' |].
    intros c' Hc' [<-|Hin]; [exact (Hc Hc')|]. apply (Hs c'); [now right | exact Hin].
Qed.

(* a full list of valid rows for x under the parents pars *)
Section Rows.
  Variables (tol : Qc) (vars : vtable) (x : nat) (pars : list nat) (rows : list row).
  Hypothesis Hwf : wf_vtable vars.
  Hypothesis Hl : length rows = length (cpt_keys vars pars).
  Hypothesis Hrows : forall r, In r rows -> length r = dsize vars x /\ sum_valid tol r = true.

  (* conditions of distinct keys are distinct: resolve_cond is a left inverse of cond_of *)
  Lemma es_of_NoDup : NoDup (map fst (es_of vars pars rows)).
  Proof.
    assert (E : map fst (es_of vars pars rows) = map (cond_of vars pars) (cpt_keys vars pars)).
    { transitivity (map (cond_of vars pars) (map fst (combine (cpt_keys vars pars) rows))).
      - unfold es_of. rewrite !map_map. reflexivity.
      - now rewrite map_fst_combine. }
    rewrite E. apply NoDup_map_inj_in; [|apply cpt_keys_NoDup].
    intros k1 k2 H1 H2 Heq. apply cpt_keys_in in H1, H2.
    pose proof (resolve_cond_of vars pars k1 Hwf H1) as R1.
    pose proof (resolve_cond_of vars pars k2 Hwf H2) as R2. congruence.
  Qed.

  Lemma classify_entries_of df tb :
    classify (entries_of vars pars rows) df tb [] [] = Some (df, tb, es_of vars pars rows).
  Proof.
    rewrite entries_of_eq.
    rewrite classify_entries; [reflexivity | exact es_of_NoDup | intros c _ []].
  Qed.

  Lemma add_table_full c :
    map fst c = cpt_keys vars pars ->
    add_table tol (dsize vars x) (cpt_keys vars pars) (Some (table_of (dsize vars x) rows)) c
    = Some (combine (cpt_keys vars pars) (map Some rows)).
  Proof.
    intros Hc. unfold add_table. rewrite table_of_length, Hl, Nat.eqb_refl.
    cbn [guard obind]. transitivity (Some (set_list (combine (cpt_keys vars pars) rows) c)).
    - apply (add_table_rows_set tol _ _ (cpt_keys vars pars) [] rows c); auto.
    - f_equal. apply (set_list_full (cpt_keys vars pars) rows [] c Hc Hl), cpt_keys_NoDup.
  Qed.

  Lemma add_entries_full c :
    map fst c = cpt_keys vars pars ->
    add_entries tol vars (dsize vars x) pars (es_of vars pars rows) c
    = Some (combine (cpt_keys vars pars) (map Some rows)).
  Proof.
    intros Hc. unfold es_of. rewrite (add_entries_set tol vars _ pars Hwf).
    - f_equal. apply (set_list_full (cpt_keys vars pars) rows [] c Hc Hl), cpt_keys_NoDup.
    - intros k r Hin. split; [exact (in_combine_l _ _ _ _ Hin)|].
      apply Hrows. exact (in_combine_r _ _ _ _ Hin).
  Qed.

  (* Whatever the items classify to: a default (if any) that passes the checks, then the table
     of rows or the entries of rows or both, give the CPT with exactly these rows, because
     either of the two overwrites every row that is there. *)
  Lemma assemble_cpt_full df tb es xn parnames items :
    find_var vars xn = Some x -> omap (find_var vars) parnames = Some pars ->
    classify items None None [] [] = Some (df, tb, es) ->
    match df with Some ps => length ps = dsize vars x /\ sum_valid tol ps = true | None => True end ->
    (tb = None /\ es = es_of vars pars rows) \/
    (tb = Some (table_of (dsize vars x) rows) /\ (es = [] \/ es = es_of vars pars rows)) ->
    assemble_cpt tol vars {| pb_var := xn; pb_parents := parnames; pb_items := items |}
    = Some (x, pars, combine (cpt_keys vars pars) rows).
  Proof.
    intros Hx Hp Hcls Hdf Hte.
    unfold assemble_cpt. cbn [pb_var pb_parents pb_items].
    rewrite Hx. cbn [obind]. rewrite Hp. cbn [obind]. rewrite Hcls. cbn [obind].
    rewrite (proj2 (add_default_Some _ _ _ _ _) (conj Hdf eq_refl)). cbn [obind].
    pose proof (default_fst (cpt_keys vars pars) df) as Hc0.
    destruct Hte as [[-> ->]|[-> Hes]].
    - cbn [add_table obind].
      rewrite add_entries_full by assumption. cbn [obind]. now rewrite finish_full.
    - rewrite add_table_full by assumption. cbn [obind].
      destruct Hes as [->| ->]; [cbn [add_entries obind]; now rewrite finish_full|].
      assert (Hc1 : map fst (combine (cpt_keys vars pars) (map Some rows)) = cpt_keys vars pars).
      { apply map_fst_combine. now rewrite map_length. }
      rewrite add_entries_full by assumption. cbn [obind]. now rewrite finish_full.
  Qed.
End Rows.

Theorem cpt_notations_agree : forall tol vars xn x parnames pars rows dflt,
  wf_vtable vars -> find_var vars xn = Some x -> omap (find_var vars) parnames = Some pars ->
  length rows = length (cpt_keys vars pars) ->
  (forall r, In r rows -> length r = dsize vars x /\ sum_valid tol r = true) ->
  (length dflt = dsize vars x /\ sum_valid tol dflt = true) ->
  let mk items := assemble_cpt tol vars {| pb_var := xn; pb_parents := parnames; pb_items := items |} in
  let target := Some (x, pars, combine (cpt_keys vars pars) rows) in
     mk [ITable (table_of (dsize vars x) rows)] = target
  /\ mk (entries_of vars pars rows) = target
  /\ mk [IDefault dflt; ITable (table_of (dsize vars x) rows)] = target
  /\ mk (IDefault dflt :: entries_of vars pars rows) = target
  /\ mk (ITable (table_of (dsize vars x) rows) :: entries_of vars pars rows) = target.
Proof.
  intros tol vars xn x parnames pars rows dflt Hwf Hx Hp Hl Hrows Hdflt mk target.
  subst mk target. cbv beta.
  pose proof (classify_entries_of vars pars rows Hwf Hl) as Hcls.
  pose proof (assemble_cpt_full tol vars x pars rows Hwf Hl Hrows) as Hfull.
  split; [|split; [|split; [|split]]].
  - apply (Hfull None (Some (table_of (dsize vars x) rows)) []); auto.
  - apply (Hfull None None (es_of vars pars rows)); auto.
  - apply (Hfull (Some dflt) (Some (table_of (dsize vars x) rows)) []); auto.
  - apply (Hfull (Some dflt) None (es_of vars pars rows)); auto.
    cbn [classify]. apply Hcls.
  - apply (Hfull None (Some (table_of (dsize vars x) rows)) (es_of vars pars rows)); auto.
    cbn [classify]. apply Hcls.
Qed.
