(* C08 — the one family where the defining integral itself is cheap: the translated
   Uniform(a,b).get_moment(k) equals  RInt (fun x => x^k / (b - a)) a b  (Coquelicot). *)
From Coq Require Import QArith Qcanon Qreals Reals Lra Lia.
From Coquelicot Require Import Coquelicot.
From Polar Require Import Qcx DistBase.
From PolarGen Require Import DistGen.

Definition Qc2R (q : Qc) : R := Q2R (this q).

Lemma Qc2R_Q2Qc q : Qc2R (Q2Qc q) = Q2R q.
Proof. apply Qeq_eqR. apply Qred_correct. Qed.
Lemma Qc2R_plus x y : Qc2R (x + y)%Qc = (Qc2R x + Qc2R y)%R.
Proof. unfold Qcplus. rewrite Qc2R_Q2Qc. apply Q2R_plus. Qed.
Lemma Qc2R_mult x y : Qc2R (x * y)%Qc = (Qc2R x * Qc2R y)%R.
Proof. unfold Qcmult. rewrite Qc2R_Q2Qc. apply Q2R_mult. Qed.
Lemma Qc2R_opp x : Qc2R (- x)%Qc = (- Qc2R x)%R.
Proof. unfold Qcopp. rewrite Qc2R_Q2Qc. apply Q2R_opp. Qed.
Lemma Qc2R_minus x y : Qc2R (x - y)%Qc = (Qc2R x - Qc2R y)%R.
Proof. unfold Qcminus. rewrite Qc2R_plus, Qc2R_opp. reflexivity. Qed.
Lemma Qc2R_0 : Qc2R 0%Qc = 0%R.
Proof. unfold Qc2R. cbn. unfold Q2R. cbn. lra. Qed.
Lemma Qc2R_1 : Qc2R 1%Qc = 1%R.
Proof. unfold Qc2R. cbn. unfold Q2R. cbn. lra. Qed.
Lemma Qc2R_inj_0 x : Qc2R x = 0%R -> x = 0%Qc.
Proof.
  intros H. apply Qc_is_canon. unfold Qc2R in H. change (this 0%Qc) with (Qred 0).
  rewrite Qred_correct. apply eqR_Qeq. rewrite H. unfold Q2R. cbn. lra.
Qed.
Lemma Qc2R_inv x : x <> 0%Qc -> Qc2R (/ x)%Qc = (/ Qc2R x)%R.
Proof.
  intros H. unfold Qcinv. rewrite Qc2R_Q2Qc. apply Q2R_inv.
  intros E. apply H. apply Qc_is_canon. rewrite E. change (this 0%Qc) with (Qred 0). rewrite Qred_correct. reflexivity.
Qed.
Lemma Qc2R_div x y : y <> 0%Qc -> Qc2R (x / y)%Qc = (Qc2R x / Qc2R y)%R.
Proof. intros H. unfold Qcdiv. rewrite Qc2R_mult, Qc2R_inv by exact H. reflexivity. Qed.
Lemma Qc2R_qpow x k : Qc2R (qpow x k) = (Qc2R x ^ k)%R.
Proof. induction k as [|k IH]; [apply Qc2R_1|]. cbn [qpow pow]. rewrite Qc2R_mult, IH. reflexivity. Qed.
Lemma Qc2R_qnat n : Qc2R (qnat n) = INR n.
Proof. induction n as [|n IH]; [apply Qc2R_0|]. rewrite S_INR. cbn [qnat]. rewrite Qc2R_plus, IH, Qc2R_1. reflexivity. Qed.

(* Coquelicot's integral of x^k, scaled by 1/d *)
Lemma is_RInt_monomial (a b d : R) (k : nat) : d <> 0%R ->
  is_RInt (fun x => x ^ k / d)%R a b ((b ^ (k + 1) - a ^ (k + 1)) / (INR (k + 1) * d))%R.
Proof.
  intros Hd. rewrite Nat.add_1_r.
  apply (is_RInt_ext (fun x => scal (/ d) (x ^ k))%R); [intros x _; apply Rmult_comm|].
  replace ((b ^ S k - a ^ S k) / (INR (S k) * d))%R with (scal (/ d) (b ^ S k / INR (S k) - a ^ S k / INR (S k)))%R.
  - apply (is_RInt_scal (V := R_NormedModule)), is_RInt_pow.
  - change (/ d * (b ^ S k / INR (S k) - a ^ S k / INR (S k)) = (b ^ S k - a ^ S k) / (INR (S k) * d))%R.
    field. split; [exact Hd | apply not_0_INR; discriminate].
Qed.

Theorem uniform_moment_integral (a b : Qc) (k : nat) : a <> b ->
  Qc2R (uniform_get_moment a b k)
  = RInt (fun x => x ^ k / (Qc2R b - Qc2R a))%R (Qc2R a) (Qc2R b).
Proof.
  intros H.
  assert (Hd : (b - a)%Qc <> 0%Qc) by (apply Qcminus_neq0; exact H).
  assert (HdR : (Qc2R b - Qc2R a)%R <> 0%R).
  { rewrite <- Qc2R_minus. intros E. apply Hd. apply Qc2R_inj_0. exact E. }
  symmetry. apply is_RInt_unique.
  unfold uniform_get_moment.
  assert (N : (qnat (k + 1) * (b - a))%Qc <> 0%Qc).
  { intros Z. apply Qcmult_integral in Z. destruct Z as [Z|Z]; [|exact (Hd Z)].
    replace (k + 1)%nat with (S k) in Z by lia. exact (qnat_S_neq0 k Z). }
  rewrite Qc2R_div by exact N. rewrite Qc2R_minus, !Qc2R_qpow, Qc2R_mult, Qc2R_qnat, Qc2R_minus.
  apply is_RInt_monomial. exact HdR.
Qed.
