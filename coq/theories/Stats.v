(* Base for property C11.
   (1) the small "Python runtime" the translated definitions of gen/StatsGen.v are written in
       (dict as insertion-ordered association list, range, int/float conversions, CPython's
       correctly rounded int/int true division modelled exactly over Q);
   (2) finite laws as weighted lists over Qc, expectation, tail probabilities;
   (3) finite sums over index lists, the binomial theorem over Qc, Pascal rows;
   (4) the inequalities behind the tail bounds (Markov, Cauchy-Schwarz second-moment bound).
   Nothing here depends on generated files. *)
From Coq Require Import List ZArith QArith Qcanon Lia Arith Bool Field Lqa.
From Polar Require Import Qcx.
Import ListNotations.
Local Open Scope Qc_scope.

Definition zq (z : Z) : Qc := Q2Qc (inject_Z z).
Definition fq (x : Q) : Qc := Q2Qc x.

Definition pyrange (lo hi : nat) : list nat := seq lo (hi - lo).

(* dict with int keys and expression values: insertion-ordered association list, one entry
   per key; d[k] of a missing key is 0 here (Python raises KeyError: not modelled) *)
Definition pydict := list (nat * Qc).
Definition dempty : pydict := [].
Fixpoint dget (d : pydict) (k : nat) : Qc :=
  match d with [] => 0 | (k', v) :: d' => if Nat.eqb k' k then v else dget d' k end.
Fixpoint dset (d : pydict) (k : nat) (v : Qc) : pydict :=
  match d with
  | [] => [(k, v)]
  | (k', v') :: d' => if Nat.eqb k' k then (k', v) :: d' else (k', v') :: dset d' k v
  end.
Definition dlen (d : pydict) : nat := length d.
Definition ditems (d : pydict) : list (nat * Qc) := d.

Lemma dget_dset d k v j : dget (dset d k v) j = if Nat.eqb k j then v else dget d j.
Proof.
  induction d as [|[k' v'] d IH]; cbn [dset dget].
  - reflexivity.
  - destruct (Nat.eqb k' k) eqn:E.
    + apply Nat.eqb_eq in E; subst k'. cbn [dget]. destruct (Nat.eqb k j); reflexivity.
    + cbn [dget]. destruct (Nat.eqb k' j) eqn:E2.
      * apply Nat.eqb_eq in E2; subst k'. rewrite Nat.eqb_sym in E. rewrite E. reflexivity.
      * exact IH.
Qed.
Lemma dget_dset_same d k v : dget (dset d k v) k = v.
Proof. rewrite dget_dset, Nat.eqb_refl; reflexivity. Qed.
Lemma dget_dset_other d k v j : k <> j -> dget (dset d k v) j = dget d j.
Proof. intros H. rewrite dget_dset. apply Nat.eqb_neq in H. rewrite H. reflexivity. Qed.

(* math.factorial on Python ints *)
Fixpoint zfact (n : nat) : Z := match n with O => 1%Z | S m => (Z.of_nat (S m) * zfact m)%Z end.

Lemma zfact_pos n : (0 < zfact n)%Z.
Proof. induction n; cbn [zfact]; lia. Qed.

(* CPython's int / int ("true division", Objects/longobject.c long_true_divide): the exact
   quotient correctly rounded (round-half-to-even) to a 53-bit significand.  The float is
   represented by its exact value in Q.  NOT modelled: the exponent range (OverflowError
   when |a/b| >= 2^1024, subnormals) and ZeroDivisionError (b = 0). *)
Definition py_truediv (a b : Z) : Q :=
  if (a =? 0)%Z then 0%Q else
  let s := (Z.sgn a * Z.sgn b)%Z in
  let a := Z.abs a in
  let b := Z.abs b in
  let d := (Z.log2 a - Z.log2 b)%Z in
  let ge := if (0 <=? d)%Z then (b * 2 ^ d <=? a)%Z else (b <=? a * 2 ^ (- d))%Z in
  let e := ((if ge then d else d - 1) - 52)%Z in
  let num := if (0 <=? e)%Z then a else (a * 2 ^ (- e))%Z in
  let den := if (0 <=? e)%Z then (b * 2 ^ e)%Z else b in
  let q := (num / den)%Z in
  let r := (num mod den)%Z in
  let m := if (2 * r <? den)%Z then q
           else if (den <? 2 * r)%Z then (q + 1)%Z
           else if Z.even q then q else (q + 1)%Z in
  if (0 <=? e)%Z then inject_Z (s * m * 2 ^ e) else Qmake (s * m) (Z.to_pos (2 ^ (- e))).

(* int(float): truncation toward zero *)
Definition py_int (x : Q) : Z := Z.quot (Qnum x) (Zpos (Qden x)).

(* move a Qc (in)equality to Q, where lra / nra work *)
Lemma Qc_this_plus (x y : Qc) : (this (x + y) == this x + this y)%Q.
Proof. change (this (x + y)) with (Qred (this x + this y)). apply Qred_correct. Qed.
Lemma Qc_this_mult (x y : Qc) : (this (x * y) == this x * this y)%Q.
Proof. change (this (x * y)) with (Qred (this x * this y)). apply Qred_correct. Qed.
Lemma Qc_this_opp (x : Qc) : (this (- x) == - this x)%Q.
Proof. change (this (- x)) with (Qred (- this x)). apply Qred_correct. Qed.
Lemma Qc_this_minus (x y : Qc) : (this (x - y) == this x - this y)%Q.
Proof. unfold Qcminus. rewrite Qc_this_plus, Qc_this_opp. reflexivity. Qed.

Lemma zq_0 : zq 0 = 0. Proof. reflexivity. Qed.
Lemma zq_1 : zq 1 = 1. Proof. reflexivity. Qed.
Lemma zq_add a b : zq (a + b) = zq a + zq b.
Proof.
  apply Qc_is_canon. unfold zq. rewrite Qc_this_plus. cbn [this Q2Qc].
  rewrite !Qred_correct. rewrite inject_Z_plus. reflexivity.
Qed.
Lemma zq_mul a b : zq (a * b) = zq a * zq b.
Proof.
  apply Qc_is_canon. unfold zq. rewrite Qc_this_mult. cbn [this Q2Qc].
  rewrite !Qred_correct. rewrite inject_Z_mult. reflexivity.
Qed.
Lemma zq_opp a : zq (- a) = - zq a.
Proof.
  apply Qc_is_canon. unfold zq. rewrite Qc_this_opp. cbn [this Q2Qc].
  rewrite !Qred_correct. rewrite inject_Z_opp. reflexivity.
Qed.
Lemma zq_inj a b : zq a = zq b -> a = b.
Proof.
  unfold zq. intros H. apply Q2Qc_eq_iff in H. unfold Qeq in H. cbn in H. lia.
Qed.
Lemma zq_m1 : zq (-1) = - (1). Proof. reflexivity. Qed.
Lemma zq_2 : zq 2 = 1 + 1. Proof. apply Qc_is_canon. reflexivity. Qed.

Lemma zq_pow a n : zq (a ^ Z.of_nat n) = qpow (zq a) n.
Proof.
  induction n as [|n IH].
  - reflexivity.
  - rewrite Nat2Z.inj_succ, Z.pow_succ_r by lia. rewrite zq_mul, IH. reflexivity.
Qed.

Lemma qpow_1 n : qpow 1 n = 1.
Proof. apply Qcx.qpow_1. Qed.

Lemma Qcle_0_sq x : 0 <= x * x.
Proof.
  unfold Qcle. rewrite Qc_this_mult. change (this 0) with 0%Q. nra.
Qed.

Lemma Qcle_div_r x y z : 0 < z -> x * z <= y -> x <= y / z.
Proof.
  intros Hz H. apply Qcmult_lt_0_le_reg_r with z; [assumption|].
  rewrite (Qcmult_comm (y / z)), Qcmult_div_r by (apply Qclt_neq0; assumption). exact H.
Qed.
(* also at y = 0, where x / 0 = 0 in Qc *)
Lemma Qcdiv_le_of_mul x y p : 0 <= y -> 0 <= p -> x <= y * p -> x / y <= p.
Proof.
  intros Hy Hp H. destruct (Qcle_lt_or_eq _ _ Hy) as [L|<-].
  - apply Qcmult_lt_0_le_reg_r with y; [exact L|].
    rewrite (Qcmult_comm (x / y)), Qcmult_div_r, (Qcmult_comm p) by (apply Qclt_neq0; exact L). exact H.
  - unfold Qcdiv. change (/ 0) with 0. rewrite Qcmult_0_r. exact Hp.
Qed.

Definition sumq (l : list Qc) : Qc := fold_right Qcplus 0 l.
Definition bigsum {A} (l : list A) (f : A -> Qc) : Qc := sumq (map f l).

Lemma bigsum_nil {A} (f : A -> Qc) : bigsum [] f = 0. Proof. reflexivity. Qed.
Lemma bigsum_cons {A} x (l : list A) f : bigsum (x :: l) f = f x + bigsum l f.
Proof. reflexivity. Qed.
Lemma bigsum_app {A} (l1 l2 : list A) f : bigsum (l1 ++ l2) f = bigsum l1 f + bigsum l2 f.
Proof.
  induction l1 as [|x l1 IH]; cbn [app]; rewrite ?bigsum_cons, ?bigsum_nil; [ring | rewrite IH; ring].
Qed.
Lemma bigsum_app_single {A} (l : list A) x f : bigsum (l ++ [x]) f = bigsum l f + f x.
Proof. rewrite bigsum_app, bigsum_cons, bigsum_nil. ring. Qed.
Lemma bigsum_ext {A} (l : list A) f g : (forall x, In x l -> f x = g x) -> bigsum l f = bigsum l g.
Proof.
  induction l as [|x l IH]; intros H; [reflexivity|]. rewrite !bigsum_cons.
  rewrite H by (left; reflexivity). rewrite IH; [reflexivity|]. intros y Hy. apply H. right. exact Hy.
Qed.
Lemma bigsum_add {A} (l : list A) f g : bigsum l (fun x => f x + g x) = bigsum l f + bigsum l g.
Proof. induction l as [|x l IH]; rewrite ?bigsum_nil, ?bigsum_cons; [ring | rewrite IH; ring]. Qed.
Lemma bigsum_scal {A} (l : list A) c f : bigsum l (fun x => c * f x) = c * bigsum l f.
Proof. induction l as [|x l IH]; rewrite ?bigsum_nil, ?bigsum_cons; [ring | rewrite IH; ring]. Qed.
Lemma bigsum_scal_r {A} (l : list A) c f : bigsum l (fun x => f x * c) = bigsum l f * c.
Proof. rewrite Qcmult_comm, <- bigsum_scal. apply bigsum_ext. intros. apply Qcmult_comm. Qed.
Lemma bigsum_opp {A} (l : list A) f : bigsum l (fun x => - f x) = - bigsum l f.
Proof. induction l as [|x l IH]; rewrite ?bigsum_nil, ?bigsum_cons; [ring | rewrite IH; ring]. Qed.
Lemma bigsum_zero {A} (l : list A) : bigsum l (fun _ => 0) = 0.
Proof. induction l as [|x l IH]; [reflexivity | rewrite bigsum_cons, IH; reflexivity]. Qed.
Lemma bigsum_map {A B} (h : A -> B) (l : list A) f : bigsum (map h l) f = bigsum l (fun x => f (h x)).
Proof. unfold bigsum. rewrite map_map. reflexivity. Qed.
Lemma bigsum_swap {A B} (l1 : list A) (l2 : list B) (f : A -> B -> Qc) :
  bigsum l1 (fun x => bigsum l2 (fun y => f x y)) = bigsum l2 (fun y => bigsum l1 (fun x => f x y)).
Proof.
  induction l1 as [|x l1 IH].
  - rewrite bigsum_nil. symmetry. apply bigsum_zero.
  - rewrite bigsum_cons, IH. rewrite <- bigsum_add. apply bigsum_ext. intros y _. rewrite bigsum_cons. reflexivity.
Qed.
Lemma bigsum_le {A} (l : list A) f g : (forall x, In x l -> f x <= g x) -> bigsum l f <= bigsum l g.
Proof.
  induction l as [|x l IH]; intros H; [apply Qcle_refl|]. rewrite !bigsum_cons.
  apply Qcplus_le_compat; [apply H; left; reflexivity | apply IH; intros y Hy; apply H; right; exact Hy].
Qed.
Lemma bigsum_nonneg {A} (l : list A) f : (forall x, In x l -> 0 <= f x) -> 0 <= bigsum l f.
Proof. intros H. rewrite <- (bigsum_zero l). apply bigsum_le. exact H. Qed.
Lemma bigsum_eq0 {A} (l : list A) f : (forall x, In x l -> f x = 0) -> bigsum l f = 0.
Proof. intros H. rewrite (bigsum_ext l f (fun _ => 0) H). apply bigsum_zero. Qed.

Lemma bigsum_delta (l : list nat) j c :
  NoDup l -> In j l -> bigsum l (fun i => if Nat.eqb i j then c else 0) = c.
Proof.
  induction l as [|x l IH]; intros ND Hin; [destruct Hin|].
  rewrite bigsum_cons. inversion ND as [|? ? Hx ND']; subst. destruct (Nat.eqb_spec x j) as [->|Nx].
  - rewrite bigsum_eq0; [apply Qcplus_0_r|]. intros y Hy.
    destruct (Nat.eqb_spec y j) as [->|_]; [contradiction | reflexivity].
  - destruct Hin as [->|Hin]; [contradiction|]. rewrite IH by assumption. apply Qcplus_0_l.
Qed.

Lemma fold_left_add {A} (l : list A) (f : A -> Qc) init :
  fold_left (fun acc x => acc + f x) l init = init + bigsum l f.
Proof.
  revert init. induction l as [|x l IH]; intros init; cbn [fold_left]; rewrite ?bigsum_nil, ?bigsum_cons;
    [ring | rewrite IH; ring].
Qed.
Lemma fold_left_sub {A} (l : list A) (f : A -> Qc) init :
  fold_left (fun acc x => acc - f x) l init = init - bigsum l f.
Proof. unfold Qcminus. rewrite <- bigsum_opp. apply fold_left_add. Qed.

Lemma pyrange_S lo hi : (lo <= hi)%nat -> pyrange lo (S hi) = pyrange lo hi ++ [hi].
Proof.
  intros H. unfold pyrange. replace (S hi - lo)%nat with (S (hi - lo)) by lia.
  rewrite seq_S. f_equal. f_equal. lia.
Qed.
Lemma pyrange_empty lo hi : (hi <= lo)%nat -> pyrange lo hi = [].
Proof. intros H. unfold pyrange. replace (hi - lo)%nat with O by lia. reflexivity. Qed.
Lemma in_pyrange lo hi x : In x (pyrange lo hi) <-> (lo <= x < hi)%nat.
Proof. unfold pyrange. rewrite in_seq. lia. Qed.
Lemma pyrange_0 n : pyrange 0 n = seq 0 n.
Proof. unfold pyrange. rewrite Nat.sub_0_r. reflexivity. Qed.
Lemma pyrange_shift lo hi : pyrange (S lo) (S hi) = map S (pyrange lo hi).
Proof. unfold pyrange. rewrite seq_shift. reflexivity. Qed.

Lemma bigsum_seq_first m (f : nat -> Qc) :
  bigsum (seq 0 (S m)) f = f O + bigsum (seq 0 m) (fun j => f (S j)).
Proof. cbn [seq]. rewrite bigsum_cons. rewrite <- seq_shift, bigsum_map. reflexivity. Qed.
Lemma bigsum_seq_last m (f : nat -> Qc) :
  bigsum (seq 0 (S m)) f = bigsum (seq 0 m) f + f m.
Proof. rewrite seq_S. apply bigsum_app_single. Qed.

Lemma bigsum_flip n : forall f : nat -> Qc,
  bigsum (seq 0 (S n)) f = bigsum (seq 0 (S n)) (fun j => f (n - j)%nat).
Proof.
  induction n as [|n IH]; intros f; [reflexivity|].
  rewrite bigsum_seq_last, (bigsum_seq_first (S n)), IH. cbn [Nat.sub]. apply Qcplus_comm.
Qed.

(* a dict-filling loop: for i in range(lo, hi): d[i] = g(d, i) *)
Section DictLoop.
  Variable g : pydict -> nat -> Qc.
  Definition dloop lo hi d0 := fold_left (fun d i => dset d i (g d i)) (pyrange lo hi) d0.

  Lemma dloop_empty lo hi d0 : (hi <= lo)%nat -> dloop lo hi d0 = d0.
  Proof. intros H. unfold dloop. rewrite pyrange_empty by exact H. reflexivity. Qed.
  Lemma dloop_S lo hi d0 : (lo <= hi)%nat ->
    dloop lo (S hi) d0 = dset (dloop lo hi d0) hi (g (dloop lo hi d0) hi).
  Proof. intros H. unfold dloop. rewrite pyrange_S by exact H. apply fold_left_app. Qed.

  Lemma dloop_untouched lo hi d0 j : (j < lo \/ hi <= j)%nat -> dget (dloop lo hi d0) j = dget d0 j.
  Proof.
    induction hi as [|hi IH]; intros H; [rewrite dloop_empty by lia; reflexivity|].
    destruct (le_lt_dec lo hi) as [L|L]; [|rewrite dloop_empty by lia; reflexivity].
    rewrite dloop_S, dget_dset_other by lia. apply IH. lia.
  Qed.

  Lemma dloop_at lo hi d0 i : (lo <= i < hi)%nat ->
    dget (dloop lo hi d0) i = g (dloop lo i d0) i.
  Proof.
    induction hi as [|hi IH]; intros H; [lia|].
    rewrite dloop_S by lia. destruct (Nat.eq_dec i hi) as [->|N].
    - apply dget_dset_same.
    - rewrite dget_dset_other by lia. apply IH. lia.
  Qed.

  (* earlier keys keep their value: both sides were never written, or written at step k *)
  Lemma dloop_prefix lo hi d0 i k : (i <= hi)%nat -> (k < i)%nat ->
    dget (dloop lo hi d0) k = dget (dloop lo i d0) k.
  Proof.
    intros H Hk. destruct (le_lt_dec lo k).
    - rewrite !dloop_at by lia. reflexivity.
    - rewrite !dloop_untouched by lia. reflexivity.
  Qed.

  (* if the body at i only reads keys below i, the final dict satisfies the fixed-point
     equation d[i] = g(d, i) *)
  Lemma dloop_fix lo hi d0 :
    (forall d d' i, (forall k, (k < i)%nat -> dget d k = dget d' k) -> g d i = g d' i) ->
    forall i, (lo <= i < hi)%nat -> dget (dloop lo hi d0) i = g (dloop lo hi d0) i.
  Proof.
    intros Hext i H. rewrite dloop_at by exact H. apply Hext. intros k Hk.
    symmetry. apply dloop_prefix; lia.
  Qed.
End DictLoop.

Fixpoint binom (n k : nat) : Z :=
  match n, k with
  | _, O => 1%Z
  | O, S _ => 0%Z
  | S n', S k' => (binom n' k' + binom n' k)%Z
  end.

Lemma binom_0_r n : binom n 0 = 1%Z. Proof. destruct n; reflexivity. Qed.
Lemma binom_S n k : binom (S n) (S k) = (binom n k + binom n (S k))%Z. Proof. reflexivity. Qed.
Lemma binom_gt n : forall k, (n < k)%nat -> binom n k = 0%Z.
Proof.
  induction n as [|n IH]; intros [|k] H; try lia; [reflexivity|].
  rewrite binom_S, !IH by lia. reflexivity.
Qed.
Lemma binom_diag n : binom n n = 1%Z.
Proof. induction n as [|n IH]; [reflexivity|]. rewrite binom_S, IH, binom_gt by lia. reflexivity. Qed.

(* Pascal rows, for computing inside the kernel *)
Fixpoint nextrow (prev : Z) (r : list Z) : list Z :=
  match r with [] => [prev] | x :: r' => (prev + x)%Z :: nextrow x r' end.
Fixpoint prow (n : nat) : list Z := match n with O => [1%Z] | S n' => nextrow 0%Z (prow n') end.

Lemma nth_nextrow r : forall p k, nth k (nextrow p r) 0%Z = (nth k (p :: r) 0 + nth k r 0)%Z.
Proof.
  induction r as [|x r IH]; intros p k.
  - destruct k as [|[|k]]; cbn; lia.
  - destruct k as [|k]; [reflexivity|]. cbn [nextrow nth]. rewrite IH. reflexivity.
Qed.
Lemma prow_binom n : forall k, nth k (prow n) 0%Z = binom n k.
Proof.
  induction n as [|n IH]; intros k.
  - destruct k as [|[|k]]; reflexivity.
  - cbn [prow]. rewrite nth_nextrow. destruct k as [|k].
    + cbn [nth]. rewrite IH, binom_0_r. reflexivity.
    + cbn [nth]. rewrite !IH. reflexivity.
Qed.

Definition bq (n k : nat) : Qc := zq (binom n k).

Lemma bq_S n k : bq (S n) (S k) = bq n k + bq n (S k).
Proof. unfold bq. rewrite binom_S, zq_add. reflexivity. Qed.
Lemma bq_0_r n : bq n 0 = 1. Proof. unfold bq. rewrite binom_0_r. reflexivity. Qed.
Lemma bq_diag n : bq n n = 1. Proof. unfold bq. rewrite binom_diag. reflexivity. Qed.
Lemma bq_gt n k : (n < k)%nat -> bq n k = 0. Proof. intros H. unfold bq. rewrite binom_gt by exact H. reflexivity. Qed.

Lemma bigsum_pascal n (g : nat -> Qc) :
  bigsum (seq 0 (S (S n))) (fun j => bq (S n) j * g j)
  = bigsum (seq 0 (S n)) (fun j => bq n j * g j) + bigsum (seq 0 (S n)) (fun j => bq n j * g (S j)).
Proof.
  rewrite bigsum_seq_first, (bigsum_ext _ _ (fun j => bq n j * g (S j) + bq n (S j) * g (S j)))
    by (intros; rewrite bq_S; ring).
  rewrite bigsum_add, (bigsum_seq_last n (fun j => bq n (S j) * g (S j))), (bq_gt n (S n)) by lia.
  rewrite (bigsum_seq_first n (fun j => bq n j * g j)), !bq_0_r. ring.
Qed.

Theorem binomial_theorem x y n :
  qpow (x + y) n = bigsum (seq 0 (S n)) (fun j => bq n j * qpow x j * qpow y (n - j)).
Proof.
  induction n as [|n IH].
  - cbn [seq]. rewrite bigsum_cons, bigsum_nil, bq_0_r. cbn [qpow Nat.sub]. ring.
  - rewrite (bigsum_ext _ _ (fun j => bq (S n) j * (qpow x j * qpow y (S n - j)))) by (intros; ring).
    rewrite bigsum_pascal, qpow_S, IH, Qcmult_plus_distr_l, <- !bigsum_scal, Qcplus_comm.
    f_equal; apply bigsum_ext; intros j Hj; apply in_seq in Hj.
    + replace (S n - j)%nat with (S (n - j)) by lia. cbn [qpow]. ring.
    + cbn [qpow Nat.sub]. ring.
Qed.

(* a finite law: list of (weight, value); E f = sum of w * f v *)
Definition law := list (Qc * Qc).
Definition Ex (L : law) (f : Qc -> Qc) : Qc := bigsum L (fun p => fst p * f (snd p)).
Definition mass (L : law) : Qc := Ex L (fun _ => 1).
Definition nonneg_weights (L : law) : Prop := forall p, In p L -> 0 <= fst p.
Definition is_prob (L : law) : Prop := nonneg_weights L /\ mass L = 1.
Definition support_ge (L : law) (c : Qc) : Prop := forall p, In p L -> c <= snd p.
Definition raw (L : law) (k : nat) : Qc := Ex L (fun v => qpow v k).
Definition central (L : law) (i : nat) : Qc := Ex L (fun v => qpow (v - raw L 1) i).
Definition Pge (L : law) (a : Qc) : Qc := Ex L (fun v => if Qc_leb a v then 1 else 0).
Definition Pgt (L : law) (a : Qc) : Qc := Ex L (fun v => if Qc_ltb a v then 1 else 0).

Lemma Ex_ext L f g : (forall p, In p L -> f (snd p) = g (snd p)) -> Ex L f = Ex L g.
Proof. intros H. apply bigsum_ext. intros p Hp. rewrite H by exact Hp. reflexivity. Qed.
Lemma Ex_add L f g : Ex L (fun v => f v + g v) = Ex L f + Ex L g.
Proof. unfold Ex. rewrite <- bigsum_add. apply bigsum_ext. intros; apply Qcmult_plus_distr_r. Qed.
Lemma Ex_scal L c f : Ex L (fun v => c * f v) = c * Ex L f.
Proof. unfold Ex. rewrite <- bigsum_scal. apply bigsum_ext. intros; ring. Qed.
Lemma Ex_scal_r L c f : Ex L (fun v => f v * c) = Ex L f * c.
Proof. rewrite Qcmult_comm, <- Ex_scal. apply Ex_ext. intros. apply Qcmult_comm. Qed.
Lemma Ex_const L c : Ex L (fun _ => c) = c * mass L.
Proof. unfold mass. rewrite <- Ex_scal. apply Ex_ext. intros. symmetry. apply Qcmult_1_r. Qed.
Lemma Ex_bigsum {A} L (l : list A) (f : A -> Qc -> Qc) :
  Ex L (fun v => bigsum l (fun j => f j v)) = bigsum l (fun j => Ex L (f j)).
Proof.
  unfold Ex. rewrite bigsum_swap. apply bigsum_ext. intros p _. rewrite <- bigsum_scal. reflexivity.
Qed.
Lemma Ex_swap L1 L2 (f : Qc -> Qc -> Qc) :
  Ex L1 (fun x => Ex L2 (fun y => f x y)) = Ex L2 (fun y => Ex L1 (fun x => f x y)).
Proof.
  etransitivity; [apply (Ex_bigsum L1 L2 (fun q x => fst q * f x (snd q)))|].
  apply bigsum_ext. intros q _. apply Ex_scal.
Qed.
Lemma raw_0 L : raw L 0 = mass L. Proof. reflexivity. Qed.

(* E (X + c)^n in raw moments (raw L 0 = total mass): the binomial theorem under the expectation *)
Theorem Ex_qpow_add L c n :
  Ex L (fun v => qpow (v + c) n) = bigsum (seq 0 (S n)) (fun j => bq n j * raw L j * qpow c (n - j)).
Proof.
  rewrite (Ex_ext L _ (fun v => bigsum (seq 0 (S n)) (fun j => bq n j * qpow v j * qpow c (n - j))))
    by (intros; apply binomial_theorem).
  rewrite Ex_bigsum. apply bigsum_ext. intros j _. rewrite Ex_scal_r, Ex_scal. reflexivity.
Qed.

Theorem central_expansion L i :
  central L i = bigsum (seq 0 (S i)) (fun j => bq i j * raw L j * qpow (- raw L 1) (i - j)).
Proof. apply Ex_qpow_add. Qed.

Lemma Ex_shift1 L a : mass L = 1 -> Ex L (fun v => v - a) = raw L 1 - a.
Proof.
  intros HM. unfold raw, Qcminus. rewrite Ex_add. rewrite Ex_const, HM.
  rewrite (Ex_ext L (fun v => qpow v 1) (fun v => v)) by (intros; apply qpow_one). ring.
Qed.
Lemma Ex_shift2 L a : mass L = 1 ->
  Ex L (fun v => (v - a) * (v - a)) = raw L 2 - (1 + 1) * a * raw L 1 + a * a.
Proof.
  intros HM. unfold raw.
  rewrite (Ex_ext L _ (fun v => qpow v 2 + ((- ((1 + 1) * a)) * qpow v 1 + a * a))) by (intros; cbn [qpow]; ring).
  rewrite !Ex_add, Ex_scal, Ex_const, HM. ring.
Qed.

(* a binary quadratic form that is non-negative everywhere has discriminant <= 0 *)
Lemma quad_disc (A B C : Qc) :
  0 <= B -> (forall s t, 0 <= s * s * C + (1 + 1) * s * t * A + t * t * B) -> A * A <= C * B.
Proof.
  intros HB H. apply Qcle_minus_iff. destruct (Qcle_lt_or_eq _ _ HB) as [PB|<-].
  - (* at (B, -A) the form is (C B - A A) B *)
    apply Qcmult_lt_0_le_reg_r with B; [exact PB|]. rewrite Qcmult_0_l.
    replace ((C * B + - (A * A)) * B) with (B * B * C + (1 + 1) * B * - A * A + - A * - A * B) by ring.
    apply H.
  - (* B = 0: at (2 A, - (C + 1)) the form is - 4 A A *)
    apply Qcmult_lt_0_le_reg_r with ((1 + 1) * (1 + 1)); [reflexivity|]. rewrite Qcmult_0_l.
    replace ((C * 0 + - (A * A)) * ((1 + 1) * (1 + 1)))
      with ((1 + 1) * A * ((1 + 1) * A) * C + (1 + 1) * ((1 + 1) * A) * - (C + 1) * A + - (C + 1) * - (C + 1) * 0) by ring.
    apply H.
Qed.

(* with no negative weight the expectation is monotone; the tail bounds rest on that alone *)
Section NonnegWeights.
  Variable L : law.
  Hypothesis HW : nonneg_weights L.

  Lemma Ex_le f g : (forall p, In p L -> f (snd p) <= g (snd p)) -> Ex L f <= Ex L g.
  Proof.
    intros H. apply bigsum_le. intros p Hp. rewrite !(Qcmult_comm (fst p)).
    apply Qcmult_le_compat_r; [apply H; exact Hp | apply HW; exact Hp].
  Qed.
  Lemma Ex_nonneg f : (forall p, In p L -> 0 <= f (snd p)) -> 0 <= Ex L f.
  Proof.
    intros H. apply bigsum_nonneg. intros p Hp. apply Qcmult_nonneg; [apply HW | apply H]; exact Hp.
  Qed.

  Theorem markov_core a k : support_ge L 0 -> 0 < a -> Pge L a <= raw L k / qpow a k.
  Proof.
    intros HS Ha. apply Qcle_div_r; [apply qpow_pos; exact Ha|].
    unfold Pge, raw. rewrite Qcmult_comm, <- Ex_scal. apply Ex_le.
    intros p Hp. destruct (Qc_leb a (snd p)) eqn:E.
    - apply Qc_leb_iff in E. rewrite Qcmult_1_r. apply qpow_le_compat; [apply Qclt_le_weak; exact Ha | exact E].
    - rewrite Qcmult_0_r. apply qpow_nonneg. apply HS. exact Hp.
  Qed.

  Theorem cauchy_schwarz f g :
    Ex L (fun v => f v * g v) * Ex L (fun v => f v * g v) <= Ex L (fun v => f v * f v) * Ex L (fun v => g v * g v).
  Proof.
    apply quad_disc.
    - apply Ex_nonneg. intros; apply Qcle_0_sq.
    - (* the form at (s, t) is E (s f + t g)^2 *)
      intros s t. rewrite <- !Ex_scal, <- !Ex_add. apply Ex_nonneg. intros p _.
      replace (s * s * (f (snd p) * f (snd p)) + (1 + 1) * s * t * (f (snd p) * g (snd p)) + t * t * (g (snd p) * g (snd p)))
        with ((s * f (snd p) + t * g (snd p)) * (s * f (snd p) + t * g (snd p))) by ring.
      apply Qcle_0_sq.
  Qed.

  (* second-moment lower bound: Y = X - a >= 0  ==>  (E Y)^2 <= E Y^2 * P(Y > 0) *)
  Theorem second_moment_core a :
    support_ge L a ->
    Ex L (fun v => v - a) * Ex L (fun v => v - a) <= Ex L (fun v => (v - a) * (v - a)) * Pgt L a.
  Proof.
    intros HS. unfold Pgt.
    set (g := fun v => if Qc_ltb a v then 1 else 0).
    assert (E1 : Ex L (fun v => v - a) = Ex L (fun v => (v - a) * g v)).
    { apply Ex_ext. intros p Hp. unfold g. destruct (Qc_ltb a (snd p)) eqn:E; [ring|].
      apply Qc_ltb_false in E. assert (snd p = a) as -> by (apply Qcle_antisym; [exact E | apply HS; exact Hp]). ring. }
    assert (E2 : Ex L g = Ex L (fun v => g v * g v)).
    { apply Ex_ext. intros p _. unfold g. destruct (Qc_ltb a (snd p)); ring. }
    rewrite E1, E2. apply cauchy_schwarz.
  Qed.

  Lemma Pgt_nonneg a : 0 <= Pgt L a.
  Proof.
    apply Ex_nonneg. intros p _. destruct (Qc_ltb a (snd p)); [apply Qc_0_le_1 | apply Qcle_refl].
  Qed.
End NonnegWeights.
