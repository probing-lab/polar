(* C07 — degree-bounded completeness of a reported invariant basis (PARTIAL by design).
   Polynomials of degree <= D in k goals are coefficient vectors x over the explicit list
   [mons k D] of ALL exponent vectors of total degree <= D.  A polynomial that vanishes on the
   goal sequences for all n >= n0 vanishes at the N sample points n0 .. n0+N-1, i.e. x is in the
   kernel of the evaluation matrix (recomputed here from the closed forms).  With the kernel
   certificate of Lattice.v and cofactor identities  K_l = sum_i q_li * g_i  (checked by
   polynomial multiplication and the sound zero test of Invariant.v) every such polynomial is a
   polynomial combination of the reported basis G. *)
From Coq Require Import List Bool Arith Lia Ring.
From Polar Require Import CRing ExpPoly Lattice Invariant.
Import ListNotations.

Fixpoint mons (k D : nat) : list (list nat) :=
  match k with
  | O => [[]]
  | S k' => flat_map (fun e => map (cons e) (mons k' (D - e))) (seq 0 (S D))
  end.

Lemma mons_spec k : forall D es, In es (mons k D) <-> (length es = k /\ list_sum es <= D).
Proof.
  induction k as [|k IH]; intros D es; cbn [mons].
  - split.
    + intros [<-|[]]. split; [reflexivity | simpl; lia].
    + intros [H _]. destruct es; [left; reflexivity | discriminate].
  - rewrite in_flat_map. split.
    + intros [e [He Hin]]. apply in_seq in He. apply in_map_iff in Hin. destruct Hin as [es' [<- Hes']].
      apply IH in Hes'. destruct Hes' as [HL HS]. split; [simpl; lia | simpl; lia].
    + intros [HL HS]. destruct es as [|e es']; [discriminate|]. simpl in HL, HS.
      exists e. split; [apply in_seq; lia|]. apply in_map. apply IH. split; lia.
Qed.

Section Complete.
  Variable R : cring.
  Add Ring Rring : (rth R).
  Local Open Scope cr_scope.
  Local Notation z0 := (@r0 R).

  Definition poly_of (x : list R) (Ms : list (list nat)) : mpoly R := combine x Ms.

  Lemma poly_of_eval x : forall Ms xs,
    poly_eval (poly_of x Ms) xs = vdot x (map (fun es => mon_eval es xs) Ms).
  Proof.
    induction x as [|a x IH]; intros [|es Ms] xs; cbn [poly_of combine poly_eval map vdot]; try reflexivity.
    fold (poly_of x Ms). rewrite IH. reflexivity.
  Qed.

  (* evaluation matrix: one row per monomial, one column per sample point n0 + t *)
  Definition evt (F : list (epoly R)) (Ms : list (list nat)) (n0 N : nat) : list (list R) :=
    map (fun es => map (fun t => mon_eval es (evalF F (n0 + t))) (seq 0 N)) Ms.

  Lemma col_evt F Ms n0 N t : t < N ->
    col t (evt F Ms n0 N) = map (fun es => mon_eval es (evalF F (n0 + t))) Ms.
  Proof.
    intros Ht. unfold col, evt. rewrite map_map. apply map_ext. intros es.
    unfold nz. rewrite nth_indep with (d' := mon_eval es (evalF F (n0 + N))) by (rewrite map_length, seq_length; exact Ht).
    rewrite map_nth with (d := N). rewrite seq_nth by exact Ht. reflexivity.
  Qed.
  Lemma evt_rows_len F Ms n0 N : Forall (fun b => length b = N) (evt F Ms n0 N).
  Proof.
    apply Forall_forall. intros b Hb. unfold evt in Hb. apply in_map_iff in Hb. destruct Hb as [es [<- _]].
    rewrite map_length, seq_length. reflexivity.
  Qed.

  Lemma vanishing_in_kernel F Ms n0 N x :
    (forall n, n0 <= n -> poly_eval (poly_of x Ms) (evalF F n) = z0) ->
    veq (lincomb N x (evt F Ms n0 N)) [].
  Proof.
    intros H t. rewrite nz_nil. destruct (Nat.lt_ge_cases t N) as [Ht|Ht].
    - rewrite nz_lincomb, (col_evt F Ms n0 N t Ht), <- poly_of_eval. apply H. lia.
    - apply nz_beyond. rewrite (length_lincomb R N x _ (evt_rows_len F Ms n0 N)). exact Ht.
  Qed.

  (* ideal membership as an identity of functions on R^k, not of syntax *)
  Fixpoint comb_eval (ts : list (mpoly R * mpoly R)) (xs : list R) : R :=
    match ts with [] => z0 | t :: ts' => poly_eval (fst t) xs * poly_eval (snd t) xs + comb_eval ts' xs end.
  Definition in_ideal (k : nat) (G : list (mpoly R)) (p : mpoly R) : Prop :=
    exists ts : list (mpoly R * mpoly R),
      (forall t, In t ts -> In (snd t) G) /\
      forall xs, length xs = k -> poly_eval p xs = comb_eval ts xs.

  Fixpoint sum_prod (ts : list (mpoly R * mpoly R)) : mpoly R :=
    match ts with [] => [] | t :: ts' => mpmul (fst t) (snd t) ++ sum_prod ts' end.
  Definition terms_ok (k : nat) (ts : list (mpoly R * mpoly R)) : bool :=
    forallb (fun t => exps_ok k (fst t) && exps_ok k (snd t)) ts.
  Lemma sum_prod_eval ts xs : poly_eval (sum_prod ts) xs = comb_eval ts xs.
  Proof.
    induction ts as [|t ts IH]; cbn [sum_prod comb_eval]; [reflexivity|].
    rewrite poly_eval_app, poly_eval_mpmul, IH. reflexivity.
  Qed.
  Lemma comb_eval_app a b xs : comb_eval (a ++ b) xs = comb_eval a xs + comb_eval b xs.
  Proof. induction a as [|t a IH]; cbn [app comb_eval]; [ring | rewrite IH; ring]. Qed.
  Definition scale_terms (c : R) (ts : list (mpoly R * mpoly R)) : list (mpoly R * mpoly R) :=
    map (fun t => (mpscale c (fst t), snd t)) ts.
  Lemma comb_eval_scale c ts xs : comb_eval (scale_terms c ts) xs = c * comb_eval ts xs.
  Proof.
    induction ts as [|t ts IH]; cbn [scale_terms map comb_eval fst snd]; [ring|].
    fold (scale_terms c ts). rewrite IH, poly_eval_mpscale. ring.
  Qed.

  (* one kernel row with its cofactors:  K_l = sum_i Cof_li * g_i  as a polynomial identity *)
  Definition check_row (k : nat) (Ms : list (list nat)) (G : list (mpoly R)) (kc : list R * list (mpoly R)) : bool :=
    let ts := combine (snd kc) G in
    terms_ok k ts && mpeq (poly_of (fst kc) Ms) (sum_prod ts).

  Lemma check_row_sound k Ms G kc xs : check_row k Ms G kc = true ->
    poly_eval (poly_of (fst kc) Ms) xs = comb_eval (combine (snd kc) G) xs.
  Proof.
    unfold check_row. intros H. apply andb_true_iff in H. destruct H as [_ H].
    rewrite (mpeq_sound R _ _ H xs). apply sum_prod_eval.
  Qed.

  Fixpoint all_terms (c : list R) (KC : list (list R * list (mpoly R))) (G : list (mpoly R)) :=
    match c, KC with
    | a :: c', kc :: KC' => scale_terms a (combine (snd kc) G) ++ all_terms c' KC' G
    | _, _ => []
    end.
  Lemma all_terms_in c : forall KC G t, In t (all_terms c KC G) -> In (snd t) G.
  Proof.
    induction c as [|a c IH]; intros [|kc KC] G t H; cbn [all_terms] in H; try contradiction.
    apply in_app_or in H. destruct H as [H|H]; [|apply (IH KC G t H)].
    unfold scale_terms in H. apply in_map_iff in H. destruct H as [u [<- Hu]]. cbn [snd].
    destruct u as [u1 u2]. apply in_combine_r in Hu. exact Hu.
  Qed.
  Lemma all_terms_eval k Ms G xs : forall KC c,
    forallb (check_row k Ms G) KC = true ->
    vdot c (map (fun kc => poly_eval (poly_of (fst kc) Ms) xs) KC) = comb_eval (all_terms c KC G) xs.
  Proof.
    induction KC as [|kc KC IH]; intros [|a c] H; cbn [map vdot all_terms comb_eval]; try reflexivity.
    cbn [forallb] in H. apply andb_true_iff in H. destruct H as [H1 H2].
    rewrite comb_eval_app, comb_eval_scale, (IH c H2), (check_row_sound k Ms G kc xs H1). reflexivity.
  Qed.

  (* x |-> (poly_of x Ms)(xs) is linear *)
  Lemma poly_of_lincomb m c K Ms xs :
    poly_eval (poly_of (lincomb m c K) Ms) xs = vdot c (map (fun r => poly_eval (poly_of r Ms) xs) K).
  Proof.
    rewrite poly_of_eval, vdot_lincomb. f_equal. apply map_ext. intros r. symmetry. apply poly_of_eval.
  Qed.

  (* every combination of kernel rows with checked cofactors is in the ideal *)
  Lemma span_in_ideal k Ms G KC c : forallb (check_row k Ms G) KC = true ->
    in_ideal k G (poly_of (lincomb (length Ms) c (map fst KC)) Ms).
  Proof.
    intros HC. exists (all_terms c KC G). split; [apply all_terms_in|].
    intros xs _. rewrite poly_of_lincomb, map_map. exact (all_terms_eval k Ms G xs KC c HC).
  Qed.

  Definition check_complete (k D n0 N : nat) (F : list (epoly R)) (G : list (mpoly R))
             (KC : list (list R * list (mpoly R))) (P Q : list (list R)) (d dinv : R) : bool :=
    let Ms := mons k D in
    let m := length Ms in
    Nat.eqb (length F) k &&
    check_kernel_cert m (evt F Ms n0 N) (map fst KC) P Q d dinv &&
    forallb (check_row k Ms G) KC.

  Theorem complete_deg_sound k D n0 N F G KC P Q d dinv :
    check_complete k D n0 N F G KC P Q d dinv = true ->
    forall x : list R, length x = length (mons k D) ->
      (forall n, n0 <= n -> poly_eval (poly_of x (mons k D)) (evalF F n) = z0) ->
      in_ideal k G (poly_of x (mons k D)).
  Proof.
    unfold check_complete. intros H x Hx Hvan.
    apply andb_true_iff in H. destruct H as [H HC].
    apply andb_true_iff in H. destruct H as [_ HK].
    rewrite (kernel_cert_sound R _ _ _ P Q d dinv HK x N Hx (vanishing_in_kernel F _ n0 N x Hvan)).
    apply span_in_ideal, HC.
  Qed.

  (* empty reported basis, trivial kernel: NO non-zero polynomial of degree <= D vanishes *)
  Theorem no_invariants_sound k D n0 N F P Q d dinv :
    check_complete k D n0 N F [] [] P Q d dinv = true ->
    forall x : list R, length x = length (mons k D) ->
      (forall n, n0 <= n -> poly_eval (poly_of x (mons k D)) (evalF F n) = z0) ->
      x = zeros (length (mons k D)).
  Proof.
    unfold check_complete. intros H x Hx Hvan.
    apply andb_true_iff in H. destruct H as [H _].
    apply andb_true_iff in H. destruct H as [_ HK].
    pose proof (vanishing_in_kernel F (mons k D) n0 N x Hvan) as Hker.
    pose proof (kernel_cert_sound R _ _ _ P Q d dinv HK x N Hx Hker) as Hx'.
    cbn [map length] in Hx'. rewrite Hx'. destruct (vscale dinv (lincomb 0 x P)); reflexivity.
  Qed.
End Complete.

Arguments poly_of {R} _ _. Arguments evt {R} _ _ _ _. Arguments in_ideal {R} _ _ _.
Arguments comb_eval {R} _ _. Arguments check_complete {R} _ _ _ _ _ _ _ _ _ _ _.
Arguments check_row {R} _ _ _ _.
