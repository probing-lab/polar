(* C15 — the generated loop body samples the joint law of the network.
   One execution of `gen_body net` from ANY state gives every assignment of in-domain value
   positions exactly the product of the conditional probabilities (each row read through
   row_law: listed probabilities, last one implicit), touches no other variable and has total
   mass 1; expectations of functions of the network variables are therefore the enumeration
   sums of BayesNetSpec.joint_expect.  The query statements of BayesNetQuery.v are then
   composed with this to give statements about the whole generated program. *)
From Coq Require Import String Arith Bool QArith Qcanon Lia List Permutation.
From Polar Require Import Qcx BayesNet BayesNetSem BayesNetSpec BayesNetTopo BayesNetQuery.
Import ListNotations.
Open Scope nat_scope.

Lemma nats_eqb_eq k1 k2 : nats_eqb k1 k2 = true <-> k1 = k2.
Proof. apply list_eqb_eq, Nat.eqb_eq. Qed.

Lemma combine_seq (l : list Qc) d :
  length l = d -> combine l (seq 0 d) = map (fun j => (nth j l 0%Qc, j)) (seq 0 d).
Proof. intros H. rewrite <- (map_nth_seq l 0%Qc d H) at 1. apply combine_map_self. Qed.

Lemma list_split_last (r : list Qc) n : length r = S n -> r = firstn n r ++ [nth n r 0%Qc].
Proof.
  revert r. induction n as [|n IH]; intros [|a r] H; cbn [length] in H; try discriminate.
  - destruct r; [reflexivity | discriminate].
  - cbn [firstn nth app]. f_equal. apply IH. lia.
Qed.

Lemma qsum_fubini {A B} (f : A -> B -> Qc) l1 l2 :
  qsum (map (fun x => qsum (map (fun y => f x y) l2)) l1) =
  qsum (map (fun y => qsum (map (fun x => f x y) l1)) l2).
Proof.
  induction l1 as [|a l1 IH]; cbn [map].
  - rewrite qsum_nil. symmetry. apply qsum_map_zero. intros; apply qsum_nil.
  - rewrite qsum_cons, IH.
    rewrite (qsum_map_ext (fun y => qsum (f a y :: map (fun x => f x y) l1))
                          (fun y => (f a y + qsum (map (fun x => f x y) l1))%Qc))
      by (intros; apply qsum_cons).
    rewrite qsum_map_plus. reflexivity.
Qed.

Lemma qsum_select (w : nat -> Qc) (c : Qc) k b d :
  b <= k < b + d ->
  qsum (map (fun j => (w j * (if Nat.eqb j k then c else 0))%Qc) (seq b d)) = (w k * c)%Qc.
Proof.
  revert b. induction d as [|d IH]; intros b H; [lia|].
  cbn [seq map]. rewrite qsum_cons. destruct (Nat.eqb b k) eqn:E.
  - apply Nat.eqb_eq in E. subst b. rewrite qsum_map_zero; [ring|].
    intros j Hj. apply in_seq in Hj. assert (E : Nat.eqb j k = false) by (apply Nat.eqb_neq; lia).
    rewrite E. ring.
  - apply Nat.eqb_neq in E. rewrite IH by lia. ring.
Qed.

Lemma qsum_indicator (g : list nat -> Qc) b l :
  NoDup l -> In b l -> qsum (map (fun a => (ind (nats_eqb b a) * g a)%Qc) l) = g b.
Proof.
  intros Hnd. induction Hnd as [|a l Ha Hl IH]; intros Hin; [destruct Hin|].
  cbn [map]. rewrite qsum_cons. destruct Hin as [->|Hin].
  - assert (E : nats_eqb b b = true) by (apply nats_eqb_eq; reflexivity). rewrite E. cbn [ind].
    rewrite qsum_map_zero; [ring|]. intros a' Ha'.
    destruct (nats_eqb b a') eqn:E'; [|cbn [ind]; ring].
    apply nats_eqb_eq in E'. subst a'. contradiction.
  - destruct (nats_eqb b a) eqn:E.
    + apply nats_eqb_eq in E. subst a. contradiction.
    + rewrite IH by exact Hin. cbn [ind]. ring.
Qed.

Lemma qprod_perm l1 l2 : Permutation l1 l2 -> qprod l1 = qprod l2.
Proof.
  intros H. induction H; cbn [qprod fold_right] in *.
  - reflexivity.
  - fold (qprod l). fold (qprod l'). rewrite IHPermutation. reflexivity.
  - ring.
  - congruence.
Qed.

Lemma expect_map_seq (w : nat -> Qc) (st : nat -> state) l f :
  expect (map (fun j => (w j, st j)) l) f = qsum (map (fun j => (w j * f (st j))%Qc) l).
Proof. unfold expect. rewrite map_map. reflexivity. Qed.

Lemma expect_const d (c : Qc) : expect d (fun _ => c) = (c * expect d (fun _ => 1%Qc))%Qc.
Proof. rewrite <- expect_cmul. apply expect_ext. intros; ring. Qed.

Section RowLaw.
  Variables (d : nat) (r : list Qc).

  Lemma row_law_total : qsum (row_law d r) = 1%Qc.
  Proof. unfold row_law, cat_weights. rewrite qsum_app, qsum_cons, qsum_nil. ring. Qed.

  Hypothesis Hd : 1 <= d.
  Hypothesis Hr : length r = d.

  Lemma row_law_length : length (row_law d r) = d.
  Proof. unfold row_law, cat_weights. rewrite app_length, firstn_length. cbn [length]. lia. Qed.

  Lemma row_law_shape : row_law d r = firstn (d - 1) r ++ [(nth (d - 1) r 0 + (1 - qsum r))%Qc].
  Proof.
    unfold row_law, cat_weights. f_equal. f_equal.
    assert (E : qsum r = (qsum (firstn (d - 1) r) + nth (d - 1) r 0)%Qc).
    { rewrite (list_split_last r (d - 1)) at 1 by lia.
      rewrite qsum_app, qsum_cons, qsum_nil. ring. }
    rewrite E. ring.
  Qed.

  Lemma row_law_exact : qsum r = 1%Qc -> row_law d r = r.
  Proof.
    intros Hs. rewrite row_law_shape, Hs.
    replace (nth (d - 1) r 0 + (1 - 1))%Qc with (nth (d - 1) r 0%Qc) by ring.
    symmetry. apply list_split_last. lia.
  Qed.

  Lemma exec_gen_assign x s :
    exec_assign (gen_assign x d r) s =
    map (fun j => (nth j (row_law d r) 0%Qc, upd s x j)) (seq 0 d).
  Proof.
    unfold gen_assign. cbn [exec_assign]. fold (row_law d r).
    rewrite (combine_seq _ d row_law_length), map_map. reflexivity.
  Qed.
End RowLaw.

Lemma cpt_lookup_In key c r : cpt_lookup key c = Some r -> In (key, r) c.
Proof.
  induction c as [|[k r'] c IH]; cbn [cpt_lookup]; [discriminate|].
  destruct (key_eqb k key) eqn:E.
  - intros H. inversion H; subst. apply key_eqb_eq in E. subst. now left.
  - intros H. right. apply IH, H.
Qed.

Lemma cond_true_combine pars comb s :
  length comb = length pars -> (cond_true (combine pars comb) s = true <-> comb = map s pars).
Proof.
  unfold cond_true.
  revert comb. induction pars as [|p pars IH]; intros [|c comb] H; cbn [length] in H; try discriminate.
  - cbn [combine forallb map]. tauto.
  - cbn [combine forallb fst snd map].
    rewrite andb_true_iff, Nat.eqb_eq, IH by lia.
    split; [intros [-> ->]; reflexivity | intros E; inversion E; auto].
Qed.

(* "if c1 .. elif c2 .. else: last" and "if c1 .. elif c2 .. elif c_last" agree on every state
   in which one of the conditions holds *)
Lemma exec_if_removelast brs dflt s :
  (exists b, In b brs /\ cond_true (fst b) s = true) ->
  exec_if (removelast brs) (Some (snd (last brs dflt))) s = exec_if brs None s.
Proof.
  induction brs as [|b brs IH]; intros [b0 [Hin Hc]]; [destruct Hin|].
  destruct brs as [|b' brs].
  - destruct Hin as [->|[]]. destruct b0 as [c a]. cbn [removelast last exec_if snd fst] in *.
    rewrite Hc. reflexivity.
  - change (removelast (b :: b' :: brs)) with (b :: removelast (b' :: brs)).
    change (last (b :: b' :: brs) dflt) with (last (b' :: brs) dflt).
    destruct b as [c a]. cbn [exec_if]. destruct (cond_true c s) eqn:Ec; [reflexivity|].
    apply IH. destruct Hin as [<-|Hin]; [cbn [fst] in Hc; congruence|]. exists b0. auto.
Qed.

(* the chain generated for the combinations `keys` of parent values executes the assignment
   of the row of the combination the parents hold in s, and that branch's condition holds *)
Lemma exec_if_branches pars c x d s : forall keys brs,
  omap (fun comb => r <- cpt_lookup comb c ;; Some (combine pars comb, gen_assign x d r)) keys = Some brs ->
  (forall k, In k keys -> length k = length pars) -> In (map s pars) keys ->
  exists r, cpt_lookup (map s pars) c = Some r /\
            exec_if brs None s = exec_assign (gen_assign x d r) s /\
            exists b, In b brs /\ cond_true (fst b) s = true.
Proof.
  induction keys as [|k keys IH]; intros brs Ho Hlen Hin; [destruct Hin|]. cbn [omap] in Ho.
  apply obind_Some in Ho as [b [Hb Ho]]. apply obind_Some in Ho as [bs [Hbs Ho]]. injection Ho as <-.
  apply obind_Some in Hb as [r [Hr Hb]]. injection Hb as <-. cbn [exec_if].
  destruct (cond_true (combine pars k) s) eqn:Ec.
  - exists r. pose proof Ec as Ek. apply cond_true_combine in Ek; [subst k | apply Hlen; now left].
    split; [exact Hr|]. split; [reflexivity|]. eexists. split; [now left | exact Ec].
  - destruct Hin as [->|Hin].
    + rewrite (proj2 (cond_true_combine pars (map s pars) s (map_length _ _)) eq_refl) in Ec. discriminate.
    + destruct (IH bs Hbs (fun k' H => Hlen k' (or_intror H)) Hin) as [r' [Hr' [He [b [Hb Hc]]]]].
      exists r'. split; [exact Hr'|]. split; [exact He|]. exists b. split; [now right | exact Hc].
Qed.

Lemma gen_var_exec net x v st s :
  gen_var net x v = Some st ->
  (forall p, In p (nv_par v) -> s p < ndsize net p) ->
  exists r, cpt_lookup (map s (nv_par v)) (nv_cpt v) = Some r /\
            exec_stmt st s = exec_assign (gen_assign x (length (nv_dom v)) r) s.
Proof.
  unfold gen_var. intros Hg Hs.
  assert (Hin : In (map s (nv_par v)) (net_keys net (nv_par v))).
  { apply in_product_map. intros p Hp. apply in_seq. split; [apply Nat.le_0_l | exact (Hs p Hp)]. }
  assert (Hlen: forall k, In k (net_keys net (nv_par v)) -> length k = length (nv_par v)).
  { intros k Hk. apply (in_product_nth 0) in Hk. rewrite map_length in Hk. apply Hk. }
  destruct (nv_par v) as [|p0 ps].
  - apply obind_Some in Hg as [r [E Hg]]. injection Hg as <-. exists r. split; [exact E | reflexivity].
  - apply obind_Some in Hg as [brs [Eo Hg]].
    destruct (exec_if_branches _ _ x (length (nv_dom v)) s _ _ Eo Hlen Hin) as [r [Hr [Hif Hex]]].
    exists r. split; [exact Hr|].
    destruct brs as [|b [|b' brs']]; [discriminate | |]; injection Hg as <-; cbn [exec_stmt].
    + exact Hif.
    + exact (eq_trans (exec_if_removelast (b :: b' :: brs') _ s Hex) Hif).
Qed.

Lemma read_length m s : length (read m s) = m.
Proof. unfold read. rewrite map_length, seq_length. reflexivity. Qed.

Lemma read_nth m s x : x < m -> nth x (read m s) 0 = s x.
Proof.
  intros H. unfold read.
  rewrite (nth_indep _ 0 (s 0)) by (rewrite map_length, seq_length; exact H).
  rewrite map_nth, seq_nth by exact H. reflexivity.
Qed.

Lemma read_eq m s a : length a = m -> (read m s = a <-> forall x, x < m -> s x = nth x a 0).
Proof.
  intros Hl. split.
  - intros <- x Hx. symmetry. apply read_nth, Hx.
  - intros H. apply (nth_ext _ _ 0 0); rewrite read_length; [auto|].
    intros n Hn. rewrite read_nth by exact Hn. apply H, Hn.
Qed.

Lemma nth_doms (net : network) i :
  i < length net -> nth i (map (fun v => seq 0 (length (nv_dom v))) net) [] = seq 0 (ndsize net i).
Proof.
  intros Hi. unfold ndsize. destruct (nth_error net i) as [v|] eqn:E.
  - apply nth_error_nth. apply (map_nth_error (fun v => seq 0 (length (nv_dom v)))). exact E.
  - apply nth_error_None in E. lia.
Qed.

Lemma all_assignments_spec (net : network) a :
  In a (all_assignments net) <->
  length a = length net /\ forall i, i < length net -> nth i a 0 < ndsize net i.
Proof.
  unfold all_assignments. rewrite (in_product_nth 0), map_length.
  split; intros [H1 H2]; (split; [exact H1|]); intros i Hi; specialize (H2 i Hi).
  - rewrite nth_doms in H2 by exact Hi. apply in_seq in H2. lia.
  - rewrite nth_doms by exact Hi. apply in_seq. lia.
Qed.

Lemma all_assignments_NoDup (net : network) : NoDup (all_assignments net).
Proof.
  unfold all_assignments. apply NoDup_product. intros l Hl. apply in_map_iff in Hl.
  destruct Hl as [v [<- _]]. apply seq_NoDup.
Qed.

Lemma qsum_nth_seq (l : list Qc) d : length l = d -> qsum (map (fun j => nth j l 0%Qc) (seq 0 d)) = qsum l.
Proof. intros H. rewrite map_nth_seq by exact H. reflexivity. Qed.

Definition gen_stmt_of (net : network) (x : nat) : option gstmt :=
  v <- nth_error net x ;; gen_var net x v.

Lemma gen_body_unfold net : gen_body net = ord <- topo_sort (map nv_par net) ;; omap (gen_stmt_of net) ord.
Proof. reflexivity. Qed.

Section Joint.
  Variable net : network.
  Hypothesis Hwf : wf_network net.
  Hypothesis Hnd : forall x v, nth_error net x = Some v -> NoDup (nv_par v).
  Local Notation m := (length net).
  Local Notation G := (gen_stmt_of net).

  Lemma nth_pars x v : nth_error net x = Some v -> nth x (map nv_par net) [] = nv_par v.
  Proof. intros H. apply nth_error_nth. apply map_nth_error. exact H. Qed.

  Lemma ndsize_eq x v : nth_error net x = Some v -> ndsize net x = length (nv_dom v).
  Proof. intros H. unfold ndsize. rewrite H. reflexivity. Qed.

  (* parents of every variable of l are in done or earlier in l *)
  Definition pfirst (done l : list nat) : Prop :=
    forall l1 x l2, l = l1 ++ x :: l2 ->
                    forall p, In p (nth x (map nv_par net) []) -> In p (done ++ l1).

  Lemma pfirst_head done x r p :
    pfirst done (x :: r) -> In p (nth x (map nv_par net) []) -> In p done.
  Proof. intros H Hp. specialize (H [] x r eq_refl p Hp). rewrite app_nil_r in H. exact H. Qed.

  Lemma pfirst_tail done x r : pfirst done (x :: r) -> pfirst (done ++ [x]) r.
  Proof.
    intros H l1 y l2 E p Hp. rewrite <- app_assoc. cbn [app].
    apply (H (x :: l1) y l2); [rewrite E; reflexivity | exact Hp].
  Qed.

  Definition on (done : list nat) (P : nat -> nat -> Prop) (s : state) : Prop :=
    forall y, In y done -> P y (s y).

  Lemma on_snoc done P s x j : on done P s -> P x j -> on (done ++ [x]) P (upd s x j).
  Proof.
    intros Hs Hj y Hy. destruct (Nat.eq_dec y x) as [->|Hne]; [rewrite upd_same; exact Hj|].
    rewrite upd_other by exact Hne.
    apply in_app_iff in Hy. destruct Hy as [Hy|[<-|[]]]; [apply Hs, Hy | congruence].
  Qed.

  Definition indom (y v : nat) : Prop := v < ndsize net y.

  (* the law of x given the values its parents hold in s *)
  Definition law (x : nat) (s : state) : list Qc :=
    match nth_error net x with
    | Some v => match cpt_lookup (map s (nv_par v)) (nv_cpt v) with
                | Some r => row_law (length (nv_dom v)) r
                | None => []
                end
    | None => []
    end.

  Lemma law_cond_prob a x s :
    (forall p, In p (nth x (map nv_par net) []) -> s p = nth p a 0) ->
    nth (nth x a 0) (law x s) 0%Qc = cond_prob net a x.
  Proof.
    intros H. unfold law, cond_prob. destruct (nth_error net x) as [v|] eqn:Hx.
    - rewrite (nth_pars x v Hx) in H. rewrite (map_ext_in _ _ _ H).
      destruct (cpt_lookup _ (nv_cpt v)); [reflexivity | destruct (nth x a 0); reflexivity].
    - destruct (nth x a 0); reflexivity.
  Qed.

  (* stmts is the code generated for the variables l, each of which has its parents in done or
     earlier in l, and s holds a domain position for every variable of done *)
  Definition generated (done l : list nat) (stmts : list gstmt) (s : state) : Prop :=
    omap G l = Some stmts /\ pfirst done l /\ on done indom s.

  Lemma generated_nil done stmts s : generated done [] stmts s -> stmts = [].
  Proof. intros [Ho _]. injection Ho as <-. reflexivity. Qed.

  (* the first statement draws x from its law and leaves the rest of the state alone; the
     remaining statements are the code generated for l, x now being done *)
  Lemma body_step done x l stmts s :
    generated done (x :: l) stmts s ->
    exists rest, x < m /\ length (law x s) = ndsize net x /\ qsum (law x s) = 1%Qc /\
      exec_body stmts s =
      bind (map (fun j => (nth j (law x s) 0%Qc, upd s x j)) (seq 0 (ndsize net x))) (exec_body rest) /\
      forall j, j < ndsize net x -> generated (done ++ [x]) l rest (upd s x j).
  Proof.
    intros [Ho [Hpf Hs]]. cbn [omap] in Ho.
    apply obind_Some in Ho as [st [Hst Ho]]. apply obind_Some in Ho as [rest [Hr Ho]]. injection Ho as <-.
    apply obind_Some in Hst as [v [Hx Hg]].
    destruct (gen_var_exec net x v st s Hg) as [r [Hrow He]].
    { intros p Hp. apply Hs, (pfirst_head done x l p Hpf). rewrite (nth_pars x v Hx). exact Hp. }
    destruct (Hwf x v Hx) as [Hd [_ [_ Hrows]]].
    pose proof (Hrows _ _ (cpt_lookup_In _ _ _ Hrow)) as Hlr.
    exists rest. unfold law. rewrite Hx, Hrow, (ndsize_eq x v Hx).
    split; [apply nth_error_Some; congruence|].
    split; [apply row_law_length; assumption|]. split; [apply row_law_total|].
    split; [cbn [exec_body]; rewrite He, exec_gen_assign by assumption; reflexivity|].
    intros j Hj. split; [exact Hr|]. split; [apply pfirst_tail, Hpf|].
    apply on_snoc; [exact Hs|]. unfold indom. rewrite (ndsize_eq x v Hx). exact Hj.
  Qed.

  Lemma body_support_gen l : forall done stmts s,
    generated done l stmts s ->
    forall ws, In ws (exec_body stmts s) ->
      on l indom (snd ws) /\ (forall y, ~ In y l -> snd ws y = s y).
  Proof.
    induction l as [|x l IH]; intros done stmts s H ws Hin.
    - rewrite (generated_nil _ _ _ H) in Hin. destruct Hin as [<-|[]]. split; [intros ? [] | reflexivity].
    - destruct (body_step _ _ _ _ _ H) as [rest [_ [_ [_ [He Hrest]]]]].
      rewrite He in Hin. apply in_bind in Hin as [w1 [s1 [w2 [H1 H2]]]].
      apply in_map_iff in H1 as [j [Ej Hj]]. injection Ej as _ <-. apply in_seq in Hj.
      destruct (IH _ _ _ (Hrest j (proj2 Hj)) _ H2) as [IH1 IH2]. cbn [snd] in IH1, IH2. split.
      + intros y [<-|Hy]; [|apply IH1, Hy].
        destruct (in_dec Nat.eq_dec x l) as [Hxl|Hxl]; [apply IH1, Hxl|].
        unfold indom. rewrite (IH2 x Hxl), upd_same. apply Hj.
      + intros y Hy. rewrite IH2 by (intros Hc; apply Hy; now right).
        apply upd_other. intros ->. apply Hy. now left.
  Qed.

  Lemma body_total_gen l : forall done stmts s,
    generated done l stmts s -> expect (exec_body stmts s) (fun _ => 1%Qc) = 1%Qc.
  Proof.
    induction l as [|x l IH]; intros done stmts s H.
    - rewrite (generated_nil _ _ _ H). apply expect_body_nil.
    - destruct (body_step _ _ _ _ _ H) as [rest [_ [Hlen [Hsum [He Hrest]]]]].
      rewrite He, expect_bind, (expect_ext _ _ (fun _ => 1%Qc)).
      + etransitivity; [|exact Hsum]. rewrite expect_map_seq, <- (qsum_nth_seq _ _ Hlen).
        apply qsum_map_ext. intros; ring.
      + intros ws Hin. apply in_map_iff in Hin as [j [<- Hj]]. apply in_seq in Hj.
        apply (IH _ _ _ (Hrest j (proj2 Hj))).
  Qed.

  (* the mass of "the variables of l take the values of a" is the product of the conditional
     probabilities of those variables *)
  Lemma body_mass_gen a : In a (all_assignments net) -> forall l done stmts s,
    generated done l stmts s -> NoDup l ->
    on done (fun y v => y < m /\ v = nth y a 0) s ->
    mass (exec_body stmts s) (fun s' => forallb (fun x => Nat.eqb (s' x) (nth x a 0)) l) =
    qprod (map (cond_prob net a) l).
  Proof.
    intros Ha. destruct (proj1 (all_assignments_spec net a) Ha) as [_ Hdom].
    induction l as [|x l IH]; intros done stmts s H Hnodup Hdone.
    - rewrite (generated_nil _ _ _ H). apply expect_body_nil.
    - destruct (body_step _ _ _ _ _ H) as [rest [Hxm [_ [_ [He Hrest]]]]].
      inversion Hnodup as [|? ? Hxl Hndl]; subst.
      unfold mass. rewrite He, expect_bind, expect_map_seq.
      rewrite (qsum_map_ext _ (fun j => (nth j (law x s) 0 *
                 (if Nat.eqb j (nth x a 0%nat) then qprod (map (cond_prob net a) l) else 0))%Qc)).
      + rewrite qsum_select by (specialize (Hdom x Hxm); lia). cbn [map qprod fold_right]. f_equal.
        apply law_cond_prob. intros p Hp. apply (Hdone p (pfirst_head _ _ _ _ (proj1 (proj2 H)) Hp)).
      + intros j Hj. apply in_seq in Hj. f_equal.
        (* later statements do not assign x: the event splits into [j = a_x] and the event of l *)
        rewrite (expect_ext _ _ (fun s' => ind (Nat.eqb j (nth x a 0) &&
                   forallb (fun y => Nat.eqb (s' y) (nth y a 0)) l))).
        2:{ intros ws Hws. cbn [forallb].
            destruct (body_support_gen l _ _ _ (Hrest j (proj2 Hj)) ws Hws) as [_ Hfr].
            rewrite (Hfr x Hxl), upd_same. reflexivity. }
        destruct (Nat.eqb_spec j (nth x a 0)) as [->|Hne]; cbn [andb].
        * apply (IH _ _ _ (Hrest _ (proj2 Hj)) Hndl).
          apply on_snoc; [exact Hdone | split; [exact Hxm | reflexivity]].
        * apply expect_zero. reflexivity.
  Qed.

  Lemma gen_body_ord body :
    gen_body net = Some body ->
    exists ord, Permutation ord (seq 0 m) /\ (forall x, In x ord <-> x < m) /\
                forall s, generated [] ord body s.
  Proof.
    rewrite gen_body_unfold. intros H. apply obind_Some in H as [ord [E H]]. exists ord.
    destruct (topo_sort_Some _ _ E) as [Hp Hpf]. rewrite map_length in Hp.
    split; [exact Hp|]. split.
    - intros x. split; intros Hx.
      + apply (Permutation_in _ Hp), in_seq in Hx. apply Hx.
      + apply (Permutation_in _ (Permutation_sym Hp)), in_seq. split; [apply Nat.le_0_l | exact Hx].
    - intros s. split; [exact H|]. split; [exact Hpf | intros y []].
  Qed.

  Theorem generated_body_joint body :
    gen_body net = Some body ->
    forall s0 a, In a (all_assignments net) ->
      mass (exec_body body s0) (fun s => nats_eqb (read m s) a) = joint_prob net a.
  Proof.
    intros Hg s0 a Ha. destruct (gen_body_ord body Hg) as [ord [Hperm [Hord Hgen]]].
    destruct (proj1 (all_assignments_spec net a) Ha) as [Hlen _].
    unfold joint_prob. rewrite <- (qprod_perm _ _ (Permutation_map (cond_prob net a) Hperm)).
    rewrite <- (body_mass_gen a Ha ord [] body s0 (Hgen s0)).
    - unfold mass. apply expect_ext. intros ws _. f_equal. apply eq_iff_eq_true.
      rewrite nats_eqb_eq, forallb_forall, (read_eq m (snd ws) a Hlen).
      split; intros H x Hx; apply Nat.eqb_eq, H, Hord, Hx.
    - apply (Permutation_NoDup (Permutation_sym Hperm)). apply seq_NoDup.
    - intros y [].
  Qed.

  (* Hnd is not needed: a network whose topological sort succeeds lists no parent twice *)
  Theorem generated_body_is_joint body :
    gen_body net = Some body ->
    forall s0 a, In a (all_assignments net) ->
      mass (exec_body body s0) (fun s => nats_eqb (read m s) a) = joint_prob net a.
  Proof using Hwf Hnd. exact (generated_body_joint body). Qed.

  Theorem generated_body_support body :
    gen_body net = Some body ->
    forall s0 ws, In ws (exec_body body s0) ->
      In (read m (snd ws)) (all_assignments net) /\ forall y, m <= y -> snd ws y = s0 y.
  Proof.
    intros Hg s0 ws Hin. destruct (gen_body_ord body Hg) as [ord [_ [Hord Hgen]]].
    destruct (body_support_gen ord [] body s0 (Hgen s0) ws Hin) as [H1 H2].
    split.
    - apply all_assignments_spec. split; [apply read_length|]. intros i Hi.
      rewrite read_nth by exact Hi. apply H1, Hord, Hi.
    - intros y Hy. apply H2. intros Hc. apply Hord in Hc. lia.
  Qed.

  Theorem generated_body_total body :
    gen_body net = Some body -> forall s0, expect (exec_body body s0) (fun _ => 1%Qc) = 1%Qc.
  Proof.
    intros Hg s0. destruct (gen_body_ord body Hg) as [ord [_ [_ Hgen]]].
    exact (body_total_gen ord [] body s0 (Hgen s0)).
  Qed.

  Theorem body_expect_by_enumeration body :
    gen_body net = Some body ->
    forall s0 (g : list nat -> Qc),
      expect (exec_body body s0) (fun s => g (read m s)) = joint_expect net g.
  Proof.
    intros Hg s0 g. set (D := exec_body body s0). set (AA := all_assignments net).
    rewrite (expect_ext D _ (fun s => qsum (map (fun a => (ind (nats_eqb (read m s) a) * g a)%Qc) AA))).
    2:{ intros ws Hin. symmetry. apply qsum_indicator; [apply all_assignments_NoDup|].
        apply (generated_body_support body Hg s0 ws Hin). }
    unfold expect.
    rewrite (qsum_map_ext _ (fun ws => qsum (map (fun a =>
               (fst ws * (ind (nats_eqb (read m (snd ws)) a) * g a))%Qc) AA)))
      by (intros ws _; symmetry; apply qsum_map_scale).
    rewrite (qsum_fubini (fun ws a => (fst ws * (ind (nats_eqb (read m (snd ws)) a) * g a))%Qc) D AA).
    unfold joint_expect. fold AA. apply qsum_map_ext. intros a Ha.
    rewrite <- (generated_body_joint body Hg s0 a Ha). fold D. unfold mass, expect.
    rewrite Qcmult_comm, <- qsum_map_scale. apply qsum_map_ext. intros ws _. ring.
  Qed.
End Joint.

Lemma cond_true_ev_holds m c s :
  (forall x v, In (x, v) c -> x < m) -> cond_true c s = ev_holds c (read m s).
Proof.
  intros H. unfold cond_true, ev_holds.
  induction c as [|[x v] c IH]; cbn [forallb fst snd]; [reflexivity|].
  rewrite read_nth by (apply (H x v); now left). rewrite IH; [reflexivity|].
  intros x' v' Hin. apply (H x' v'). now right.
Qed.

Lemma body_evidence_mass net body c s :
  wf_network net -> gen_body net = Some body -> (forall x v, In (x, v) c -> x < length net) ->
  mass (exec_body body s) (cond_true c) = joint_expect net (fun a => ind (ev_holds c a)).
Proof.
  intros Hwf Hb Hcm. rewrite <- (body_expect_by_enumeration net Hwf body Hb s).
  apply expect_ext. intros ws _. rewrite (cond_true_ev_holds (length net) c _ Hcm). reflexivity.
Qed.

Lemma iter_total b n d :
  (forall s, expect (exec_body b s) (fun _ => 1%Qc) = 1%Qc) ->
  expect (iter_body b n d) (fun _ => 1%Qc) = expect d (fun _ => 1%Qc).
Proof.
  intros H. induction n as [|n IH]; cbn [iter_body]; [reflexivity|].
  rewrite expect_bind. rewrite (expect_ext _ _ (fun _ => 1%Qc)) by (intros; apply H). exact IH.
Qed.

(* an expectation that one iteration gives the same value C from every state is C after
   every positive number of iterations *)
Lemma run_last_const p n f C :
  (forall s, expect (exec_body (g_body p) s) (fun _ => 1%Qc) = 1%Qc) ->
  (forall s, expect (exec_body (g_body p) s) f = C) ->
  expect (run p (S n)) f = C.
Proof.
  intros Htot H. unfold run. cbn [iter_body]. rewrite expect_bind.
  rewrite (expect_ext _ _ (fun _ => C)) by (intros; apply H).
  rewrite expect_const, iter_total, expect_single by exact Htot. ring.
Qed.

(* exact inference: after every positive number of iterations, E[inf^k] and E[ind] of the
   generated program are the enumeration sums E[X_t^k ; evidence] and P(evidence) under the
   joint law of the network *)
Theorem exact_inference_program net tn ev p :
  wf_network net -> codegen net (QExact tn ev) = Some p ->
  exists c t, resolve_evidence net ev = Some c /\ find_nvar net tn = Some t /\
    forall n k,
      expect (run p (S n)) (fun s => qpow (qnat (s (S (length net)))) (S k)) =
        joint_expect net (fun a => (ind (ev_holds c a) * qpow (qnat (nth t a 0%nat)) (S k))%Qc) /\
      expect (run p (S n)) (fun s => qnat (s (length net))) =
        joint_expect net (fun a => ind (ev_holds c a)).
Proof.
  intros Hwf Hcg.
  destruct (codegen_exact_shape _ _ _ _ Hcg) as [body [c [t [Hb [Hc [_ [Ht [Htm [Hcm Hp]]]]]]]]].
  exists c, t. split; [exact Hc|]. split; [exact Ht|]. intros n k.
  assert (Htot : forall s, expect (exec_body (g_body p) s) (fun _ => 1%Qc) = 1%Qc).
  { intros s. rewrite Hp, exec_body_app.
    rewrite (expect_ext _ _ (fun _ => 1%Qc)) by (intros; apply exec_qs_exact).
    apply (generated_body_total net Hwf body Hb). }
  split; apply (run_last_const p n _ _ Htot); intros s; rewrite Hp, exec_body_app.
  - rewrite <- (body_expect_by_enumeration net Hwf body Hb s).
    apply expect_ext. intros ws _. rewrite (exact_inf_state (length net) c t Htm).
    rewrite (cond_true_ev_holds (length net) c _ Hcm), read_nth by exact Htm. reflexivity.
  - rewrite <- (body_evidence_mass net body c s Hwf Hb Hcm).
    apply expect_ext. intros ws _. apply (exact_ind_state (length net) c t Htm).
Qed.

(* sampling time: the expected count after n iterations is the geometric sum in
   1 - P(evidence), P(evidence) being the enumeration sum under the joint law *)
Theorem sampling_time_program net ev p :
  wf_network net -> codegen net (QSample ev) = Some p ->
  exists c, resolve_evidence net ev = Some c /\
    forall n, expect (run p n) (fun s => qnat (s (length net))) =
              geom (1 - joint_expect net (fun a => ind (ev_holds c a))) n.
Proof.
  intros Hwf Hcg.
  destruct (codegen_sample_shape _ _ _ Hcg) as [body [c [Hb [Hc [_ [Hcm [Hp [Hi1 Hi2]]]]]]]].
  exists c. split; [exact Hc|]. intros n. unfold run. rewrite Hp.
  apply (sampling_count_n body (length net) c (joint_expect net (fun a => ind (ev_holds c a)))).
  - intros s. apply (body_evidence_mass net body c s Hwf Hb Hcm).
  - apply (generated_body_total net Hwf body Hb).
  - intros s ws Hin.
    destruct (generated_body_support net Hwf body Hb s ws Hin) as [_ Hfr]. split; apply Hfr; lia.
  - exact Hi1.
  - exact Hi2.
Qed.
