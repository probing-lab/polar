(* Verified validator for closed forms of linear recurrence systems (C04; C01, C03, C06,
   C09, C10, C14, C17, C18, C20 build on it):  x(n+1) = A x(n),  x(0) = v.
   The candidate is a vector F of exponential polynomials, a cut-off n0 and the listed
   special values for n < n0.  [check_solution] is executable; [check_solution_sound]
   says acceptance implies equality with A^n v for EVERY n. *)
From Coq Require Import List Bool Arith Lia Ring.
From Polar Require Import CRing ExpPoly.
Import ListNotations.

Section CF.
  Variable R : cring.
  Add Ring Rring : (rth R).
  Local Open Scope cr_scope.
  Notation "0" := (@r0 R).

  Definition vec := list R.
  Definition mat := list (list R).

  Fixpoint dot (r : list R) (x : vec) : R :=
    match r, x with a :: r', b :: x' => a * b + dot r' x' | _, _ => 0 end.
  Definition mvec (A : mat) (x : vec) : vec := map (fun r => dot r x) A.
  Fixpoint iter_mat (A : mat) (n : nat) (v : vec) : vec :=
    match n with O => v | S n => mvec A (iter_mat A n v) end.

  Fixpoint vec_eqb (x y : vec) : bool :=
    match x, y with
    | [], [] => true
    | a :: x', b :: y' => reqb a b && vec_eqb x' y'
    | _, _ => false
    end.
  Lemma vec_eqb_eq x y : vec_eqb x y = true -> x = y.
  Proof.
    revert y; induction x as [|a x IH]; intros [|b y]; simpl; intros H; try discriminate; auto.
    apply andb_true_iff in H; destruct H as [H1 H2].
    apply reqb_eq in H1; subst; f_equal; auto.
  Qed.

  (* sum_j a_j * F_j as an exponential polynomial *)
  Fixpoint edot (r : list R) (F : list (epoly R)) : epoly R :=
    match r, F with a :: r', f :: F' => eadd (escale a f) (edot r' F') | _, _ => [] end.
  Definition evalF (F : list (epoly R)) (n : nat) : vec := map (fun f => eeval f n) F.

  Lemma eeval_edot r F n : eeval (edot r F) n = dot r (evalF F n).
  Proof.
    revert F; induction r as [|a r IH]; intros [|f F]; simpl; try reflexivity.
    fold (eadd (escale a f) (edot r F)). rewrite eeval_eadd, eeval_escale, IH. reflexivity.
  Qed.

  (* rows of A against components of F: shift F_i = sum_j A_ij F_j.  [Fi] is consumed in step
     with the rows, [F] stays whole for the dot products; the call is [check_rec A F F] *)
  Fixpoint check_rec (A : mat) (Fi F : list (epoly R)) : bool :=
    match A, Fi with
    | [], [] => true
    | r :: A', f :: Fi' => eeq (eshift f) (edot r F) && check_rec A' Fi' F
    | _, _ => false
    end.

  Lemma check_rec_sound A Fi F : check_rec A Fi F = true ->
    forall n, evalF Fi (S n) = mvec A (evalF F n).
  Proof.
    revert Fi; induction A as [|r A IH]; intros [|f Fi]; simpl; intros H n; try discriminate; auto.
    apply andb_true_iff in H; destruct H as [H1 H2].
    f_equal; [| apply IH; exact H2].
    pose proof (eeq_sound _ _ _ H1 n) as E.
    rewrite eeval_eshift, eeval_edot in E. exact E.
  Qed.

  (* special values: sp_i = A^i v for i = 0 .. length sp - 1 *)
  Fixpoint check_special (A : mat) (cur : vec) (sp : list vec) : bool :=
    match sp with
    | [] => true
    | s :: sp' => vec_eqb s cur && check_special A (mvec A cur) sp'
    end.

  Lemma iter_mat_shift A n v : iter_mat A n (mvec A v) = mvec A (iter_mat A n v).
  Proof. induction n; simpl; [reflexivity | rewrite IHn; reflexivity]. Qed.

  Lemma check_special_sound A sp : forall cur, check_special A cur sp = true ->
    forall i, i < length sp -> nth i sp [] = iter_mat A i cur.
  Proof.
    induction sp as [|s sp IH]; simpl; intros cur H i Hi; [lia|].
    apply andb_true_iff in H; destruct H as [H1 H2]. apply vec_eqb_eq in H1.
    destruct i as [|i]; [exact H1|].
    rewrite (IH _ H2 i) by lia. simpl. apply iter_mat_shift.
  Qed.

  (* the general part is anchored at n = length sp, the first index it is used for, and
     [check_rec] carries it to every later n; below that index it need not hold *)
  Definition check_solution (A : mat) (v : vec) (F : list (epoly R)) (sp : list vec) : bool :=
    check_special A v sp
    && check_rec A F F
    && vec_eqb (evalF F (length sp)) (iter_mat A (length sp) v).

  (* the function of n that Polar's  Piecewise((s0, n<=0), ..., (general, True))  denotes *)
  Definition pw_eval (F : list (epoly R)) (sp : list vec) (n : nat) : vec :=
    if n <? length sp then nth n sp [] else evalF F n.

  Lemma pw_eval_special F sp n : n < length sp -> pw_eval F sp n = nth n sp [].
  Proof. intros H. unfold pw_eval. apply Nat.ltb_lt in H. rewrite H. reflexivity. Qed.
  Lemma pw_eval_general F sp n : length sp <= n -> pw_eval F sp n = evalF F n.
  Proof. intros H. unfold pw_eval. apply Nat.ltb_ge in H. rewrite H. reflexivity. Qed.

  Theorem check_solution_sound A v F sp :
    check_solution A v F sp = true -> forall n, pw_eval F sp n = iter_mat A n v.
  Proof.
    unfold check_solution; intros H n.
    apply andb_true_iff in H; destruct H as [H H3].
    apply andb_true_iff in H; destruct H as [H1 H2].
    apply vec_eqb_eq in H3.
    destruct (Nat.lt_ge_cases n (length sp)) as [E|E].
    - rewrite pw_eval_special by exact E. apply check_special_sound; assumption.
    - rewrite pw_eval_general by exact E.
      induction E as [|m Hm IH]; [exact H3|].
      rewrite (check_rec_sound _ _ _ H2 m), IH. reflexivity.
  Qed.

  (* two accepted closed forms for the same system agree at every n (C04 "both solvers
     denote the same sequence", C17) *)
  Corollary accepted_agree A v F sp F' sp' :
    check_solution A v F sp = true -> check_solution A v F' sp' = true ->
    forall n, pw_eval F sp n = pw_eval F' sp' n.
  Proof.
    intros H H' n. rewrite (check_solution_sound _ _ _ _ H n), (check_solution_sound _ _ _ _ H' n).
    reflexivity.
  Qed.
End CF.

Arguments dot {R} _ _. Arguments mvec {R} _ _. Arguments iter_mat {R} _ _ _.
Arguments evalF {R} _ _. Arguments check_solution {R} _ _ _ _. Arguments pw_eval {R} _ _ _.
Arguments vec_eqb {R} _ _.

Section Vectors.
  Context {R : cring}.
  Add Ring Rring' : (rth R).
  Local Open Scope cr_scope.

  Lemma dot_app (r1 r2 x1 x2 : list R) : length r1 = length x1 ->
    dot (r1 ++ r2) (x1 ++ x2) = dot r1 x1 + dot r2 x2.
  Proof.
    revert x1; induction r1 as [|a r1 IH]; intros [|b x1] H; simpl in *; try discriminate.
    - ring.
    - rewrite IH by lia. ring.
  Qed.

  Lemma mvec_length (A : list (list R)) x : length (mvec A x) = length A.
  Proof. apply map_length. Qed.

  Lemma iter_mat_length (A : list (list R)) n x :
    length A = length x -> length (iter_mat A n x) = length x.
  Proof. intros H. destruct n; simpl; [reflexivity | rewrite mvec_length; exact H]. Qed.

  Lemma iter_mat_inv (A : list (list R)) (Inv : list R -> Prop) :
    (forall y, Inv y -> Inv (mvec A y)) -> forall v, Inv v -> forall n, Inv (iter_mat A n v).
  Proof. intros H v Hv n. induction n; simpl; auto. Qed.
End Vectors.

(* Simulation: if [h] carries one step of A to one step of M on the vectors satisfying an
   invariant of A, it carries the whole A-iteration to the M-iteration. *)
Lemma iter_mat_sim {R S : cring} (Inv : list S -> Prop) (h : list S -> list R)
      (A : list (list S)) (M : list (list R)) :
  (forall y, Inv y -> Inv (mvec A y)) -> (forall y, Inv y -> mvec M (h y) = h (mvec A y)) ->
  forall v, Inv v -> forall n, iter_mat M n (h v) = h (iter_mat A n v).
Proof.
  intros HI Hh v Hv n. induction n as [|n IH]; [reflexivity|].
  cbn [iter_mat]. rewrite IH. apply Hh, iter_mat_inv; assumption.
Qed.
