(* C19 — token-level reference grammar of Polar's arithmetic expressions with Python
   operator precedence, and the round-trip theorem  parse (print e) = e  for EVERY spelling
   of an AST (any amount of redundant parentheses), in particular for the fully
   parenthesising printer and for the minimal-parentheses printer.

   Grammar (Python reference, "6.17 Operator precedence"):
       sum    ::= term  (("+" | "-") term)*              left associative
       term   ::= factor (("*" | "/") factor)*            left associative
       factor ::= "-" factor | power                      unary minus looser than "**"
       power  ::= atom ["**" factor]                      right associative
       atom   ::= NUM | ID | "(" sum ")"
   Polar hands the re-joined token string to the CAS parser (arithmetic_transformer.py);
   the correspondence check K ties this grammar to what that parser does.

   The parser is structurally recursive on fuel; every fuel decrement is paired with the
   consumption of a token, so fuel = length of the token list is always sufficient
   (this is part of the theorem; the out-of-fuel result [None] is excluded by it). *)
From Coq Require Import String List NArith Arith Bool Lia.
Import ListNotations.

Inductive scop := Oeq | Ole | Oge | Olt | Ogt | One.

Inductive tok :=
| TNum (m : N) (k : nat)        (* decimal literal with mantissa m and k fractional digits: m / 10^k *)
| TId (x : string)
| TPlus | TMinus | TStar | TSlash | TPow | TLp | TRp
| TTrue | TFalse | TNot | TAnd | TOr | TCop (c : scop).

Inductive sx :=
| XNum (m : N) (k : nat)
| XVar (x : string)
| XNeg (a : sx)
| XAdd (a b : sx) | XSub (a b : sx)
| XMul (a b : sx) | XDiv (a b : sx)
| XPow (a b : sx).

Definition res := option (sx * list tok).
Definition parser := list tok -> res.

Definition addop (t : tok) : option (sx -> sx -> sx) :=
  match t with TPlus => Some XAdd | TMinus => Some XSub | _ => None end.
Definition mulop (t : tok) : option (sx -> sx -> sx) :=
  match t with TStar => Some XMul | TSlash => Some XDiv | _ => None end.

(* left-associative operator chains *)
Section Loop.
  Variable opf : tok -> option (sx -> sx -> sx).
  Variable sub : nat -> parser.      (* operand parser (receives the remaining loop fuel) *)

  Fixpoint loop (n : nat) (acc : sx) (ts : list tok) {struct n} : res :=
    match ts with
    | [] => Some (acc, [])
    | t :: r =>
      match opf t with
      | None => Some (acc, ts)
      | Some op =>
        match n with
        | O => None
        | S n' => match sub n' r with
                  | Some (b, r') => loop n' (op acc b) r'
                  | None => None
                  end
        end
      end
    end.

  Definition chain (n : nat) (ts : list tok) : res :=
    match sub n ts with Some (a, r) => loop n a r | None => None end.
End Loop.

Definition term (fac : parser) : nat -> parser := chain mulop (fun _ => fac).
Definition sum (fac : parser) : nat -> parser := chain addop (term fac).

(* one layer of factor / power / atom, open in the recursive calls *)
Definition atom_of (sm : parser) (ts : list tok) : res :=
  match ts with
  | TNum m k :: r => Some (XNum m k, r)
  | TId x :: r => Some (XVar x, r)
  | TLp :: r => match sm r with Some (a, TRp :: r') => Some (a, r') | _ => None end
  | _ => None
  end.

Definition power_of (sm fc : parser) (ts : list tok) : res :=
  match atom_of sm ts with
  | Some (a, TPow :: r) => match fc r with Some (b, r') => Some (XPow a b, r') | None => None end
  | x => x
  end.

Definition factor_of (sm fc : parser) (ts : list tok) : res :=
  match ts with
  | TMinus :: r => match fc r with Some (a, r') => Some (XNeg a, r') | None => None end
  | _ => power_of sm fc ts
  end.

Fixpoint factor (f : nat) : parser :=
  match f with
  | O => fun _ => None
  | S f' => let fc := factor f' in factor_of (sum fc f') fc
             (* [let]: under call-by-value evaluation (vm_compute) the parser with less fuel is
                built once per level, not twice *)
  end.

(* prefix parser and whole-list parser, fuel = number of tokens *)
Definition esum (ts : list tok) : res := sum (factor (length ts)) (length ts) ts.
Definition parse_expr (ts : list tok) : option sx :=
  match esum ts with Some (e, []) => Some e | _ => None end.

Definition ple (p q : parser) : Prop := forall ts x, p ts = Some x -> q ts = Some x.

Lemma ple_refl p : ple p p.
Proof. intros ts x H; exact H. Qed.

Lemma loop_mono opf sub sub' :
  (forall n n', n <= n' -> ple (sub n) (sub' n')) ->
  forall n n', n <= n' -> forall acc, ple (loop opf sub n acc) (loop opf sub' n' acc).
Proof.
  intros Hs n. induction n as [|n IH]; intros n' Hle acc ts x H.
  - destruct ts as [|t r]; simpl in H.
    + destruct n'; simpl; exact H.
    + destruct n'; simpl; destruct (opf t); try exact H; discriminate H.
  - destruct n' as [|n']; [lia|].
    destruct ts as [|t r]; simpl in *; [exact H|].
    destruct (opf t) as [op|]; [|exact H].
    destruct (sub n r) as [[b r']|] eqn:E; [|discriminate H].
    rewrite (Hs n n' ltac:(lia) r _ E). apply IH; [lia | exact H].
Qed.

Lemma chain_mono opf sub sub' :
  (forall n n', n <= n' -> ple (sub n) (sub' n')) ->
  forall n n', n <= n' -> ple (chain opf sub n) (chain opf sub' n').
Proof.
  intros Hs n n' Hle ts x H. unfold chain in *.
  destruct (sub n ts) as [[a r]|] eqn:E; [|discriminate H].
  rewrite (Hs n n' Hle ts _ E). eapply loop_mono; eauto.
Qed.

Lemma term_mono fac fac' : ple fac fac' -> forall n n', n <= n' -> ple (term fac n) (term fac' n').
Proof. intros H n n' Hle. apply chain_mono; [intros; exact H | exact Hle]. Qed.

Lemma sum_mono fac fac' : ple fac fac' -> forall n n', n <= n' -> ple (sum fac n) (sum fac' n').
Proof. intros H n n' Hle. apply chain_mono; [intros; apply term_mono; assumption | exact Hle]. Qed.

Lemma atom_of_mono sm sm' : ple sm sm' -> ple (atom_of sm) (atom_of sm').
Proof.
  intros H ts x Hx. destruct ts as [|t r]; [discriminate Hx|].
  destruct t; simpl in *; try exact Hx; try discriminate Hx.
  destruct (sm r) as [[a r']|] eqn:E; [|discriminate Hx].
  rewrite (H r _ E). exact Hx.
Qed.

Lemma power_of_mono sm sm' fc fc' : ple sm sm' -> ple fc fc' -> ple (power_of sm fc) (power_of sm' fc').
Proof.
  intros Hs Hf ts x Hx. unfold power_of in *.
  destruct (atom_of sm ts) as [[a r]|] eqn:E; [|discriminate Hx].
  rewrite (atom_of_mono sm sm' Hs ts _ E).
  destruct r as [|t r']; [exact Hx|].
  destruct t; try exact Hx.
  destruct (fc r') as [[b r'']|] eqn:E2; [|discriminate Hx].
  rewrite (Hf r' _ E2). exact Hx.
Qed.

Lemma factor_of_mono sm sm' fc fc' : ple sm sm' -> ple fc fc' -> ple (factor_of sm fc) (factor_of sm' fc').
Proof.
  intros Hs Hf ts x Hx. pose proof (power_of_mono sm sm' fc fc' Hs Hf ts x) as Hp.
  destruct ts as [|t r]; [apply Hp; exact Hx|].
  destruct t; try (apply Hp; exact Hx).
  simpl in *. destruct (fc r) as [[a r']|] eqn:E; [|discriminate Hx].
  rewrite (Hf r _ E). exact Hx.
Qed.

Lemma factor_mono : forall f f', f <= f' -> ple (factor f) (factor f').
Proof.
  induction f as [|f IH]; intros f' Hle.
  - intros ts x H; discriminate H.
  - destruct f' as [|f']; [lia|]. simpl.
    apply factor_of_mono; [apply sum_mono; [|lia] |]; apply IH; lia.
Qed.

Definition paren (ts : list tok) : list tok := TLp :: ts ++ [TRp].

(* [pr l e ts]: the token list ts is a spelling of e that may stand where the grammar
   expects level l (0 sum, 1 term, 2 factor, 3 power, 4 atom).  Parentheses may be added
   anywhere (constructor [pr_paren]); they are required exactly where a sub-term of lower
   level stands in a position of higher level. *)
Inductive pr : nat -> sx -> list tok -> Prop :=
| pr_num l m k : pr l (XNum m k) [TNum m k]
| pr_var l x : pr l (XVar x) [TId x]
| pr_paren l e ts : pr 0 e ts -> pr l e (TLp :: ts ++ [TRp])
| pr_addop l t op a b ta tb : l <= 0 -> addop t = Some op ->
    pr 0 a ta -> pr 1 b tb -> pr l (op a b) (ta ++ t :: tb)
| pr_mulop l t op a b ta tb : l <= 1 -> mulop t = Some op ->
    pr 1 a ta -> pr 2 b tb -> pr l (op a b) (ta ++ t :: tb)
| pr_neg l a ta : l <= 2 -> pr 2 a ta -> pr l (XNeg a) (TMinus :: ta)
| pr_pow l a b ta tb : l <= 3 -> pr 4 a ta -> pr 2 b tb -> pr l (XPow a b) (ta ++ TPow :: tb).

Lemma pr_weaken l e ts : pr l e ts -> forall l', l' <= l -> pr l' e ts.
Proof.
  induction 1; intros l' Hl.
  - constructor.
  - constructor.
  - constructor; assumption.
  - eapply pr_addop; eauto; lia.
  - eapply pr_mulop; eauto; lia.
  - apply pr_neg; [lia | assumption].
  - apply pr_pow; [lia | assumption | assumption].
Qed.

(* what may follow a complete sub-expression *)
Definition hd_ok (P : tok -> bool) (ts : list tok) : Prop :=
  match ts with [] => True | t :: _ => P t = false end.
Definition is_pow (t : tok) : bool := match t with TPow => true | _ => false end.
Definition is_mul (t : tok) : bool := match mulop t with Some _ => true | None => false end.
Definition is_add (t : tok) : bool := match addop t with Some _ => true | None => false end.
Definition is_pm (t : tok) : bool := is_pow t || is_mul t.
Definition is_arith (t : tok) : bool := is_pow t || is_mul t || is_add t.

Lemma hd_ok_orb (P Q : tok -> bool) ts : hd_ok (fun t => P t || Q t) ts -> hd_ok P ts /\ hd_ok Q ts.
Proof. destruct ts as [|t r]; [split; exact I | exact (proj1 (orb_false_iff _ _))]. Qed.

Lemma loop_stop opf sub n acc ts :
  hd_ok (fun t => match opf t with Some _ => true | None => false end) ts ->
  loop opf sub n acc ts = Some (acc, ts).
Proof.
  destruct ts as [|t r]; simpl; intros H.
  - destruct n; reflexivity.
  - destruct n; simpl; destruct (opf t); try reflexivity; discriminate H.
Qed.

Lemma loop_step opf sub m acc t r op b r' k :
  opf t = Some op -> sub m r = Some (b, r') -> loop opf sub m (op acc b) r' = Some k ->
  loop opf sub (S m) acc (t :: r) = Some k.
Proof. intros H1 H2 H3. simpl. rewrite H1, H2. exact H3. Qed.

Lemma paren_app (ts rest : list tok) : paren ts ++ rest = TLp :: ts ++ TRp :: rest.
Proof. unfold paren. cbn [app]. rewrite <- app_assoc. reflexivity. Qed.
Lemma paren_length (ts : list tok) : length (paren ts) = S (S (length ts)).
Proof. unfold paren. cbn [length]. rewrite app_length, Nat.add_1_r. reflexivity. Qed.

(* [reads p stop e ts]: the parser p consumes exactly ts and yields e, whatever follows, as
   long as that does not begin with a token of [stop]. *)
Definition reads {A} (p : list tok -> option (A * list tok)) (stop : tok -> bool) (e : A) (ts : list tok) : Prop :=
  forall rest, hd_ok stop rest -> p (ts ++ rest) = Some (e, rest).

Section Chain.
  Variable opf : tok -> option (sx -> sx -> sx).
  Variable sub : nat -> parser.
  Hypothesis sub_mono : forall n n', n <= n' -> ple (sub n) (sub n').
  Variable stop : tok -> bool.      (* what may not follow an operand *)

  (* [continues e ts]: on ts followed by rest the chain does whatever its loop does on rest
     with e as the operand read so far; n' is the fuel that loop needs, ts needs its length *)
  Definition continues (e : sx) (ts : list tok) : Prop :=
    forall n n' rest k, hd_ok stop rest -> loop opf sub n' e rest = Some k -> n' + length ts <= n ->
      chain opf sub n (ts ++ rest) = Some k.

  Lemma reads_continues e ts : reads (sub (length ts)) stop e ts -> continues e ts.
  Proof.
    intros H n n' rest k Hr Hloop Hn. unfold chain.
    rewrite (sub_mono (length ts) n ltac:(lia) _ _ (H rest Hr)).
    apply (loop_mono opf sub sub sub_mono n' n ltac:(lia) _ _ _ Hloop).
  Qed.

  Lemma continues_step a ta t op b tb :
    continues a ta -> opf t = Some op -> stop t = false -> reads (sub (length tb)) stop b tb ->
    continues (op a b) (ta ++ t :: tb).
  Proof.
    intros Ha Hop Ht Hb n n' rest k Hr Hloop Hn.
    rewrite app_length in Hn. cbn [length] in Hn. rewrite <- app_assoc. cbn [app].
    apply (Ha n (S (n' + length tb))); [exact Ht | | lia].
    apply (loop_step _ _ _ _ _ _ _ b rest _ Hop).
    - apply (sub_mono (length tb)); [lia | exact (Hb rest Hr)].
    - apply (loop_mono opf sub sub sub_mono n' (n' + length tb) ltac:(lia) _ _ _ Hloop).
  Qed.

  Lemma continues_reads e ts n : continues e ts -> length ts <= n ->
    reads (chain opf sub n) (fun t => stop t || match opf t with Some _ => true | None => false end) e ts.
  Proof.
    intros H Hn rest Hr. apply hd_ok_orb in Hr. destruct Hr as [Hs Ho].
    apply (H n 0 rest); [exact Hs | apply loop_stop; exact Ho | exact Hn].
  Qed.
End Chain.

(* What [pr_P] shows of a spelling ts of e, one invariant for each parser that may meet it
   ([Ac] atom, [Fc] factor, [Tc] the loop of term, [Sc] the loop of sum), ts never longer than
   the fuel.  [Ac] says besides that ts does not begin with a unary minus: [factor_of] then
   hands it to [power_of] unchanged, which is where the base of a power has to be read. *)
Definition Ac (e : sx) (ts : list tok) : Prop :=
  (forall f rest, length ts <= S f -> atom_of (sum (factor f) f) (ts ++ rest) = Some (e, rest)) /\
  (forall sm fc rest, factor_of sm fc (ts ++ rest) = power_of sm fc (ts ++ rest)).

Definition Fc (e : sx) (ts : list tok) : Prop :=
  forall f, length ts <= f -> reads (factor f) is_pow e ts.

Definition Tc (e : sx) (ts : list tok) : Prop :=
  forall f, length ts <= f -> continues mulop (fun _ => factor f) is_pow e ts.

Definition Sc (e : sx) (ts : list tok) : Prop :=
  forall f, length ts <= f -> continues addop (term (factor f)) is_pm e ts.

(* the invariant of level l (0 sum, 1 term, 2 and 3 factor, 4 and above atom) *)
Definition P (l : nat) : sx -> list tok -> Prop :=
  match l with 0 => Sc | 1 => Tc | 2 | 3 => Fc | _ => Ac end.

Lemma Tc_term e ts f n : Tc e ts -> length ts <= f -> length ts <= n -> reads (term (factor f) n) is_pm e ts.
Proof. intros HT Hf Hn. exact (continues_reads _ _ _ _ _ n (HT f Hf) Hn). Qed.

Lemma Sc_sum e ts f n : Sc e ts -> length ts <= f -> length ts <= n -> reads (sum (factor f) n) is_arith e ts.
Proof. intros HS Hf Hn. exact (continues_reads _ _ _ _ _ n (HS f Hf) Hn). Qed.

Lemma Ac_Fc e ts : Ac e ts -> Fc e ts.
Proof.
  intros [HA HB] f Hlen rest Hr.
  destruct f as [|f].
  - destruct ts; [|simpl in Hlen; lia].
    specialize (HA 0 [] ltac:(simpl; lia)). simpl in HA. discriminate HA.
  - simpl. rewrite HB. unfold power_of. rewrite (HA f rest ltac:(lia)).
    destruct rest as [|t r]; [reflexivity|].
    destruct t; simpl in Hr; try reflexivity; discriminate Hr.
Qed.

Lemma Fc_Tc e ts : Fc e ts -> Tc e ts.
Proof. intros HF f Hf. apply reads_continues; [intros; apply ple_refl | exact (HF f Hf)]. Qed.

Lemma Tc_Sc e ts : Tc e ts -> Sc e ts.
Proof.
  intros HT f Hf. apply reads_continues.
  - intros n n'. apply term_mono, ple_refl.
  - apply Tc_term; [exact HT | exact Hf | apply le_n].
Qed.

Lemma P_of_Ac l e ts : Ac e ts -> P l e ts.
Proof. destruct l as [|[|[|[|l]]]]; cbn [P]; auto using Ac_Fc, Fc_Tc, Tc_Sc. Qed.

Lemma P_weaken l l' e ts : l' <= l -> P l e ts -> P l' e ts.
Proof.
  destruct l as [|[|[|[|l]]]], l' as [|[|[|[|l']]]]; cbn [P]; intros Hl H; try lia;
    auto using Ac_Fc, Fc_Tc, Tc_Sc.
Qed.

Lemma mulop_not_pow t op : mulop t = Some op -> is_pow t = false.
Proof. destruct t; simpl; intros H; try reflexivity; discriminate H. Qed.
Lemma addop_not_pm t op : addop t = Some op -> is_pm t = false.
Proof. destruct t; simpl; intros H; try reflexivity; discriminate H. Qed.

Theorem pr_P : forall l e ts, pr l e ts -> P l e ts.
Proof.
  induction 1 as [l m k | l x | l e ts Hpr IH | l t op a b ta tb Hl Hop Ha IHa Hb IHb
                  | l t op a b ta tb Hl Hop Ha IHa Hb IHb | l a ta Hl Ha IHa | l a b ta tb Hl Ha IHa Hb IHb].
  - apply P_of_Ac. split; intros; reflexivity.
  - apply P_of_Ac. split; intros; reflexivity.
  - (* the sum inside is read up to ")" *)
    fold (paren ts). apply P_of_Ac. split; [|intros; reflexivity].
    intros f rest Hlen. rewrite paren_length in Hlen.
    rewrite paren_app. cbn [atom_of].
    rewrite (Sc_sum e ts f f IH ltac:(lia) ltac:(lia) (TRp :: rest) eq_refl). reflexivity.
  - apply (P_weaken 0 l _ _ Hl). intros f Hf. rewrite app_length in Hf. cbn [length] in Hf.
    apply continues_step.
    + intros n n'. apply term_mono, ple_refl.
    + apply IHa. lia.
    + exact Hop.
    + exact (addop_not_pm _ _ Hop).
    + apply Tc_term; [exact IHb | lia | apply le_n].
  - apply (P_weaken 1 l _ _ Hl). intros f Hf. rewrite app_length in Hf. cbn [length] in Hf.
    apply continues_step.
    + intros; apply ple_refl.
    + apply IHa. lia.
    + exact Hop.
    + exact (mulop_not_pow _ _ Hop).
    + apply IHb. lia.
  - apply (P_weaken 2 l _ _ Hl). intros f Hlen rest Hr. cbn [length] in Hlen.
    destruct f as [|f]; [lia|].
    simpl. rewrite (IHa f ltac:(lia) rest Hr). reflexivity.
  - apply (P_weaken 3 l _ _ Hl). destruct IHa as [HA1 HA2].
    intros f Hlen rest Hr. rewrite app_length in Hlen. cbn [length] in Hlen.
    destruct f as [|f]; [lia|].
    simpl. rewrite <- app_assoc. simpl. rewrite HA2. unfold power_of.
    rewrite (HA1 f (TPow :: tb ++ rest) ltac:(lia)).
    rewrite (IHb f ltac:(lia) rest Hr). reflexivity.
Qed.

Theorem esum_spelling : forall e ts rest, pr 0 e ts -> hd_ok is_arith rest ->
  esum (ts ++ rest) = Some (e, rest).
Proof.
  intros e ts rest H Hr. unfold esum.
  apply (Sc_sum e ts _ _ (pr_P _ _ _ H)); [| | exact Hr]; rewrite app_length; lia.
Qed.

Theorem parse_spelling : forall e ts, pr 0 e ts -> parse_expr ts = Some e.
Proof.
  intros e ts H. pose proof (esum_spelling e ts [] H I) as E. rewrite app_nil_r in E.
  unfold parse_expr. rewrite E. reflexivity.
Qed.

Lemma sum_factor_mono f n f' n' : f <= f' -> n <= n' -> ple (sum (factor f) n) (sum (factor f') n').
Proof. intros Hf Hn. apply sum_mono; [apply factor_mono; exact Hf | exact Hn]. Qed.

(* partial correctness of the prefix parser on spellings, for ANY fuel *)
Lemma sum_spelling_any_fuel e ts rest f n x :
  pr 0 e ts -> hd_ok is_arith rest -> sum (factor f) n (ts ++ rest) = Some x -> x = (e, rest).
Proof.
  intros H Hr Hx.
  pose proof (esum_spelling e ts rest H Hr) as He. unfold esum in He.
  set (L := length (ts ++ rest)) in *.
  pose proof (sum_factor_mono f n (max f L) (max n L) ltac:(lia) ltac:(lia) _ _ Hx) as H1.
  pose proof (sum_factor_mono L L (max f L) (max n L) ltac:(lia) ltac:(lia) _ _ He) as H2.
  rewrite H1 in H2. inversion H2. reflexivity.
Qed.

(* fully parenthesising: every compound sub-expression is wrapped *)
Fixpoint print_full (e : sx) : list tok :=
  match e with
  | XNum m k => [TNum m k]
  | XVar x => [TId x]
  | XNeg a => paren (TMinus :: print_full a)
  | XAdd a b => paren (print_full a ++ TPlus :: print_full b)
  | XSub a b => paren (print_full a ++ TMinus :: print_full b)
  | XMul a b => paren (print_full a ++ TStar :: print_full b)
  | XDiv a b => paren (print_full a ++ TSlash :: print_full b)
  | XPow a b => paren (print_full a ++ TPow :: print_full b)
  end.

Lemma print_full_pr : forall e l, pr l e (print_full e).
Proof.
  induction e; intros l; simpl; try (apply pr_paren).
  - constructor.
  - constructor.
  - apply pr_neg; [lia | apply IHe].
  - apply (pr_addop 0 TPlus XAdd); auto.
  - apply (pr_addop 0 TMinus XSub); auto.
  - apply (pr_mulop 0 TStar XMul); auto; lia.
  - apply (pr_mulop 0 TSlash XDiv); auto; lia.
  - apply pr_pow; auto; lia.
Qed.

(* minimal parentheses *)
Definition level (e : sx) : nat :=
  match e with
  | XAdd _ _ | XSub _ _ => 0
  | XMul _ _ | XDiv _ _ => 1
  | XNeg _ => 2
  | XPow _ _ => 3
  | XNum _ _ | XVar _ => 4
  end.

Definition par (l : nat) (a : sx) (ts : list tok) : list tok :=
  if level a <? l then paren ts else ts.

Fixpoint print_min (e : sx) : list tok :=
  match e with
  | XNum m k => [TNum m k]
  | XVar x => [TId x]
  | XNeg a => TMinus :: par 2 a (print_min a)
  | XAdd a b => par 0 a (print_min a) ++ TPlus :: par 1 b (print_min b)
  | XSub a b => par 0 a (print_min a) ++ TMinus :: par 1 b (print_min b)
  | XMul a b => par 1 a (print_min a) ++ TStar :: par 2 b (print_min b)
  | XDiv a b => par 1 a (print_min a) ++ TSlash :: par 2 b (print_min b)
  | XPow a b => par 4 a (print_min a) ++ TPow :: par 2 b (print_min b)
  end.

Lemma par_pr l a ts : pr (level a) a ts -> pr l a (par l a ts).
Proof.
  intros H. unfold par. destruct (level a <? l) eqn:E.
  - apply pr_paren. eapply pr_weaken; [exact H | lia].
  - apply Nat.ltb_ge in E. eapply pr_weaken; [exact H | exact E].
Qed.

Lemma print_min_pr : forall e, pr (level e) e (print_min e).
Proof.
  induction e; simpl.
  - constructor.
  - constructor.
  - apply pr_neg; [lia | apply par_pr; assumption].
  - apply (pr_addop 0 TPlus XAdd); auto; apply par_pr; assumption.
  - apply (pr_addop 0 TMinus XSub); auto; apply par_pr; assumption.
  - apply (pr_mulop 1 TStar XMul); auto; apply par_pr; assumption.
  - apply (pr_mulop 1 TSlash XDiv); auto; apply par_pr; assumption.
  - apply pr_pow; auto; apply par_pr; assumption.
Qed.

Theorem parse_print_full : forall e, parse_expr (print_full e) = Some e.
Proof. intros e. apply parse_spelling, print_full_pr. Qed.

Theorem parse_print_min : forall e, parse_expr (print_min e) = Some e.
Proof. intros e. apply parse_spelling. eapply pr_weaken; [apply print_min_pr | lia]. Qed.

(* redundant parentheses never change the parse: two spellings of one AST agree, and
   wrapping any spelling in parentheses is again a spelling *)
Theorem redundant_parens : forall e ts ts', pr 0 e ts -> pr 0 e ts' -> parse_expr ts = parse_expr ts'.
Proof. intros e ts ts' H H'. rewrite (parse_spelling _ _ H), (parse_spelling _ _ H'). reflexivity. Qed.

Theorem paren_spelling : forall e ts, pr 0 e ts -> parse_expr (paren ts) = Some e.
Proof. intros e ts H. apply parse_spelling. apply pr_paren. exact H. Qed.

(* the parser is a function, so distinct ASTs never share a spelling *)
Theorem spelling_injective : forall e e' ts, pr 0 e ts -> pr 0 e' ts -> e = e'.
Proof.
  intros e e' ts H H'. pose proof (parse_spelling _ _ H) as A. rewrite (parse_spelling _ _ H') in A.
  inversion A. reflexivity.
Qed.
