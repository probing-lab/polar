(* C18: model of utils/graph.py — the variable dependency graph with linear (1) and
   non-linear (2) edge labels, its DFS, and Graph.get_defective_nodes — with the theorem that
   the nodes it marks are EXACTLY those reachable from a cycle that contains a non-linear
   edge (for ALL finite graphs; DFS with fuel = number of nodes).

   Python (utils/graph.py):
     def _dfs(self, v, mark):
         mark[v] = True
         for i in range(self.V):
             if (self.adj[v][i] > 0) and (not mark[i]): self._dfs(i, mark)
     def get_defective_nodes(self):
         bad = [False] * self.V
         for v in range(self.V):
             for u in range(self.V):
                 if v == u:
                     if self.adj[v][u] == 2:  mark = fresh; self._dfs(v, mark); bad |= mark
                     continue
                 if self.adj[v][u] == 2:
                     mark = fresh; self._dfs(u, mark)
                     if mark[v]:  mark = fresh; self._dfs(v, mark); bad |= mark
   The mark array (a Python list of V booleans, mutated in place) is a function nat -> bool
   that is threaded through the calls; the recursion gets explicit fuel. *)
From Coq Require Import List Arith Bool Lia.
Import ListNotations.

Section Graph.
  Variable V : nat.
  Variable adj : nat -> nat -> nat.

  Definition marks := nat -> bool.
  Definition none : marks := fun _ => false.
  Definition mset (m : marks) (v : nat) : marks := fun i => if Nat.eqb i v then true else m i.
  Definition munion (a b : marks) : marks := fun i => a i || b i.

  Definition dfs_step (rec : nat -> marks -> marks) (v : nat) (m : marks) (i : nat) : marks :=
    if (0 <? adj v i) && negb (m i) then rec i m else m.

  Fixpoint dfs (fuel : nat) (v : nat) (m : marks) : marks :=
    match fuel with
    | O => m
    | S f => fold_left (dfs_step (dfs f) v) (seq 0 V) (mset m v)
    end.

  (* mark = [False]*V; self._dfs(v, mark) *)
  Definition mark_from (v : nat) : marks := dfs V v none.

  (* the body of the double loop of get_defective_nodes *)
  Definition defective_step (v : nat) (bad : marks) (u : nat) : marks :=
    if Nat.eqb v u then
      (if Nat.eqb (adj v u) 2 then munion bad (mark_from v) else bad)
    else if Nat.eqb (adj v u) 2 then
      (if mark_from u v then munion bad (mark_from v) else bad)
    else bad.

  Definition get_defective : marks :=
    fold_left (fun bad v => fold_left (defective_step v) (seq 0 V) bad) (seq 0 V) none.

  Definition defective_list : list nat := filter get_defective (seq 0 V).

  Definition edge (a b : nat) : Prop := b < V /\ 0 < adj a b.
  Inductive reach : nat -> nat -> Prop :=
  | reach_refl a : reach a a
  | reach_step a b c : reach a b -> edge b c -> reach a c.

  (* what is reachable from a lies in every set that contains a and is closed under successors *)
  Lemma reach_closed (S : nat -> Prop) a :
    S a -> (forall b c, S b -> edge b c -> S c) -> forall i, reach a i -> S i.
  Proof. intros Ha Hc i H. induction H as [a|a b c _ IH Hbc]; [exact Ha | exact (Hc b c (IH Ha) Hbc)]. Qed.
  Lemma reach_trans a b c : reach a b -> reach b c -> reach a c.
  Proof. intros Hab. apply (reach_closed (reach a)); [exact Hab | exact (reach_step a)]. Qed.
  Lemma reach_lt a b : a < V -> reach a b -> b < V.
  Proof. intros Ha. apply (reach_closed (fun i => i < V)); [exact Ha | intros _ c _ [Hc _]; exact Hc]. Qed.
  Lemma reach_edge a b : edge a b -> reach a b.
  Proof. apply reach_step, reach_refl. Qed.

  (* w lies on a cycle that contains the non-linear edge v -> u *)
  Definition on_nl_cycle (w : nat) : Prop :=
    exists v u, v < V /\ u < V /\ adj v u = 2 /\ reach u w /\ reach w v.
  (* the docstring of get_defective_nodes: on such a cycle, or reachable from a vertex of one *)
  Definition defective_spec (i : nat) : Prop := exists w, on_nl_cycle w /\ reach w i.

  (* the fuel argument: every recursive call of _dfs marks a node that was unmarked *)
  Definition unmarked (m : marks) : list nat := filter (fun i => negb (m i)) (seq 0 V).
  Definition mle (a b : marks) : Prop := forall i, a i = true -> b i = true.

  Lemma unmarked_In m i : In i (unmarked m) <-> i < V /\ m i = false.
  Proof.
    unfold unmarked. rewrite filter_In, in_seq, negb_true_iff.
    split; intros [H1 H2]; (split; [lia | exact H2]).
  Qed.
  Lemma unmarked_nodup m : NoDup (unmarked m).
  Proof. apply NoDup_filter, seq_NoDup. Qed.
  Lemma unmarked_incl a b : mle a b -> incl (unmarked b) (unmarked a).
  Proof.
    intros H i. rewrite !unmarked_In. intros [Hi Hb]. split; [exact Hi|].
    destruct (a i) eqn:E; [rewrite (H i E) in Hb; discriminate | reflexivity].
  Qed.
  Lemma unmarked_mono a b : mle a b -> length (unmarked b) <= length (unmarked a).
  Proof. intros H. apply NoDup_incl_length; [apply unmarked_nodup | apply unmarked_incl, H]. Qed.
  Lemma unmarked_lt a b v :
    mle a b -> v < V -> a v = false -> b v = true -> length (unmarked b) < length (unmarked a).
  Proof.
    intros H Hv Ha Hb. apply (NoDup_incl_length (l := v :: unmarked b)).
    - constructor; [rewrite unmarked_In; intros [_ Hb']; congruence | apply unmarked_nodup].
    - intros i [<-|Hi]; [apply unmarked_In; split; assumption | exact (unmarked_incl a b H i Hi)].
  Qed.
  Lemma unmarked_le m : length (unmarked m) <= V.
  Proof.
    rewrite <- (seq_length V 0).
    apply NoDup_incl_length; [apply unmarked_nodup | apply incl_filter].
  Qed.

  Lemma mle_refl a : mle a a. Proof. intros i H; exact H. Qed.
  Lemma mle_trans a b c : mle a b -> mle b c -> mle a c.
  Proof. intros H1 H2 i H; auto. Qed.
  Lemma mset_same m v : mset m v v = true.
  Proof. unfold mset. rewrite Nat.eqb_refl. reflexivity. Qed.
  Lemma mle_mset m v : mle m (mset m v).
  Proof. intros i H. unfold mset. destruct (Nat.eqb i v); [reflexivity | exact H]. Qed.

  Lemma dfs_step_cases rec v m i :
    (dfs_step rec v m i = m /\ (0 < adj v i -> m i = true)) \/
    (dfs_step rec v m i = rec i m /\ 0 < adj v i /\ m i = false).
  Proof.
    unfold dfs_step. destruct (Nat.ltb_spec 0 (adj v i)); [destruct (m i)|]; cbn [andb negb]; auto.
    left. split; [reflexivity | lia].
  Qed.

  (* the one invariant of _dfs(v, .) entered with marks M, when the loop "for i in range(V)" still
     has the nodes l before it: marks only grow, v is marked, every node marked since M is
     reachable from v and has all its successors marked, except for the edges from v into l *)
  Definition dfs_inv (v : nat) (l : list nat) (M m : marks) : Prop :=
    mle M m /\ m v = true /\
    (forall u, m u = true -> M u = false -> reach v u) /\
    (forall u w, m u = true -> M u = false -> edge u w -> m w = true \/ (u = v /\ In w l)).

  Lemma dfs_inv_start v M : dfs_inv v (seq 0 V) M (mset M v).
  Proof.
    assert (Hnew : forall u, mset M v u = true -> M u = false -> u = v).
    { unfold mset. intros u Hu HM. destruct (Nat.eqb_spec u v); [assumption | congruence]. }
    split; [apply mle_mset|]. split; [apply mset_same|]. split.
    - intros u Hu HM. rewrite (Hnew u Hu HM). apply reach_refl.
    - intros u w Hu HM [Hw _]. right. split; [exact (Hnew u Hu HM) | apply in_seq; lia].
  Qed.

  (* the loop has looked at i and left the marks m1: either m itself, i being marked or no successor
     of v, or the marks after the recursive call on i *)
  Lemma dfs_inv_next v i l M m m1 :
    dfs_inv v (i :: l) M m -> mle m m1 -> (0 < adj v i -> m1 i = true) ->
    (forall u, m1 u = true -> m u = false -> reach v u /\ forall w, edge u w -> m1 w = true) ->
    dfs_inv v l M m1.
  Proof.
    intros (Hmono & Hv & Hsound & Hclosed) Hle Hi Hnew.
    split; [eapply mle_trans; eassumption|]. split; [apply Hle, Hv|]. split.
    - intros u Hu HM. destruct (m u) eqn:Em; [apply Hsound; assumption | apply (Hnew u Hu Em)].
    - intros u w Hu HM Hw. destruct (m u) eqn:Em; [|left; apply (Hnew u Hu Em); exact Hw].
      destruct (Hclosed u w Em HM Hw) as [H|[-> [<-|H]]].
      + left. apply Hle, H.
      + left. apply Hi, Hw.
      + right. split; [reflexivity | exact H].
  Qed.

  Definition dfs_ok (fuel : nat) : Prop :=
    forall v M, v < V -> M v = false -> length (unmarked M) <= fuel -> dfs_inv v [] M (dfs fuel v M).

  Lemma dfs_loop f v M : dfs_ok f ->
    forall l m, (forall i, In i l -> i < V) -> dfs_inv v l M m -> length (unmarked m) <= f ->
    dfs_inv v [] M (fold_left (dfs_step (dfs f) v) l m).
  Proof.
    intros IH. induction l as [|i l IHl]; intros m Hl Hinv Hcnt; cbn [fold_left]; [exact Hinv|].
    assert (H1 : dfs_inv v l M (dfs_step (dfs f) v m i) /\ mle m (dfs_step (dfs f) v m i)).
    { destruct (dfs_step_cases (dfs f) v m i) as [[-> Hi]|(-> & Ea & Em)].
      - split; [|apply mle_refl]. apply (dfs_inv_next v i l M m m Hinv (mle_refl m) Hi).
        intros u Hu Hu'. rewrite Hu in Hu'. discriminate.
      - assert (Hi : i < V) by (apply Hl; left; reflexivity).
        destruct (IH i m Hi Em Hcnt) as (Pmono & Pi & Psound & Pclosed).
        split; [|exact Pmono]. apply (dfs_inv_next v i l M m _ Hinv Pmono (fun _ => Pi)).
        intros u Hu Hu'. split.
        + apply reach_trans with (b := i); [apply reach_edge; split; assumption | apply Psound; assumption].
        + intros w Hw. destruct (Pclosed u w Hu Hu' Hw) as [H|[_ []]]. exact H. }
    destruct H1 as [H1 Hle].
    apply IHl; [intros j Hj; apply Hl; right; exact Hj | exact H1|].
    exact (Nat.le_trans _ _ _ (unmarked_mono _ _ Hle) Hcnt).
  Qed.

  Lemma dfs_ok_all fuel : dfs_ok fuel.
  Proof.
    induction fuel as [|f IH]; intros v M Hv HM Hcnt;
      pose proof (unmarked_lt M (mset M v) v (mle_mset M v) Hv HM (mset_same M v)); [lia|].
    cbn [dfs]. apply (dfs_loop f v M IH); [intros i Hi; apply in_seq in Hi; lia | apply dfs_inv_start | lia].
  Qed.

  (* the DFS from a fresh mark array computes exactly the reachable set: what it marks is
     reachable from v, contains v and is closed under successors *)
  Theorem mark_from_spec v i : v < V -> (mark_from v i = true <-> reach v i).
  Proof.
    intros Hv. unfold mark_from.
    destruct (dfs_ok_all V v none Hv eq_refl (unmarked_le none)) as (_ & Hvm & Hsound & Hclosed).
    split.
    - intros H. apply Hsound; [exact H | reflexivity].
    - apply (reach_closed (fun i => dfs V v none i = true)); [exact Hvm|].
      intros b c Hb Hbc. specialize (Hclosed b c Hb (eq_refl false) Hbc).
      destruct Hclosed as [H|[_ H]]; [exact H | destruct H].
  Qed.

  (* what the body of the double loop adds to bad: everything reachable from v when the non-linear
     edge v -> u closes a cycle *)
  Definition contrib (v u : nat) : marks :=
    if Nat.eqb (adj v u) 2 && (Nat.eqb v u || mark_from u v) then mark_from v else none.

  Lemma defective_step_contrib v bad u i :
    defective_step v bad u i = bad i || contrib v u i.
  Proof.
    unfold defective_step, contrib, munion, none.
    destruct (Nat.eqb v u), (Nat.eqb (adj v u) 2), (mark_from u v); cbn [andb orb];
      rewrite ?orb_false_r; reflexivity.
  Qed.

  Lemma contrib_spec v u i : v < V -> u < V ->
    (contrib v u i = true <-> adj v u = 2 /\ reach u v /\ reach v i).
  Proof.
    intros Hv Hu. unfold contrib. split.
    - destruct (_ && _) eqn:E; [|discriminate]. intros H.
      apply andb_true_iff in E. destruct E as [Ea E]. apply Nat.eqb_eq in Ea. apply orb_true_iff in E.
      split; [exact Ea|]. split; [|apply mark_from_spec; assumption].
      destruct E as [E|E]; [apply Nat.eqb_eq in E; subst u; apply reach_refl | apply mark_from_spec; assumption].
    - intros (Ea & Huv & Hvi). apply (mark_from_spec u v Hu) in Huv. apply (mark_from_spec v i Hv) in Hvi.
      rewrite Ea, Huv, orb_true_r. exact Hvi.
  Qed.

  (* a loop whose body only ever adds marks *)
  Lemma fold_or {A} (step : marks -> A -> marks) (c : A -> marks) :
    (forall bad x i, step bad x i = bad i || c x i) ->
    forall l bad i, fold_left step l bad i = bad i || existsb (fun x => c x i) l.
  Proof.
    intros H. induction l as [|x l IH]; intros bad i; cbn [fold_left existsb].
    - rewrite orb_false_r; reflexivity.
    - rewrite IH, H, orb_assoc. reflexivity.
  Qed.

  Lemma get_defective_pairs i :
    get_defective i = true <->
    exists v u, v < V /\ u < V /\ adj v u = 2 /\ reach u v /\ reach v i.
  Proof.
    unfold get_defective.
    rewrite (fold_or _ (fun v i => existsb (fun u => contrib v u i) (seq 0 V)))
      by (intros bad v j; apply (fold_or _ (contrib v)), defective_step_contrib).
    cbn [none orb]. rewrite existsb_exists. split.
    - intros (v & Hv & H). apply existsb_exists in H. destruct H as (u & Hu & H).
      apply in_seq in Hv. apply in_seq in Hu. exists v, u. split; [lia|]. split; [lia|].
      apply contrib_spec; [lia | lia | exact H].
    - intros (v & u & Hv & Hu & H). exists v. split; [apply in_seq; lia|].
      apply existsb_exists. exists u. split; [apply in_seq; lia | apply contrib_spec; assumption].
  Qed.

  (* soundness and completeness of get_defective_nodes w.r.t. its docstring *)
  Theorem get_defective_correct i : get_defective i = true <-> defective_spec i.
  Proof.
    rewrite get_defective_pairs. unfold defective_spec, on_nl_cycle. split.
    - intros (v & u & Hv & Hu & Ea & Huv & Hvi).
      exists v. split; [|exact Hvi]. exists v, u. repeat split; auto. apply reach_refl.
    - intros (w & (v & u & Hv & Hu & Ea & Huw & Hwv) & Hwi).
      exists v, u. repeat split; auto.
      + eapply reach_trans; eauto.
      + apply reach_trans with (b := u); [apply reach_edge; split; [exact Hu | lia]|].
        eapply reach_trans; eauto.
  Qed.

  (* only nodes of the graph are ever marked *)
  Lemma defective_spec_lt i : defective_spec i -> i < V.
  Proof.
    intros (w & (v & u & Hv & Hu & _ & Huw & _) & Hwi).
    eapply reach_lt; [|exact Hwi]. eapply reach_lt; eauto.
  Qed.

  (* consequence used by in_class: no defective node iff no non-linear edge lies on a cycle *)
  Corollary no_defective_iff :
    defective_list = [] <-> (forall v u, v < V -> u < V -> adj v u = 2 -> ~ reach u v).
  Proof.
    split.
    - intros H v u Hv Hu Ea Huv.
      assert (Hin : In v defective_list).
      { apply filter_In. split; [apply in_seq; lia|].
        apply get_defective_pairs. exists v, u. repeat split; auto. apply reach_refl. }
      rewrite H in Hin. destruct Hin.
    - intros H. destruct defective_list as [|i l] eqn:E; [reflexivity|].
      assert (Hin : In i defective_list) by (rewrite E; left; reflexivity).
      apply filter_In in Hin. destruct Hin as [_ Hd].
      apply get_defective_pairs in Hd. destruct Hd as (v & u & Hv & Hu & Ea & Huv & _).
      destruct (H v u Hv Hu Ea Huv).
  Qed.
End Graph.

(* adjacency matrices as Python has them: a list of rows *)
Definition adj_of (rows : list (list nat)) : nat -> nat -> nat :=
  fun v u => nth u (nth v rows []) 0.
Definition defective_of (rows : list (list nat)) : list nat :=
  defective_list (List.length rows) (adj_of rows).
