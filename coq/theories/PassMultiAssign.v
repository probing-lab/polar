(* C02, MultiAssignTransformer (program/transformer/multi_assign_transformer.py).

   Python:   counts = number of assignments per variable in the loop body; substitutions = {}
             for assign in loop_body:
                 assign.subs(substitutions)            # condition, default, right-hand side
                 var = assign.variable
                 if count[var] > 1:  new = _<var><total[var]-count[var]+1>
                                     assign.variable = new; substitutions[var] = new; count[var] -= 1
                 else:               substitutions.pop(var)

   Model [multi_assign] below follows this literally (the substitution map is a function
   var -> var, "pop" resets it to the identity at that variable).  Theorem: one execution of
   the transformed body, from ANY state that agrees with the source state outside the
   generated version names, gives every observation that does not read version names the
   same expectation; lifted to every number of iterations. *)
From Coq Require Import List String QArith Qcanon ZArith Bool Lia Arith.
From Polar Require Import Qcx Dist Syntax Sem Types PassFlat.
Import ListNotations.
Local Open Scope nat_scope.

(* symengine subs with a symbol -> symbol map *)
Fixpoint ren_expr (r : var -> var) (e : expr) : expr :=
  match e with
  | EConst q => EConst q
  | EVar x => EVar (r x)
  | EAdd a b => EAdd (ren_expr r a) (ren_expr r b)
  | EMul a b => EMul (ren_expr r a) (ren_expr r b)
  | EPow a k => EPow (ren_expr r a) k
  end.
Fixpoint ren_cond (r : var -> var) (c : cond) : cond :=
  match c with
  | CTrue => CTrue
  | CFalse => CFalse
  | CAtom a o b => CAtom (ren_expr r a) o (ren_expr r b)
  | CNot c1 => CNot (ren_cond r c1)
  | CAnd c1 c2 => CAnd (ren_cond r c1) (ren_cond r c2)
  | COr c1 c2 => COr (ren_cond r c1) (ren_cond r c2)
  end.
Definition ren_draw (r : var -> var) (d : draw) : draw :=
  match d with
  | DBern p => DBern (ren_expr r p)
  | DCat ps => DCat (map (ren_expr r) ps)
  | DUnif a b => DUnif a b
  | DCont f args => DCont f (map (ren_expr r) args)
  end.
Definition ren_rhs (r : var -> var) (rh : rhs) : rhs :=
  match rh with
  | RChoice alts => RChoice (map (fun pe => (ren_expr r (fst pe), ren_expr r (snd pe))) alts)
  | RDraw d => RDraw (ren_draw r d)
  end.
(* Assignment.subs: default, condition, right-hand side — NOT the assigned variable *)
Definition ren_ga (r : var -> var) (g : gassign) : gassign :=
  {| ga_var := ga_var g; ga_cond := ren_cond r (ga_cond g); ga_default := r (ga_default g);
     ga_rhs := ren_rhs r (ga_rhs g) |}.
Definition set_var (g : gassign) (x : var) : gassign :=
  {| ga_var := x; ga_cond := ga_cond g; ga_default := ga_default g; ga_rhs := ga_rhs g |}.

Definition fupd {A} (f : var -> A) (x : var) (v : A) : var -> A := fun y => if var_eqb y x then v else f y.

Fixpoint nassign (x : var) (l : list gassign) : nat :=
  match l with [] => O | g :: l' => (if var_eqb (ga_var g) x then 1 else 0) + nassign x l' end.

(* the i-th version of x:  f"_{var}{i}" *)
Definition ver (x : var) (i : nat) : var := ("_" ++ x ++ nat_str i)%string.

Fixpoint ma_go (tot cnt : var -> nat) (r : var -> var) (l : list gassign) : list gassign :=
  match l with
  | [] => []
  | g :: l' =>
      let g1 := ren_ga r g in
      let x := ga_var g in
      if Nat.ltb 1 (cnt x)
      then let nv := ver x (tot x - cnt x + 1) in
           set_var g1 nv :: ma_go tot (fupd cnt x (cnt x - 1)) (fupd r x nv) l'
      else g1 :: ma_go tot cnt (fupd r x x) l'
  end.

Definition multi_assign (l : list gassign) : list gassign :=
  let c := fun x => nassign x l in ma_go c c (fun x => x) l.

(* the pass touches the loop body only *)
Definition ma_prog (fp : flatprog) : flatprog :=
  {| fp_init := fp_init fp; fp_body := multi_assign (fp_body fp) |}.

Definition ma_vars (l : list gassign) : list var := nodup string_dec (map ga_var l).
Definition versions (l : list gassign) (x : var) : list var := map (ver x) (seq 1 (nassign x l - 1)).
Definition ma_gen (l : list gassign) : list var := flat_map (versions l) (ma_vars l).

(* (1) no generated version name occurs in the source body (as target, default, in a
       condition or in a right-hand side);
   (2) versions of two different variables are different names ("_a11" is the 11th version of
       "a" and the 1st of "a1") *)
Definition wf_ma (l : list gassign) : bool :=
  sdisjoint (ma_gen l) (gas_vars l)
  && forallb (fun x => forallb (fun y => var_eqb x y || sdisjoint (versions l x) (versions l y)) (ma_vars l)) (ma_vars l).
Definition wf_ma_prog (fp : flatprog) : bool :=
  wf_ma (fp_body fp) && sdisjoint (ma_gen (fp_body fp)) (gas_vars (fp_init fp)).

Lemma eval_ren r e s : eval (ren_expr r e) s = eval e (fun x => s (r x)).
Proof. induction e; cbn [ren_expr eval]; congruence. Qed.
Lemma holds_ren r c s : holds (ren_cond r c) s = holds c (fun x => s (r x)).
Proof. induction c; cbn [ren_cond holds]; rewrite ?eval_ren; congruence. Qed.
Lemma map_eval_ren r (l : list expr) s :
  map (fun e => eval e s) (map (ren_expr r) l) = map (fun e => eval e (fun x => s (r x))) l.
Proof. rewrite map_map. apply map_ext. intros e. apply eval_ren. Qed.

Section MA.
  Variable law : string -> list Qc -> dist Qc.

  Lemma sample_ren r rh s : sample law (ren_rhs r rh) s = sample law rh (fun x => s (r x)).
  Proof.
    destruct rh as [alts|d]; cbn [ren_rhs sample].
    - rewrite map_map. apply map_ext. intros [p e]. cbn [fst snd]. rewrite !eval_ren. reflexivity.
    - destruct d as [p|ps|a b|f args]; cbn [ren_draw draw_law].
      + rewrite eval_ren. reflexivity.
      + rewrite map_eval_ren. reflexivity.
      + reflexivity.
      + rewrite map_eval_ren. reflexivity.
  Qed.

  Lemma nassign_In x l : (1 <= nassign x l)%nat -> In x (map ga_var l).
  Proof.
    induction l as [|g l IH]; cbn [nassign map]; intros H; [lia|].
    destruct (var_eqb (ga_var g) x) eqn:E; [left; apply var_eqb_eq; exact E | right; apply IH; lia].
  Qed.
  Lemma nassign_same g l : nassign (ga_var g) (g :: l) = S (nassign (ga_var g) l).
  Proof. cbn [nassign]. rewrite var_eqb_refl. reflexivity. Qed.
  Lemma nassign_other y g l : y <> ga_var g -> nassign y (g :: l) = nassign y l.
  Proof.
    intros H. cbn [nassign]. replace (var_eqb (ga_var g) y) with false; [reflexivity|].
    symmetry. apply var_eqb_neq. intros E. apply H. symmetry. exact E.
  Qed.

  Lemma fupd_ind {A} (f : var -> A) x v (P : var -> A -> Prop) :
    P x v -> (forall y, y <> x -> P y (f y)) -> forall y, P y (fupd f x v y).
  Proof.
    intros Hx Hf y. unfold fupd. destruct (var_eqb y x) eqn:E.
    - apply var_eqb_eq in E. subst y. exact Hx.
    - apply Hf. apply var_eqb_neq. exact E.
  Qed.

  (* both branches of [ma_go] emit the renamed assignment under some target name, record that
     name in the substitution and go on with some counter *)
  Definition ma_target (tot cnt : var -> nat) (x : var) : var :=
    if Nat.ltb 1 (cnt x) then ver x (tot x - cnt x + 1) else x.
  Definition ma_count (cnt : var -> nat) (x : var) : var -> nat :=
    if Nat.ltb 1 (cnt x) then fupd cnt x (cnt x - 1) else cnt.
  Lemma ma_go_cons tot cnt r g l :
    ma_go tot cnt r (g :: l) =
    let x := ga_var g in
    set_var (ren_ga r g) (ma_target tot cnt x) :: ma_go tot (ma_count cnt x) (fupd r x (ma_target tot cnt x)) l.
  Proof. unfold ma_target, ma_count. cbn [ma_go]. destruct (Nat.ltb 1 (cnt (ga_var g))); reflexivity. Qed.

  (* z is y itself or one of the versions of y *)
  Definition own (tot : var -> nat) (y z : var) : Prop :=
    z = y \/ exists j, (1 <= j < tot y)%nat /\ z = ver y j.

  (* the counter and the substitution while the suffix [suf] is still to be processed: cnt counts
     the assignments left for every variable that has one; r maps every variable to itself or
     to one of its versions, and to itself once no assignment to it is left *)
  Definition ma_inv (tot cnt : var -> nat) (r : var -> var) (suf : list gassign) : Prop :=
    (forall x, (1 <= nassign x suf)%nat -> cnt x = nassign x suf /\ (cnt x <= tot x)%nat) /\
    (forall y, own tot y (r y)) /\
    (forall y, nassign y suf = O -> r y = y).

  Lemma ma_inv_init l : let c := fun x => nassign x l in ma_inv c c (fun x => x) l.
  Proof.
    split; [|split].
    - intros x Hx. split; [reflexivity | lia].
    - intros y. left. reflexivity.
    - intros y _. reflexivity.
  Qed.

  Lemma ma_inv_step tot cnt r g suf : ma_inv tot cnt r (g :: suf) ->
    let x := ga_var g in
    own tot x (ma_target tot cnt x) /\ ma_inv tot (ma_count cnt x) (fupd r x (ma_target tot cnt x)) suf.
  Proof.
    intros (Hcnt & Hr & Hr0) x.
    assert (Hcx : cnt x = S (nassign x suf) /\ (cnt x <= tot x)%nat).
    { unfold x. rewrite <- nassign_same. apply Hcnt. rewrite nassign_same. lia. }
    assert (Hoth : forall y, y <> x -> (1 <= nassign y suf)%nat -> cnt y = nassign y suf /\ (cnt y <= tot y)%nat).
    { intros y Hy. rewrite <- (nassign_other y g suf Hy). apply Hcnt. }
    assert (Hx' : own tot x (ma_target tot cnt x) /\ (nassign x suf = O -> ma_target tot cnt x = x)
                  /\ forall y, (1 <= nassign y suf)%nat ->
                       ma_count cnt x y = nassign y suf /\ (ma_count cnt x y <= tot y)%nat).
    { unfold ma_target, ma_count. destruct (Nat.ltb_spec 1 (cnt x)) as [Hlt|Hge]; (split; [|split]).
      - right. exists (tot x - cnt x + 1)%nat. split; [lia | reflexivity].
      - lia.
      - apply (fupd_ind cnt x _ (fun y c => (1 <= nassign y suf)%nat -> c = nassign y suf /\ (c <= tot y)%nat));
          [lia | exact Hoth].
      - left. reflexivity.
      - reflexivity.
      - intros y Hy. apply Hoth; [intros -> ; lia | exact Hy]. }
    destruct Hx' as (Hx' & Hlast & Hcnt'). split; [exact Hx' | split; [exact Hcnt' | split]].
    - apply fupd_ind; [exact Hx' | intros y _; apply Hr].
    - apply (fupd_ind r x _ (fun y z => nassign y suf = O -> z = y)); [exact Hlast|].
      intros y Hy. rewrite <- (nassign_other y g suf Hy). apply Hr0.
  Qed.

  Section Sim.
    Variables (G : var -> Prop) (tot : var -> nat).
    Hypothesis HG : forall x j, (1 <= j < tot x)%nat -> G (ver x j).
    Hypothesis Hdisj :
      forall x y j i, x <> y -> (1 <= j < tot x)%nat -> (1 <= i < tot y)%nat -> ver x j <> ver y i.

    Lemma own_neq x y x' y' : x <> y -> ~ G x -> ~ G y -> own tot x x' -> own tot y y' -> x' <> y'.
    Proof.
      intros Hxy Hx Hy [->|(j & Hj & ->)] [->|(i & Hi & ->)].
      - exact Hxy.
      - intros E. apply Hx. rewrite E. apply HG. exact Hi.
      - intros E. apply Hy. rewrite <- E. apply HG. exact Hj.
      - apply Hdisj; assumption.
    Qed.

    (* the simulation relation: the target state holds at [r y] what the source state holds
       at [y].  It survives an assignment to x whose target name no other variable maps to. *)
    Lemma ren_rel_upd r s s' x x' v :
      (forall y, ~ G y -> s' (r y) = s y) -> (forall y, ~ G y -> y <> x -> r y <> x') ->
      forall y, ~ G y -> upd s' x' v (fupd r x x' y) = upd s x v y.
    Proof.
      intros Hrel Hne. apply (fupd_ind r x x' (fun y z => ~ G y -> upd s' x' v z = upd s x v y)).
      - intros _. rewrite !upd_same. reflexivity.
      - intros y Hyx Hy. rewrite (upd_other s), upd_other; [apply Hrel; exact Hy | apply Hne | ]; assumption.
    Qed.

    Lemma ma_go_sim suf : forall cnt r,
      fresh G (gas_vars suf) -> ma_inv tot cnt r suf ->
      forall s s' f,
        (forall y, ~ G y -> s' (r y) = s y) ->
        respects G f ->
        E (exec_gas law (ma_go tot cnt r suf) s') f = E (exec_gas law suf s) f.
    Proof.
      induction suf as [|g suf IH]; intros cnt r Hsrc Hinv s s' f Hrel Hf.
      - (* at the end of the body the substitution is the identity *)
        destruct Hinv as (_ & _ & Hr0). cbn [ma_go]. rewrite !E_exec_gas_nil. apply Hf. intros y Hy.
        rewrite <- (Hr0 y eq_refl) at 1. apply Hrel. exact Hy.
      - apply fresh_gas_cons in Hsrc. destruct Hsrc as [Hg Hsuf].
        destruct (ma_inv_step tot cnt r g suf Hinv) as [Hx' Hinv']. destruct Hinv as (_ & Hr & _).
        rewrite ma_go_cons. cbv zeta.
        (* the renamed assignment reads in s' what the source assignment reads in s *)
        apply (exec_gas_cons_sim law g _ suf _ s s' (fun z => s' (r z)));
          cbn [set_var ren_ga ga_cond ga_rhs ga_default ga_var];
          [intros z Hz; apply Hrel; intros H; exact (Hg z H Hz) | apply holds_ren | apply sample_ren | reflexivity |].
        intros v. apply IH; [exact Hsuf | exact Hinv' | | exact Hf].
        (* the new target name is not what another variable maps to *)
        apply ren_rel_upd; [exact Hrel|]. intros y Hy Hyx.
        apply (own_neq y (ga_var g)); [exact Hyx | exact Hy | | apply Hr | exact Hx'].
        intros H. apply (Hg _ H). left. reflexivity.
    Qed.
  End Sim.

  Lemma ver_in_versions l x j : (1 <= j < nassign x l)%nat -> In x (ma_vars l) /\ In (ver x j) (versions l x).
  Proof.
    intros Hj. split.
    - apply nodup_In. apply nassign_In. lia.
    - apply in_map. apply in_seq. lia.
  Qed.

  Lemma ver_in_gen l x j : (1 <= j < nassign x l)%nat -> In (ver x j) (ma_gen l).
  Proof. intros Hj. apply in_flat_map. exists x. apply ver_in_versions. exact Hj. Qed.

  Lemma wf_ma_disj l : wf_ma l = true ->
    forall x y j i, x <> y -> (1 <= j < nassign x l)%nat -> (1 <= i < nassign y l)%nat -> ver x j <> ver y i.
  Proof.
    unfold wf_ma. intros H x y j i Hxy Hj Hi E. apply andb_true_iff in H. destruct H as [_ H].
    destruct (ver_in_versions l x j Hj) as [Hx Hxj]. destruct (ver_in_versions l y i Hi) as [Hy Hyi].
    rewrite forallb_forall in H. specialize (H x Hx). rewrite forallb_forall in H. specialize (H y Hy).
    apply orb_true_iff in H. destruct H as [H|H]; [apply var_eqb_eq in H; contradiction|].
    rewrite <- E in Hyi. exact (sdisjoint_spec _ _ H _ Hxj Hyi).
  Qed.

  Definition in_gen (l : list gassign) : var -> Prop := fun x => In x (ma_gen l).

  Theorem multi_assign_sim l : wf_ma l = true -> sim_on law (in_gen l) l (multi_assign l).
  Proof.
    intros Hwf s s' f Ha Hf. unfold multi_assign.
    apply (ma_go_sim (in_gen l) (fun x => nassign x l)).
    - intros x j Hj. apply ver_in_gen. exact Hj.
    - apply wf_ma_disj. exact Hwf.
    - apply andb_true_iff in Hwf. exact (sdisjoint_spec _ _ (proj1 Hwf)).
    - apply ma_inv_init.
    - exact Ha.
    - exact Hf.
  Qed.

  Theorem multi_assign_step l : wf_ma l = true ->
    forall s s' f,
      (forall x, ~ In x (ma_gen l) -> s' x = s x) ->
      (forall t t', (forall x, ~ In x (ma_gen l) -> t' x = t x) -> f t' = f t) ->
      E (exec_gas law (multi_assign l) s') f = E (exec_gas law l s) f.
  Proof. exact (multi_assign_sim l). Qed.

  (* the initial block is kept and does not mention the version names *)
  Theorem multi_assign_preserves fp : wf_ma_prog fp = true ->
    forall n s0 s0' f,
      (forall x, ~ In x (ma_gen (fp_body fp)) -> s0' x = s0 x) ->
      (forall t t', (forall x, ~ In x (ma_gen (fp_body fp)) -> t' x = t x) -> f t' = f t) ->
      E (frun law (ma_prog fp) n s0') f = E (frun law fp n s0) f.
  Proof.
    intros Hwf. apply andb_true_iff in Hwf. destruct Hwf as [Hb Hi].
    apply (frun_lift law (in_gen (fp_body fp)) fp (ma_prog fp)).
    - apply exec_gas_frame. exact (sdisjoint_spec _ _ Hi).
    - apply multi_assign_sim. exact Hb.
  Qed.
End MA.

(* the hypothesis is necessary: capture of a user variable named like a version *)
Open Scope string_scope.
Definition ma_capture_body : list gassign :=
  [ {| ga_var := "x"; ga_cond := CTrue; ga_default := "x"; ga_rhs := RDet (EConst (mkq 1 1)) |};
    {| ga_var := "x"; ga_cond := CTrue; ga_default := "x"; ga_rhs := RDet (EAdd (EVar "x") (EVar "_x1")) |} ].
Definition ma_capture_state : state := upd st0 "_x1" (mkq 7 1).
(* `_x1 = 7; while true: x = 1; x = x + _x1`: the source body leaves x = 8, the transformed
   body `_x1 = 1; x = _x1 + _x1` leaves x = 2 — from the SAME state, observing only x *)
Theorem multi_assign_needs_wf :
  wf_ma ma_capture_body = false /\
  E (exec_gas no_law (multi_assign ma_capture_body) ma_capture_state) (fun s => s "x")
  <> E (exec_gas no_law ma_capture_body ma_capture_state) (fun s => s "x").
Proof.
  split; [vm_compute; reflexivity|]. intros H. apply (f_equal qnum) in H. vm_compute in H. discriminate.
Qed.
