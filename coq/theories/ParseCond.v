(* C19 — token-level reference grammar of Polar's conditions, as inputparser/syntax.lark
   lists them and as the LALR tables resolve them:

       condition: atom | NOT "(" condition ")" | condition (AND | OR) condition | "(" condition ")"
       atom: arithm COP arithm | TRUE | FALSE

   "!" needs its parentheses; "&&" and "||" have ONE precedence level and the
   shift/reduce conflict of [condition (AND|OR) condition] is resolved by shifting, i.e. both
   associate to the right:  a && b || c  is  a && (b || c).  (K checks this against lark.)

       cond ::= prim [("&&" | "||") cond]
       prim ::= "true" | "false" | "!" "(" cond ")" | sum COP sum | "(" cond ")"

   A leading "(" may open an arithmetic operand or a parenthesised condition; the reference
   parser tries the comparison first and falls back.  Theorem: every spelling of a
   condition AST (any redundant parentheses, inside the arithmetic too) parses back. *)
From Coq Require Import String List NArith Arith Bool Lia.
From Polar Require Import Parse.
Import ListNotations.

Inductive sc :=
| KTrue | KFalse
| KAtom (a : sx) (c : scop) (b : sx)
| KNot (c : sc)
| KAnd (c1 c2 : sc)
| KOr (c1 c2 : sc).

Definition cres := option (sc * list tok).
Definition cparser := list tok -> cres.

Definition boolop (t : tok) : option (sc -> sc -> sc) :=
  match t with TAnd => Some KAnd | TOr => Some KOr | _ => None end.

(* arithm COP arithm *)
Definition atomc (ts : list tok) : cres :=
  match esum ts with
  | Some (a, TCop c :: r) =>
    match esum r with Some (b, r') => Some (KAtom a c b, r') | None => None end
  | _ => None
  end.

Definition paren_of (rec : cparser) (ts : list tok) : cres :=
  match ts with
  | TLp :: r => match rec r with Some (c, TRp :: r') => Some (c, r') | _ => None end
  | _ => None
  end.

Definition prim_of (rec : cparser) (ts : list tok) : cres :=
  match ts with
  | TTrue :: r => Some (KTrue, r)
  | TFalse :: r => Some (KFalse, r)
  | TNot :: r => match paren_of rec r with Some (c, r') => Some (KNot c, r') | None => None end
  | _ => match atomc ts with
         | Some x => Some x
         | None => paren_of rec ts
         end
  end.

Definition cond_of (rec : cparser) (ts : list tok) : cres :=
  match prim_of rec ts with
  | Some (c1, t :: r) =>
    match boolop t with
    | Some op => match rec r with Some (c2, r') => Some (op c1 c2, r') | None => None end
    | None => Some (c1, t :: r)
    end
  | x => x
  end.

Fixpoint cnd (f : nat) : cparser :=
  match f with
  | O => fun _ => None
  | S f' => cond_of (cnd f')
  end.

Definition parse_cond (ts : list tok) : option sc :=
  match cnd (length ts) ts with Some (c, []) => Some c | _ => None end.

(* level 0: a condition; level 1: an operand of && / || on the left (a primary) *)
Inductive prc : nat -> sc -> list tok -> Prop :=
| prc_true l : prc l KTrue [TTrue]
| prc_false l : prc l KFalse [TFalse]
| prc_atom l a c b ta tb : pr 0 a ta -> pr 0 b tb -> prc l (KAtom a c b) (ta ++ TCop c :: tb)
| prc_not l c ts : prc 0 c ts -> prc l (KNot c) (TNot :: TLp :: ts ++ [TRp])
| prc_paren l c ts : prc 0 c ts -> prc l c (TLp :: ts ++ [TRp])
| prc_bool t op c1 c2 t1 t2 : boolop t = Some op -> prc 1 c1 t1 -> prc 0 c2 t2 ->
    prc 0 (op c1 c2) (t1 ++ t :: t2).

Lemma prc_weaken l c ts : prc l c ts -> prc 0 c ts.
Proof. induction 1; try (constructor; assumption); eapply prc_bool; eassumption. Qed.

Definition is_bool (t : tok) : bool := match boolop t with Some _ => true | None => false end.
Definition is_cont (t : tok) : bool := is_arith t || is_bool t.

(* a spelling of a condition is never (a prefix of) an arithmetic operand followed by ")":
   the arithmetic prefix parser fails on it or stops at a comparison operator *)
Definition arith_stops (ts : list tok) : Prop :=
  forall rest f n, sum (factor f) n (ts ++ rest) = None \/
                   exists a c r, sum (factor f) n (ts ++ rest) = Some (a, TCop c :: r).

Lemma factor_fail_hd f t r :
  match t with TNum _ _ | TId _ | TLp | TMinus => False | _ => True end ->
  factor f (t :: r) = None.
Proof. destruct f; [reflexivity|]. destruct t; simpl; intros H; try reflexivity; destruct H. Qed.

Lemma sum_fail_of_factor fac n ts : fac ts = None -> sum fac n ts = None.
Proof. intros H. unfold sum, chain, term, chain. rewrite H. reflexivity. Qed.

Lemma factor_paren_fail f ts rest : arith_stops ts -> factor f (TLp :: ts ++ rest) = None.
Proof.
  intros H. destruct f as [|f]; [reflexivity|]. simpl. unfold power_of. simpl.
  destruct (H rest f f) as [E|(a & c & r' & E)]; rewrite E; reflexivity.
Qed.

Lemma prc_arith_stops : forall l c ts, prc l c ts -> arith_stops ts.
Proof.
  induction 1 as [l | l | l a c b ta tb Ha Hb | l c ts Hc IH | l c ts Hc IH | t op c1 c2 t1 t2 Hop H1 IH1 H2 IH2];
    intros rest f n.
  1, 2, 4: left; apply sum_fail_of_factor, factor_fail_hd; exact I.   (* "true", "false", "!" *)
  - rewrite <- app_assoc. cbn [app].
    destruct (sum (factor f) n (ta ++ TCop c :: tb ++ rest)) as [x|] eqn:E; [|left; reflexivity].
    right. apply (sum_spelling_any_fuel a ta) in E; [|exact Ha|reflexivity].
    subst x. eauto.
  - left. apply sum_fail_of_factor. fold (paren ts). rewrite paren_app.
    apply factor_paren_fail. exact IH.
  - rewrite <- app_assoc. apply IH1.
Qed.

Lemma atomc_paren_fails c ts rest : prc 0 c ts -> atomc (TLp :: ts ++ TRp :: rest) = None.
Proof.
  intros H. unfold atomc, esum.
  rewrite sum_fail_of_factor; [reflexivity|].
  apply factor_paren_fail. exact (prc_arith_stops _ _ _ H).
Qed.

Lemma atomc_spelling a c b ta tb : pr 0 a ta -> pr 0 b tb ->
  reads atomc is_arith (KAtom a c b) (ta ++ TCop c :: tb).
Proof.
  intros Ha Hb rest Hr. rewrite <- app_assoc. cbn [app]. unfold atomc.
  rewrite (esum_spelling a ta (TCop c :: tb ++ rest) Ha eq_refl), (esum_spelling b tb rest Hb Hr).
  reflexivity.
Qed.

(* the comparison is tried wherever the first token does not decide, and "true", "false", "!"
   do not begin an arithmetic operand: whatever atomc reads, prim_of reads *)
Lemma prim_of_atomc rec ts x : atomc ts = Some x -> prim_of rec ts = Some x.
Proof.
  intros H. destruct ts as [|t r]; [discriminate H|].
  destruct t; try (cbn [prim_of]; rewrite H; reflexivity);
    unfold atomc, esum in H; rewrite sum_fail_of_factor in H by (apply factor_fail_hd; exact I);
    discriminate H.
Qed.

(* what [prc_complete] shows of a spelling ts of c: [Pm] the primary parser reads it (spellings
   of level 1), [Cn] the and/or chain [cnd] reads it; ts never longer than the fuel *)
Definition Pm (c : sc) (ts : list tok) : Prop :=
  forall f, length ts <= S f -> reads (prim_of (cnd f)) is_arith c ts.
Definition Cn (c : sc) (ts : list tok) : Prop :=
  forall f, length ts <= f -> reads (cnd f) is_cont c ts.

Lemma Pm_Cn c ts : 1 <= length ts -> Pm c ts -> Cn c ts.
Proof.
  intros Hne HP f Hlen rest Hr. apply hd_ok_orb in Hr. destruct Hr as [Ha Hb].
  destruct f as [|f]; [lia|].
  cbn [cnd]. unfold cond_of. rewrite (HP f ltac:(lia) rest Ha).
  destruct rest as [|t r]; [reflexivity|].
  cbn [hd_ok] in Hb. unfold is_bool in Hb. destruct (boolop t); [discriminate Hb | reflexivity].
Qed.

(* l only lets this apply to the goal of [prc_complete] at every level: a spelling that
   [prim_of] reads may stand at any level *)
Lemma complete_of_Pm l c ts : 1 <= length ts -> Pm c ts -> (1 <= l -> Pm c ts) /\ Cn c ts.
Proof. intros Hne HP. split; [intros _; exact HP | exact (Pm_Cn c ts Hne HP)]. Qed.

Lemma paren_of_cnd c ts f rest : Cn c ts -> length ts <= f ->
  paren_of (cnd f) (TLp :: ts ++ TRp :: rest) = Some (c, rest).
Proof. intros HC Hlen. cbn [paren_of]. rewrite (HC f Hlen (TRp :: rest) eq_refl). reflexivity. Qed.

Theorem prc_complete : forall l c ts, prc l c ts -> (1 <= l -> Pm c ts) /\ Cn c ts.
Proof.
  induction 1 as [l | l | l a c b ta tb Ha Hb | l c ts Hc IH | l c ts Hc IH | t op c1 c2 t1 t2 Hop H1 IH1 H2 IH2].
  - apply complete_of_Pm; [apply le_n|]. intros f _ rest _. reflexivity.
  - apply complete_of_Pm; [apply le_n|]. intros f _ rest _. reflexivity.
  - apply complete_of_Pm; [rewrite app_length; cbn [length]; lia|].
    intros f _ rest Hr. apply prim_of_atomc, atomc_spelling; assumption.
  - destruct IH as [_ HC]. apply complete_of_Pm; [cbn [length]; lia|].
    intros f Hlen rest Hr. cbn [length] in Hlen. rewrite app_length in Hlen. cbn [length] in Hlen.
    fold (paren ts). rewrite <- app_comm_cons, paren_app. cbn [prim_of].
    rewrite (paren_of_cnd c ts f rest HC ltac:(lia)). reflexivity.
  - destruct IH as [_ HC]. fold (paren ts). apply complete_of_Pm; [rewrite paren_length; lia|].
    intros f Hlen rest Hr. rewrite paren_length in Hlen.
    (* the comparison is tried first and fails; then the parenthesised condition is read *)
    rewrite paren_app. cbn [prim_of]. rewrite (atomc_paren_fails c ts rest Hc).
    apply paren_of_cnd; [exact HC | lia].
  - destruct IH1 as [HP1 _]. specialize (HP1 (le_n _)). destruct IH2 as [_ HC2].
    split; [intros Hl; lia|].
    intros f Hlen rest Hr. rewrite app_length in Hlen. cbn [length] in Hlen.
    destruct f as [|f]; [lia|].
    rewrite <- app_assoc. cbn [app cnd]. unfold cond_of.
    rewrite (HP1 f ltac:(lia) (t :: t2 ++ rest)).
    + rewrite Hop. rewrite (HC2 f ltac:(lia) rest Hr). reflexivity.
    + cbn [hd_ok]. destruct t; try reflexivity; discriminate Hop.
Qed.

Theorem parse_cond_spelling : forall c ts, prc 0 c ts -> parse_cond ts = Some c.
Proof.
  intros c ts H. destruct (prc_complete _ _ _ H) as [_ HC].
  unfold parse_cond. specialize (HC (length ts) (le_n _) [] I). rewrite app_nil_r in HC.
  rewrite HC. reflexivity.
Qed.

Definition cop_tok (c : scop) : tok := TCop c.

(* fully parenthesising: both operands of && / || and the arithmetic are wrapped *)
Fixpoint printc_full (c : sc) : list tok :=
  match c with
  | KTrue => [TTrue]
  | KFalse => [TFalse]
  | KAtom a o b => print_full a ++ TCop o :: print_full b
  | KNot c => TNot :: paren (printc_full c)
  | KAnd c1 c2 => paren (printc_full c1) ++ TAnd :: paren (printc_full c2)
  | KOr c1 c2 => paren (printc_full c1) ++ TOr :: paren (printc_full c2)
  end.

Definition clevel (c : sc) : nat := match c with KAnd _ _ | KOr _ _ => 0 | _ => 1 end.
Definition parc (l : nat) (c : sc) (ts : list tok) : list tok := if clevel c <? l then paren ts else ts.

(* minimal parentheses: only a && / || standing on the LEFT of && / || is wrapped *)
Fixpoint printc_min (c : sc) : list tok :=
  match c with
  | KTrue => [TTrue]
  | KFalse => [TFalse]
  | KAtom a o b => print_min a ++ TCop o :: print_min b
  | KNot c => TNot :: paren (printc_min c)
  | KAnd c1 c2 => parc 1 c1 (printc_min c1) ++ TAnd :: printc_min c2
  | KOr c1 c2 => parc 1 c1 (printc_min c1) ++ TOr :: printc_min c2
  end.

Arguments paren : simpl never.

Lemma printc_full_prc : forall c, prc 0 c (printc_full c).
Proof.
  induction c; cbn [printc_full].
  - constructor.
  - constructor.
  - apply prc_atom; apply print_full_pr.
  - apply prc_not. exact IHc.
  - apply (prc_bool TAnd KAnd); [reflexivity | apply prc_paren; exact IHc1 | apply prc_paren; exact IHc2].
  - apply (prc_bool TOr KOr); [reflexivity | apply prc_paren; exact IHc1 | apply prc_paren; exact IHc2].
Qed.

Lemma printc_min_prc : forall c, prc (clevel c) c (printc_min c).
Proof.
  assert (Hpar : forall c ts, prc (clevel c) c ts -> prc 1 c (parc 1 c ts)).
  { intros c ts H. unfold parc. destruct c; simpl in *; try exact H; apply prc_paren; exact H. }
  induction c; cbn [printc_min clevel].
  - constructor.
  - constructor.
  - apply prc_atom; (eapply pr_weaken; [apply print_min_pr | lia]).
  - apply prc_not. eapply prc_weaken; exact IHc.
  - apply (prc_bool TAnd KAnd); [reflexivity | apply Hpar; exact IHc1 | eapply prc_weaken; exact IHc2].
  - apply (prc_bool TOr KOr); [reflexivity | apply Hpar; exact IHc1 | eapply prc_weaken; exact IHc2].
Qed.

Theorem parse_cond_print_full : forall c, parse_cond (printc_full c) = Some c.
Proof. intros c. apply parse_cond_spelling, printc_full_prc. Qed.

Theorem parse_cond_print_min : forall c, parse_cond (printc_min c) = Some c.
Proof. intros c. apply parse_cond_spelling. eapply prc_weaken. apply printc_min_prc. Qed.

Theorem cond_redundant_parens : forall c ts ts', prc 0 c ts -> prc 0 c ts' -> parse_cond ts = parse_cond ts'.
Proof. intros c ts ts' H H'. rewrite (parse_cond_spelling _ _ H), (parse_cond_spelling _ _ H'). reflexivity. Qed.

(* "&&" and "||" share one level and associate to the right, as the LALR tables of
   syntax.lark do (not C's convention): *)
Example cond_right_assoc :
  parse_cond [TId "x"; TCop Ogt; TNum 0 0; TAnd; TId "y"; TCop Ogt; TNum 0 0; TOr; TId "z"; TCop Ogt; TNum 0 0]
  = Some (KAnd (KAtom (XVar "x") Ogt (XNum 0 0)) (KOr (KAtom (XVar "y") Ogt (XNum 0 0)) (KAtom (XVar "z") Ogt (XNum 0 0)))).
Proof. vm_compute. reflexivity. Qed.
