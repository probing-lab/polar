(* C05 / typer model: the companion results of TyperSound.v —
   - with a dropped default (the rule of Assignment.get_support before repo commit cee80d2:
     the default is left out whenever the condition is implied by the loop guard) the result of
     the algorithm is NOT sound: a concrete flat program, the types the model infers under that
     rule, and a reachable state outside them;
   - the single-assignment precondition of the typer is necessary;
   - non-vacuity examples evaluated by vm_compute. *)
From Coq Require Import List String QArith Qcanon ZArith Bool.
From Polar Require Import Qcx Dist Syntax Sem Types Typer TyperSound.
Import ListNotations.
Open Scope string_scope.

Definition qe (n : Z) : expr := EConst (mkq n 1).
Definition det (x : var) (e : expr) : gassign :=
  {| ga_var := x; ga_cond := CTrue; ga_default := x; ga_rhs := RDet e |}.

(* Polar's flat form of   x = 5; c = 0; while c == 0: x = 1; x = x + 1; c = Bernoulli(1/2)   *)
Definition fpW : flatprog :=
  {| fp_init := [det "x" (qe 5); det "c" (qe 0)];
     fp_body := [det "_old0" (EVar "c");
                 {| ga_var := "_x1"; ga_cond := CAtom (EVar "_old0") Ceq (qe 0); ga_default := "x"; ga_rhs := RDet (qe 1) |};
                 {| ga_var := "x"; ga_cond := CAtom (EVar "_old0") Ceq (qe 0); ga_default := "_x1";
                    ga_rhs := RDet (EAdd (qe 1) (EVar "_x1")) |};
                 {| ga_var := "c"; ga_cond := CAtom (EVar "_old0") Ceq (qe 0); ga_default := "c";
                    ga_rhs := RDraw (DBern (EConst (mkq 1 2))) |}] |}.
(* Condition.is_implied_by_loop_guard() of the four assignments, as dumped by the worker *)
Definition implW : list bool := [true; true; true; true].
Definition s0W : state := fun x => if var_eqb x "_x1" then mkq 1 1 else mkq 0 1.
Lemma typed_of_forallb T s : forallb (fun xt : var * list Qc => mem (s (fst xt)) (snd xt)) T = true -> typed T s.
Proof.
  intros H x vs Hx. rewrite forallb_forall in H. exact (mem_In _ _ (H (x, vs) (tlookup_In _ _ _ Hx))).
Qed.

Theorem typer_run_dropped_default_refuted :
  exists fp implied T s0 n s,
    typer_run tp_default [] fp [] implied (drops_old (fp_body fp) implied) = Some T /\
    body_single fp = true /\ init_ok fp T s0 /\
    supp (frun no_law fp n s0) s /\ ~ typed T s.
Proof.
  (* one evaluation of the run: the start state is admissible and some state after two
     iterations holds a value of _x1 outside its type *)
  assert (H : match typer_run tp_default [] fpW [] implW (drops_old (fp_body fpW) implW) with
              | Some T =>
                  forallb (fun xt : var * list Qc => mem (s0W (fst xt)) (snd xt)) (declared (map ga_var (fp_init fpW)) T) &&
                  existsb (fun ws : Qc * state =>
                             negb (match tlookup T "_x1" with Some vs => mem (snd ws "_x1") vs | None => true end))
                          (frun no_law fpW 2 s0W)
              | None => false
              end = true) by (vm_compute; reflexivity).
  destruct (typer_run tp_default [] fpW [] implW (drops_old (fp_body fpW) implW)) as [T|] eqn:Hrun; [|discriminate H].
  apply andb_true_iff in H. destruct H as [H0 Hbad].
  apply existsb_exists in Hbad. destruct Hbad as [[w s] [Hin Hs]]. cbn [snd] in Hs.
  exists fpW, implW, T, s0W, 2%nat, s. split; [exact Hrun|]. split; [vm_compute; reflexivity|]. split; [|split].
  - apply typed_of_forallb, H0.
  - exists w. exact Hin.
  - intros Ht. destruct (tlookup T "_x1") as [vs|] eqn:E; [|discriminate Hs].
    rewrite (mem_complete _ _ (Ht "_x1" vs E)) in Hs. discriminate Hs.
Qed.

(* the same program under the rule of the current code is covered by the theorem *)
Example typer_witness_current_rule :
  let drops := drops_current (fp_body fpW) implW in
  drops_harmless (fp_body fpW) drops = true /\
  match typer_run tp_default [] fpW [] implW drops with
  | Some T => tenv_eqb T [("c", [mkq 0 1; mkq 1 1]); ("_old0", [mkq 0 1; mkq 1 1])] && check_types fpW T
  | None => false
  end = true.
Proof. split; vm_compute; reflexivity. Qed.

(* the typer assumes one assignment per variable in the loop body; without it the second
   assignment resets has_changed and the result is not a post-fixpoint *)
Definition fp_twice : flatprog :=
  {| fp_init := [det "x" (qe 0)];
     fp_body := [det "x" (EAdd (EVar "x") (qe 1)); det "x" (EVar "x")] |}.
Example typer_single_assignment_needed :
  body_single fp_twice = false /\
  match typer_run tp_default [] fp_twice [] [true; true] [false; false] with
  | Some T => tenv_eqb T [("x", [mkq 0 1; mkq 1 1])] && negb (check_types fp_twice T)
  | None => false
  end = true.
Proof. split; vm_compute; reflexivity. Qed.

(* the inferred types and the number of cascade rounds of a run, read off one evaluation of
   the budget phase *)
Definition run_check (P : tparams) (syms : list var) (fp : flatprog) (D : tenv) (implied drops : list bool)
                     (T : tenv) (n : nat) : bool :=
  let body := zip_drops (fp_body fp) drops in
  let st1 := phase1 P syms body (tp_iters P) (init_state P syms fp D implied) in
  applicable fp &&
  match cascade P syms body (cascade_fuel st1) st1 with Some st => tenv_eqb (extract st) T | None => false end &&
  Nat.eqb (cascade_rounds P syms body (cascade_fuel st1) st1) n.

Lemma run_check_spec P syms fp D implied drops T n :
  run_check P syms fp D implied drops T n = true ->
  typer_matches P syms fp D implied drops T = true /\ typer_cascade_rounds P syms fp D implied drops = n.
Proof.
  unfold run_check, typer_matches, typer_run, typer_state, typer_cascade_rounds. cbv zeta. intros H.
  apply andb_true_iff in H. destruct H as [H Hn]. apply andb_true_iff in H. destruct H as [-> Hm].
  split; [|apply Nat.eqb_eq, Hn]. destruct (cascade _ _ _ _ _); exact Hm.
Qed.

(* the budget phase converges:  x = 0; y = 0; while true: x = 1 - x; y = x + 2 *)
Definition fp_conv : flatprog :=
  {| fp_init := [det "x" (qe 0); det "y" (qe 0)];
     fp_body := [det "x" (EAdd (qe 1) (EMul (qe (-1)) (EVar "x"))); det "y" (EAdd (EVar "x") (qe 2))] |}.
Example typer_converges :
  typer_matches tp_default [] fp_conv [] [true; true] [false; false]
                [("x", [mkq 0 1; mkq 1 1]); ("y", [mkq 0 1; mkq 2 1; mkq 3 1])] = true /\
  typer_cascade_rounds tp_default [] fp_conv [] [true; true] [false; false] = 0%nat /\
  body_single fp_conv = true /\ drops_harmless (fp_body fp_conv) [false; false] = true /\
  check_types fp_conv [("x", [mkq 0 1; mkq 1 1]); ("y", [mkq 0 1; mkq 2 1; mkq 3 1])] = true.
Proof. apply and_assoc. split; [apply run_check_spec | repeat split]; vm_compute; reflexivity. Qed.

(* the cascade is needed:  x = 0; y = 0; z = 0; while true: y = x; x = x + 1; z = 1 - z  with a
   budget of 3 rounds: x and its copy y still change and are failed by the cascade *)
Definition fp_casc : flatprog :=
  {| fp_init := [det "x" (qe 0); det "y" (qe 0); det "z" (qe 0)];
     fp_body := [det "y" (EVar "x"); det "x" (EAdd (EVar "x") (qe 1));
                 det "z" (EAdd (qe 1) (EMul (qe (-1)) (EVar "z")))] |}.
Definition tp3 : tparams := {| tp_iters := 3; tp_max := 25; tp_rev := false |}.
Example typer_cascade :
  typer_matches tp3 [] fp_casc [] [true; true; true] [false; false; false] [("z", [mkq 0 1; mkq 1 1])] = true /\
  typer_cascade_rounds tp3 [] fp_casc [] [true; true; true] [false; false; false] = 1%nat /\
  body_single fp_casc = true /\ check_types fp_casc [("z", [mkq 0 1; mkq 1 1])] = true.
Proof. apply and_assoc. split; [apply run_check_spec | split]; vm_compute; reflexivity. Qed.

(* with Polar's default budget the counter fails inside the budget phase (26 values) *)
Example typer_counter_default_budget :
  typer_matches tp_default [] fp_casc [] [true; true; true] [false; false; false] [("z", [mkq 0 1; mkq 1 1])] = true /\
  typer_cascade_rounds tp_default [] fp_casc [] [true; true; true] [false; false; false] = 0%nat.
Proof. apply run_check_spec. vm_compute. reflexivity. Qed.

(* a chain of readers  c = b; b = a; a = x; x = x + 1  (in this order) with a budget of 2 rounds:
   the cascade fails x and a, then b (reads the failed a), then c: several cascade rounds *)
Definition fp_chain : flatprog :=
  {| fp_init := [det "x" (qe 0); det "a" (qe 0); det "b" (qe 0); det "c" (qe 0); det "k" (qe 0)];
     fp_body := [det "c" (EVar "b"); det "b" (EVar "a"); det "a" (EVar "x"); det "x" (EAdd (EVar "x") (qe 1));
                 {| ga_var := "k"; ga_cond := CTrue; ga_default := "k"; ga_rhs := RDraw (DBern (EConst (mkq 1 2))) |}] |}.
Definition tp2 : tparams := {| tp_iters := 2; tp_max := 25; tp_rev := false |}.
Example typer_cascade_chain :
  typer_matches tp2 [] fp_chain [] [true; true; true; true; true] [false; false; false; false; false]
                [("k", [mkq 0 1; mkq 1 1])] = true /\
  typer_cascade_rounds tp2 [] fp_chain [] [true; true; true; true; true] [false; false; false; false; false] = 3%nat.
Proof. apply run_check_spec. vm_compute. reflexivity. Qed.
