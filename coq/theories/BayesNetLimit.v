(* C15 — the limit of the sampling-time count: E[count after n iterations] = geom (1 - q) n
   (BayesNetQuery.sampling_count_n) converges to 1 / q, the expected number of samples until
   the evidence is observed.  All real-number material (Reals, Coquelicot) is confined to this
   file; BayesNetQuery.v and BayesNetJoint.v stay axiom-free.  The embedding QcR of Qc into R
   and its lemmas are those of AfterLoopLimit.v. *)
From Coq Require Import QArith Qcanon Qreals Reals Lra.
From Coquelicot Require Import Coquelicot.
From Polar Require Import Qcx AfterLoopLimit BayesNet BayesNetSem BayesNetSpec BayesNetQuery BayesNetJoint.

Lemma geom_real (q : Qc) n :
  (0 < q)%Qc -> QcR (geom (1 - q) n) = ((1 - (1 - QcR q) ^ S n) / QcR q)%R.
Proof.
  intros Hq. apply QcR_lt in Hq. rewrite QcR_0 in Hq.
  assert (E : (QcR q * QcR (geom (1 - q) n) = 1 - (1 - QcR q) ^ S n)%R).
  { rewrite <- QcR_mult, sampling_closed_form, QcR_minus, QcR_qpow, QcR_minus, QcR_1. reflexivity. }
  rewrite <- E. field. lra.
Qed.

Theorem sampling_time_limit : forall q : Qc, (0 < q)%Qc -> (q <= 1)%Qc ->
  is_lim_seq (fun n => Q2R (geom (1 - q) n)) (/ Q2R q)%R.
Proof.
  intros q Hq0 Hq1. fold (QcR q).
  apply (is_lim_seq_ext (fun n => ((1 - (1 - QcR q) ^ S n) / QcR q)%R)).
  { intros n. symmetry. apply (geom_real q n Hq0). }
  pose proof (QcR_lt _ _ Hq0) as H0. rewrite QcR_0 in H0.
  pose proof (QcR_le _ _ Hq1) as H1. rewrite QcR_1 in H1.
  assert (Hpow : is_lim_seq (fun n => ((1 - QcR q) ^ S n)%R) 0%R).
  { apply (is_lim_seq_incr_1 (fun n => ((1 - QcR q) ^ n)%R)).
    apply is_lim_seq_geom. rewrite Rabs_pos_eq; lra. }
  replace (Finite (/ QcR q)%R) with (Rbar_mult (Rbar_minus 1%R 0%R) (Finite (/ QcR q)%R)).
  - unfold Rdiv. apply is_lim_seq_mult'.
    + apply is_lim_seq_minus'; [apply is_lim_seq_const | exact Hpow].
    + apply is_lim_seq_const.
  - cbn. f_equal. ring.
Qed.

(* combined with BayesNetQuery.sampling_count_n: the expected count of the generated loop
   body ++ qs_sample m c after n iterations converges to 1 / q *)
Theorem sampling_time_program_limit :
  forall (body : list BayesNet.gstmt) (m : nat) (c : BayesNet.gcond) (q : Qc),
    (forall s, BayesNetSem.mass (BayesNetSem.exec_body body s) (BayesNetSem.cond_true c) = q) ->
    (forall s, BayesNetSem.expect (BayesNetSem.exec_body body s) (fun _ => 1%Qc) = 1%Qc) ->
    (forall s ws, List.In ws (BayesNetSem.exec_body body s) ->
                  snd ws m = s m /\ snd ws (S m) = s (S m)) ->
    forall s0 : BayesNetSem.state, s0 m = 1%nat -> s0 (S m) = 1%nat ->
    (0 < q)%Qc -> (q <= 1)%Qc ->
    is_lim_seq (fun n => Q2R (BayesNetSem.expect
                                (BayesNetSem.iter_body (body ++ qs_sample m c) n (cons (1%Qc, s0) nil))
                                (fun s => qnat (s m))))
               (/ Q2R q)%R.
Proof.
  intros body m c q Hq Htot Hframe s0 Hm HSm Hq0 Hq1.
  apply (is_lim_seq_ext (fun n => Q2R (geom (1 - q) n))).
  - intros n. rewrite (sampling_count_n body m c q Hq Htot Hframe s0 Hm HSm n). reflexivity.
  - apply sampling_time_limit; assumption.
Qed.

(* the same for the program generated for a sampling-time query, q = P(evidence) by enumeration *)
Theorem sampling_time_limit_of_wf_network net ev p :
  wf_network net -> codegen net (QSample ev) = Some p ->
  exists c, resolve_evidence net ev = Some c /\
    let q := joint_expect net (fun a => ind (ev_holds c a)) in
    ((0 < q)%Qc -> (q <= 1)%Qc ->
     is_lim_seq (fun n => Q2R (expect (run p n) (fun s => qnat (s (length net))))) (/ Q2R q)%R).
Proof.
  intros Hwf Hc. destruct (sampling_time_program net ev p Hwf Hc) as [c [Hr Hn]].
  exists c. split; [exact Hr|]. cbv zeta. intros H0 H1.
  apply (is_lim_seq_ext (fun n => Q2R (geom (1 - joint_expect net (fun a => ind (ev_holds c a))) n))).
  - intros n. rewrite Hn. reflexivity.
  - apply sampling_time_limit; assumption.
Qed.
