(* C13 — theorems about the GENERATED definitions of gen/FuncGen.v (translated on every run
   from program/assignment/functional_assignment.py and the cf/mgf of the integer-supported
   families) and gen/DistGen.v (mgf_exists_at of every family). *)
From Coq Require Import List ZArith Lia Arith Bool String Ring QArith Qcanon.
From Polar Require Import Qcx CRing Stats Func DistBase DistProofs.
From PolarGen Require Import FuncGen DistGen.
Import ListNotations.
Local Open Scope string_scope.

(* get_func_moment: which branch answers a request *)
Definition has_trig (fp : fdict) : bool := orb (fmem "Sin" fp) (fmem "Cos" fp).
Definition has_exp (fp : fdict) : bool := fmem "Exp" fp.
(* the request E[sin(X) exp(X)] *)
Definition mixed_witness : fdict := [("Sin", 1%nat); ("Exp", 1%nat)].

(* [get_func_moment fp] depends on [fp] only through three membership tests (the third, of the key
   "Expt", only in the code before /repo 45d8020, which these proofs accept as well): every statement
   about it is a truth table with eight rows.  The answer is unfolded once, in an equation of its own, and the
   messages of its DRaise (as literals, most of the term) are made variables before the rows are split. *)
Ltac dispatch_cases fp :=
  let d := fresh "d" in let E := fresh "E" in
  remember (get_func_moment fp) as d eqn:E; unfold get_func_moment in E; fold (has_trig fp) (has_exp fp) in E;
  revert E; generalize (has_trig fp) (has_exp fp) (fmem "Expt" fp);
  repeat match goal with |- context [DRaise (String ?c ?s)] => generalize (String c s); intro end;
  intros [] [] []; cbv [andb]; intros ->; cbv [is_raise].

(* the trig branch is only taken for requests with a Sin or Cos power, the exp branch exactly for
   requests with an Exp power and no Sin/Cos power, a request with neither is rejected *)
Lemma dispatch_model fp :
  (get_func_moment fp = DTrig -> has_trig fp = true) /\
  (get_func_moment fp = DExp <-> (has_exp fp = true /\ has_trig fp = false)) /\
  (has_trig fp = false -> has_exp fp = false -> is_raise (get_func_moment fp) = true) /\
  (has_trig fp = true -> has_exp fp = false -> fmem "Expt" fp = false -> get_func_moment fp = DTrig).
Proof. dispatch_cases fp; intuition discriminate. Qed.

(* mixed requests (Sin/Cos together with Exp; the docstring: "Exp can be mixed with Id" only):
   whether ALL of them are rejected is decided by the single witness request *)
Lemma dispatch_mixed_decided_by_witness :
  is_raise (get_func_moment mixed_witness) = true ->
  forall fp, has_trig fp = true -> has_exp fp = true -> is_raise (get_func_moment fp) = true.
Proof.
  (* a row in which a mixed request is not rejected is the row of the witness *)
  intros H fp. dispatch_cases fp; intros H1 H2; try discriminate; try reflexivity; exact H.
Qed.

Lemma fget_if k fp : (if fmem k fp then fget k fp else 0%nat) = fget k fp.
Proof. exact (fget_default_eq k fp). Qed.

Section Trig.
  Variable R : cring.
  Add Ring Rr2 : (rth R).
  Local Open Scope cr_scope.
  Notation rpow := (@rpow R).
  Notation zr := (@zr R).

  Variable Iu : R.
  Variable tn : bool.     (* isinstance(dist, TruncNormal): irrelevant for the value *)
  (* e m stands for exp(i m) *)
  Variable e : Z -> R.
  Hypothesis e_0 : e 0%Z = r1.
  Hypothesis e_add : forall m n, e (m + n)%Z = e m * e n.

  (* dist.get_moment(a) of a law *)
  Definition mom_of (L : zlaw R) (a : nat) : R := Ez L (fun v => rpow (zr v) a).

  (* derivatives of a characteristic function at frequency 0: phi^(a)(0) = i^a E[X^a], in particular phi(0) = 1 *)
  Lemma dtf_zero_freq (L : zlaw R) a : dtf_of e Iu L a 0%Z = rpow Iu a * mom_of L a.
  Proof.
    rewrite dtf_of_eq. unfold mom_of. rewrite <- Ez_scal. apply Ez_ext. intros v.
    rewrite Z.mul_0_l, e_0, rpow_mul_base. ring.
  Qed.
  Lemma dtf_mass (L : zlaw R) : Ez L (fun _ => r1) = r1 -> dtf_of e Iu L 0 0%Z = r1.
  Proof. intros H. rewrite dtf_zero_freq. unfold mom_of. cbn [rpow]. rewrite H. ring. Qed.

  (* the term the loop body picks for frequency m and identity power a is, in each of its branches
     (1, the moment, dist.cf, diff(dist.cf(t), t, a)), the a-th formal t-derivative of the law's
     characteristic function at m *)
  Lemma cf_term_eq (L : zlaw R) a m : Ez L (fun _ => r1) = r1 ->
    (if (m =? 0)%Z && (a =? 0)%nat then r1
     else if (m =? 0)%Z && negb tn then rpow Iu a * mom_of L a
     else if (a =? 0)%nat then tf_of e L m else dtf_of e Iu L a m)
    = dtf_of e Iu L a m.
  Proof.
    intros Hmass. rewrite dtf_of_if. destruct (Z.eqb_spec m 0) as [->|_]; [|reflexivity].
    destruct (Nat.eqb_spec a 0) as [->|_]; [symmetry; apply dtf_mass; exact Hmass|].
    destruct tn; [reflexivity | symmetry; apply dtf_zero_freq].
  Qed.

  (* the double sum of get_trig_moment: binomial coefficients and sign times a function F of the
     frequency 2(k1+k2)-c-b *)
  Definition trig_sum (b c : nat) (F : Z -> R) : R :=
    rsum (seq 0 (S c)) (fun k1 => rsum (seq 0 (S b)) (fun k2 =>
      zr (binom c k1 * binom b k2 * (-1) ^ Z.of_nat (b - k2))
      * F (2 * (Z.of_nat k1 + Z.of_nat k2) - Z.of_nat c - Z.of_nat b)%Z)).

  Lemma trig_sum_ext b c F G : (forall m, F m = G m) -> trig_sum b c F = trig_sum b c G.
  Proof. intros H. apply rsum_ext. intros k1 _. apply rsum_ext. intros k2 _. rewrite H. reflexivity. Qed.
  Lemma trig_sum_scal b c w F : trig_sum b c (fun m => w * F m) = w * trig_sum b c F.
  Proof.
    unfold trig_sum. rewrite <- rsum_scal. apply rsum_ext. intros k1 _.
    rewrite <- rsum_scal. apply rsum_ext. intros k2 _. ring.
  Qed.
  Lemma trig_sum_Ez b c (L : zlaw R) (g : Z -> Z -> R) :
    trig_sum b c (fun m => Ez L (g m)) = Ez L (fun v => trig_sum b c (fun m => g m v)).
  Proof.
    unfold trig_sum. rewrite Ez_rsum. apply rsum_ext. intros k1 _.
    rewrite Ez_rsum. apply rsum_ext. intros k2 _. symmetry. apply Ez_scal.
  Qed.

  (* what the translated double loop computes for a law L of total mass 1 *)
  Lemma trig_num_as_sum (L : zlaw R) fp :
    Ez L (fun _ => r1) = r1 ->
    get_trig_moment_num R Iu tn (mom_of L) (tf_of e L) (dtf_of e Iu L) fp
    = trig_sum (fget "Sin" fp) (fget "Cos" fp) (dtf_of e Iu L (fget "Id" fp)).
  Proof.
    intros Hmass. unfold get_trig_moment_num. rewrite !fget_if.
    (* the loop body mentions the three powers many times: variables keep the goal small *)
    generalize (fget "Id" fp) (fget "Sin" fp) (fget "Cos" fp). intros a b c. cbv zeta.
    rewrite !pyrange_0, !Nat.add_1_r. rewrite <- (Radd_0_l (rth R) (trig_sum _ _ _)).
    apply fold_left_step2. intros acc k1 k2. f_equal. f_equal. apply cf_term_eq. exact Hmass.
  Qed.

  Lemma trig_den_eq (mom : nat -> R) (cf : Z -> R) (dcf : nat -> Z -> R) fp :
    get_trig_moment_den R Iu tn mom cf dcf fp
    = rpow Iu (fget "Id" fp + fget "Sin" fp) * rpow (zr 2) (fget "Cos" fp + fget "Sin" fp).
  Proof. unfold get_trig_moment_den. rewrite !fget_if. cbv zeta. rewrite zr_pow. reflexivity. Qed.

  Lemma trig_double_sum (b c : nat) (v : Z) :
    trig_sum b c (fun m => e (m * v)%Z) = rpow (e v - e (- v)%Z) b * rpow (e v + e (- v)%Z) c.
  Proof.
    rewrite (prod_to_sum_ring R (e v) (e (- v)%Z) b c).
    apply rsum_ext. intros k1 H1. apply rsum_ext. intros k2 H2.
    apply in_seq in H1. apply in_seq in H2.
    rewrite !zr_mul, zr_pow, zr_m1. unfold br.
    replace (2 * (Z.of_nat k1 + Z.of_nat k2) - Z.of_nat c - Z.of_nat b)%Z
      with (Z.of_nat (k1 + k2) - Z.of_nat ((b + c) - (k1 + k2)))%Z by lia.
    rewrite (e_diff R e e_0 e_add). ring.
  Qed.

  (* PRODUCT-TO-SUM, on the generated definition: for the Dirac law at v, whose characteristic
     function is the formal monomial m |-> z^(m v) = e (m v), and no identity power, the double sum
     of get_trig_moment is (z^v - z^-v)^b (z^v + z^-v)^c and its divisor is i^b 2^(c+b): the quotient
     is ((z^v - z^-v)/(2i))^b ((z^v + z^-v)/2)^c = sin^b(v) cos^c(v) written with z = exp(i). *)
  Definition dirac (v : Z) : zlaw R := [(r1, v)].
  Lemma Ez_dirac v g : Ez (dirac v) g = g v.
  Proof. unfold Ez, dirac. cbn [rsum fold_right fst snd]. ring. Qed.
  Theorem prod_to_sum_gen (b c : nat) (v : Z) :
    get_trig_moment_num R Iu tn (mom_of (dirac v)) (tf_of e (dirac v)) (dtf_of e Iu (dirac v)) [("Sin", b); ("Cos", c)]
    = rpow (e v - e (- v)%Z) b * rpow (e v + e (- v)%Z) c
    /\ get_trig_moment_den R Iu tn (mom_of (dirac v)) (tf_of e (dirac v)) (dtf_of e Iu (dirac v)) [("Sin", b); ("Cos", c)]
       = rpow Iu b * rpow (zr 2) (c + b).
  Proof.
    split.
    - rewrite trig_num_as_sum by apply Ez_dirac. cbn [fget String.eqb Ascii.eqb Bool.eqb].
      rewrite <- trig_double_sum. apply trig_sum_ext. intros m.
      rewrite dtf_of_eq, Ez_dirac. cbn [rpow]. ring.
    - rewrite trig_den_eq. cbn [fget String.eqb Ascii.eqb Bool.eqb Nat.add]. reflexivity.
  Qed.

  (* sin and cos of the integer points, characterised by Euler's formulas *)
  Variable sn cs : Z -> R.
  Hypothesis sn_def : forall v, zr 2 * Iu * sn v = e v - e (- v)%Z.
  Hypothesis cs_def : forall v, zr 2 * cs v = e v + e (- v)%Z.

  Lemma trig_sum_exact (L : zlaw R) (a b c : nat) :
    trig_sum b c (dtf_of e Iu L a)
    = rpow Iu (a + b) * rpow (zr 2) (c + b) * Ez L (fun v => rpow (zr v) a * rpow (sn v) b * rpow (cs v) c).
  Proof.
    (* each term is the law's sum of (i v)^a z^(m v); exchange that sum with the double sum *)
    rewrite (trig_sum_ext _ _ _ _ (dtf_of_eq R e Iu L a)), trig_sum_Ez, <- Ez_scal.
    apply Ez_ext. intros v.
    rewrite trig_sum_scal, trig_double_sum, <- sn_def, <- cs_def, !rpow_mul_base, !rpow_add. ring.
  Qed.

  (* MAIN THEOREM (trigonometric moments of integer-supported finite laws), all a, b, c, all laws:
     with dist.cf and its t-derivatives being those of the law L (formal exponential sums), the
     translated numerator equals the translated divisor times the defining sum
     E[X^a sin^b(X) cos^c(X)] = sum_j p_j v_j^a sin(v_j)^b cos(v_j)^c. *)
  Theorem trig_moment_discrete_exact (L : zlaw R) (fp : fdict) :
    Ez L (fun _ => r1) = r1 ->
    get_trig_moment_num R Iu tn (mom_of L) (tf_of e L) (dtf_of e Iu L) fp
    = get_trig_moment_den R Iu tn (mom_of L) (tf_of e L) (dtf_of e Iu L) fp
      * Ez L (fun v => rpow (zr v) (fget "Id" fp) * rpow (sn v) (fget "Sin" fp) * rpow (cs v) (fget "Cos" fp)).
  Proof. intros Hmass. rewrite trig_num_as_sum by exact Hmass. rewrite trig_den_eq. apply trig_sum_exact. Qed.

  (* Bernoulli(p): the translated cf is the formal exponential sum of the law {0: 1-p, 1: p} *)
  Theorem bernoulli_cf_is_law (p : R) (t : Z) :
    bernoulli_cf R e p t = tf_of e [(r1 - p, 0%Z); (p, 1%Z)] t.
  Proof.
    unfold bernoulli_cf, tf_of, eeval. cbn [rsum fold_right fst snd].
    rewrite Z.mul_0_r, Z.mul_1_r, e_0. ring.
  Qed.

  (* DiscreteUniform(a, a+n-1): the translated closed form num/den is the geometric sum *)
  Lemma geometric_sum (a : Z) (n : nat) (t : Z) :
    (r1 - e t) * rsum (seq 0 n) (fun j => e ((a + Z.of_nat j) * t)%Z) = e (a * t)%Z - e ((a + Z.of_nat n) * t)%Z.
  Proof.
    induction n as [|n IH].
    - cbn [seq]. rewrite rsum_nil. replace (a + Z.of_nat 0)%Z with a by lia. ring.
    - rewrite seq_S, rsum_app, rsum_cons, rsum_nil. cbn [Nat.add].
      replace ((a + Z.of_nat (S n)) * t)%Z with (t + (a + Z.of_nat n) * t)%Z by lia.
      rewrite e_add.
      transitivity ((r1 - e t) * rsum (seq 0 n) (fun j => e ((a + Z.of_nat j) * t)%Z)
                    + (r1 - e t) * e ((a + Z.of_nat n) * t)%Z); [ring|].
      rewrite IH. ring.
  Qed.
  Definition du_law (w : R) (a : Z) (n : nat) : zlaw R := map (fun j => (w, (a + Z.of_nat j)%Z)) (seq 0 n).
  Lemma tf_of_du_law w a n t :
    tf_of e (du_law w a n) t = w * rsum (seq 0 n) (fun j => e ((a + Z.of_nat j) * t)%Z).
  Proof.
    unfold tf_of, eeval, du_law. rewrite rsum_map, <- rsum_scal. apply rsum_ext. intros j _.
    cbn [fst snd]. rewrite Z.mul_comm. reflexivity.
  Qed.
  Theorem du_cf_closed_form (w : R) (a : Z) (n : nat) (t : Z) :
    zr (Z.of_nat n) * w = r1 ->       (* w = 1/n, the weight of each of the n values a .. a+n-1 *)
    discreteuniform_cf_den R e a (a + Z.of_nat n - 1)%Z t * tf_of e (du_law w a n) t
    = discreteuniform_cf_num R e a (a + Z.of_nat n - 1)%Z t.
  Proof.
    intros Hw. unfold discreteuniform_cf_den, discreteuniform_cf_num. rewrite tf_of_du_law.
    replace (a + Z.of_nat n - 1 - a + 1)%Z with (Z.of_nat n) by lia.
    replace (a + Z.of_nat n - 1 + 1)%Z with (a + Z.of_nat n)%Z by lia.
    rewrite <- geometric_sum.
    transitivity ((zr (Z.of_nat n) * w) * ((r1 - e t) * rsum (seq 0 n) (fun j => e ((a + Z.of_nat j) * t)%Z))); [ring|].
    rewrite Hw. ring.
  Qed.
  (* ... but at frequency 0 the closed form is 0/0 (removable singularity): Polar evaluates it
     there (e.g. Cos power 2 -> frequency 0), gets nan and dies on `assert im(result) == 0` *)
  Theorem du_cf_zero_over_zero (a b : Z) :
    discreteuniform_cf_num R e a b 0%Z = r0 /\ discreteuniform_cf_den R e a b 0%Z = r0.
  Proof.
    unfold discreteuniform_cf_num, discreteuniform_cf_den. rewrite !Z.mul_0_r, e_0. split; ring.
  Qed.
End Trig.

Section ExpM.
  Variable R : cring.
  Add Ring Rr3 : (rth R).
  Local Open Scope cr_scope.
  Notation rpow := (@rpow R).
  Notation zr := (@zr R).

  Lemma exp_moment_unfold ex (mgf : Z -> R) dmgf conv fp :
    get_exp_moment R ex mgf dmgf conv fp
    = if ex (Z.of_nat (fget "Exp" fp))
      then Some (conv (if (fget "Id" fp =? 0)%nat then mgf (Z.of_nat (fget "Exp" fp))
                       else dmgf (fget "Id" fp) (Z.of_nat (fget "Exp" fp))))
      else None.
  Proof.
    unfold get_exp_moment. rewrite !fget_if. cbv zeta.
    destruct (ex (Z.of_nat (fget "Exp" fp))); reflexivity.
  Qed.

  (* a request outside the domain reported by mgf_exists_at is rejected, one inside is answered *)
  Theorem exp_moment_rejected_iff ex (mgf : Z -> R) dmgf conv fp :
    get_exp_moment R ex mgf dmgf conv fp = None <-> ex (Z.of_nat (fget "Exp" fp)) = false.
  Proof.
    rewrite exp_moment_unfold. destruct (ex (Z.of_nat (fget "Exp" fp))); split; intros H; try discriminate; reflexivity.
  Qed.

  (* ew m stands for exp(m) *)
  Variable ew : Z -> R.
  Hypothesis ew_0 : ew 0%Z = r1.
  Hypothesis ew_add : forall m n, ew (m + n)%Z = ew m * ew n.

  (* exponential moments of integer-supported finite laws, all a, c, all laws: with dist.mgf and
     its t-derivatives those of the law L, the translated get_exp_moment returns (up to
     convert_func_moment) the defining sum E[X^a exp(X)^c] whenever it answers *)
  Theorem exp_moment_discrete_exact ex conv (L : zlaw R) fp :
    get_exp_moment R ex (tf_of ew L) (dtf_of ew r1 L) conv fp
    = if ex (Z.of_nat (fget "Exp" fp))
      then Some (conv (Ez L (fun v => rpow (zr v) (fget "Id" fp) * rpow (ew v) (fget "Exp" fp))))
      else None.
  Proof.
    rewrite exp_moment_unfold. destruct (ex (Z.of_nat (fget "Exp" fp))); [|reflexivity].
    rewrite dtf_of_if, dtf_of_eq. f_equal. f_equal. apply Ez_ext. intros v.
    rewrite (e_natmul R ew ew_0 ew_add). f_equal. f_equal. apply (Rmul_1_l (rth R)).
  Qed.
End ExpM.

(* Existence of exponential moments: mgf_exists_at of every family (gen/DistGen.v) *)
Local Open Scope Qc_scope.

(* the order c of the requested exponential moment E[X^a exp(c X)] as a rational *)
Definition qz (m : Z) : Qc := zq m.

Section Domains.
  Variable R : cring.
  Variables (mgf : Z -> R) (dmgf : nat -> Z -> R) (conv : R -> R).

  Lemma exp_moment_rejected_outside (ex : Qc -> bool) (P : Qc -> Prop) :
    (forall t, ex t = true <-> P t) -> forall fp,
    get_exp_moment R (fun m => ex (qz m)) mgf dmgf conv fp = None <-> ~ P (qz (Z.of_nat (fget "Exp" fp))).
  Proof. intros H fp. rewrite exp_moment_rejected_iff, <- H. symmetry. apply not_true_iff_false. Qed.

  (* every other family: mgf_exists_at is constantly True, nothing is rejected *)
  Lemma exp_moment_answered (ex : Z -> bool) fp :
    (forall m, ex m = true) -> get_exp_moment R ex mgf dmgf conv fp <> None.
  Proof. intros H. rewrite exp_moment_rejected_iff, H. discriminate. Qed.
  Theorem exp_moment_domain_everywhere fp :
    (forall p, get_exp_moment R (fun m => bernoulli_mgf_exists_at p (qz m)) mgf dmgf conv fp <> None) /\
    (forall a b, get_exp_moment R (fun m => discreteuniform_mgf_exists_at a b (qz m)) mgf dmgf conv fp <> None) /\
    (forall a b, get_exp_moment R (fun m => uniform_mgf_exists_at a b (qz m)) mgf dmgf conv fp <> None) /\
    (forall a b, get_exp_moment R (fun m => beta2_mgf_exists_at a b (qz m)) mgf dmgf conv fp <> None) /\
    (forall a b s, get_exp_moment R (fun m => beta3_mgf_exists_at a b s (qz m)) mgf dmgf conv fp <> None) /\
    (forall m s, get_exp_moment R (fun t => normal_mgf_exists_at m s (qz t)) mgf dmgf conv fp <> None) /\
    (forall m s a b, get_exp_moment R (fun t => truncnormal_mgf_exists_at m s a b (qz t)) mgf dmgf conv fp <> None).
  Proof. repeat split; intros; apply exp_moment_answered; reflexivity. Qed.
End Domains.

Section Const.
  Variables (A V : Type) (fsin fcos fexp : A -> V) (vpow : V -> nat -> V).
  Variables (is_Rational : V -> bool) (round_to : nat -> V -> V).

  Lemma convert_rational ex m : is_Rational m = true -> convert_func_moment ex is_Rational round_to m = m.
  Proof. intros H. unfold convert_func_moment. rewrite H, orb_true_r. reflexivity. Qed.
  Lemma convert_rounds m :
    is_Rational m = false -> convert_func_moment false is_Rational round_to m = round_to 20%nat m.
  Proof. intros H. unfold convert_func_moment. rewrite H. reflexivity. Qed.

  (* the function named by a functional assignment *)
  Definition func_named (f : string) : option (A -> V) :=
    if String.eqb f "Sin" then Some fsin else if String.eqb f "Cos" then Some fcos
    else if String.eqb f "Exp" then Some fexp else None.

  (* Sin/Cos/Exp of a constant c to the power k is f(c)^k in exact mode (and for rational values),
     its 20-digit rounding otherwise; an unknown function name is rejected *)
  Theorem const_func_moment ex (func : string) (c : A) (k : nat) :
    get_const_moment fsin fcos fexp vpow (convert_func_moment ex is_Rational round_to) func c k
    = match func_named func with
      | Some f => Some (if orb ex (is_Rational (vpow (f c) k)) then vpow (f c) k else round_to 20%nat (vpow (f c) k))
      | None => None
      end.
  Proof.
    unfold get_const_moment, func_named, convert_func_moment.
    destruct (String.eqb func "Sin"); [reflexivity|].
    destruct (String.eqb func "Cos"); [reflexivity|].
    destruct (String.eqb func "Exp"); reflexivity.
  Qed.
End Const.
