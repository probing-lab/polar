(* C06 — reported polynomial invariants hold on the goal sequences.
   Multivariate polynomials over a commutative ring as lists of monomials (coefficient,
   exponent vector over the goal indices).  [poly_eval_ep] evaluates a polynomial at a tuple of
   exponential polynomials INSIDE the exp-poly ring of ExpPoly.v; its evaluation homomorphism
   and [ezero_sound] give the verified validator:
       check_invariant B F = true  ->  forall n, B(F_1(n), ..., F_k(n)) = 0.
   Also: a sound syntactic zero test for polynomials (used by C07 for cofactor identities). *)
From Coq Require Import List Bool Arith Lia Ring.
From Polar Require Import CRing ExpPoly.
Import ListNotations.

Section Inv.
  Variable R : cring.
  Add Ring Rring : (rth R).
  Local Open Scope cr_scope.
  Local Notation z0 := (@r0 R).
  Local Notation z1 := (@r1 R).

  Definition monomial := (R * list nat)%type.
  Definition mpoly := list monomial.

  Fixpoint mon_eval (es : list nat) (xs : list R) : R :=
    match es, xs with
    | e :: es', x :: xs' => rpow x e * mon_eval es' xs'
    | _, _ => z1
    end.
  Fixpoint poly_eval (B : mpoly) (xs : list R) : R :=
    match B with
    | [] => z0
    | m :: B' => fst m * mon_eval (snd m) xs + poly_eval B' xs
    end.

  (* the same, with exponential polynomials for the variables *)
  Fixpoint mon_eval_ep (es : list nat) (F : list (epoly R)) : epoly R :=
    match es, F with
    | e :: es', f :: F' => emul (epow f e) (mon_eval_ep es' F')
    | _, _ => econst z1
    end.
  Fixpoint poly_eval_ep (B : mpoly) (F : list (epoly R)) : epoly R :=
    match B with
    | [] => []
    | m :: B' => eadd (escale (fst m) (mon_eval_ep (snd m) F)) (poly_eval_ep B' F)
    end.

  Definition evalF (F : list (epoly R)) (n : nat) : list R := map (fun f => eeval f n) F.
  Lemma evalF_length F n : length (evalF F n) = length F.
  Proof. apply map_length. Qed.

  Lemma mon_eval_ep_hom es F n : eeval (mon_eval_ep es F) n = mon_eval es (evalF F n).
  Proof.
    revert F; induction es as [|e es IH]; intros [|f F]; cbn [mon_eval_ep mon_eval evalF map];
      try apply eeval_econst.
    rewrite eeval_emul, eeval_epow. fold (evalF F n). rewrite IH. reflexivity.
  Qed.
  Lemma poly_eval_ep_hom B F n : eeval (poly_eval_ep B F) n = poly_eval B (evalF F n).
  Proof.
    induction B as [|m B IH]; cbn [poly_eval_ep poly_eval]; [reflexivity|].
    rewrite eeval_eadd, eeval_escale, mon_eval_ep_hom, IH. reflexivity.
  Qed.

  Definition check_invariant (B : mpoly) (F : list (epoly R)) : bool :=
    forallb (fun m => Nat.eqb (length (snd m)) (length F)) B && ezero (poly_eval_ep B F).

  Theorem check_invariant_sound B F :
    check_invariant B F = true -> forall n, poly_eval B (evalF F n) = z0.
  Proof.
    unfold check_invariant. intros H n. apply andb_true_iff in H. destruct H as [_ H].
    rewrite <- poly_eval_ep_hom. apply ezero_sound. exact H.
  Qed.

  (* the property's wording: sequences that agree with the closed forms from n0 on (the special
     cases Polar lists are the n < n0) satisfy the invariant at every n >= n0 *)
  Corollary check_invariant_past_special B F n0 (s : nat -> list R) :
    check_invariant B F = true ->
    (forall n, n0 <= n -> s n = evalF F n) ->
    forall n, n0 <= n -> poly_eval B (s n) = z0.
  Proof. intros H Hs n Hn. rewrite (Hs n Hn). apply check_invariant_sound; exact H. Qed.

  Fixpoint eadd_exps (a b : list nat) : list nat :=
    match a, b with
    | [], _ => b
    | _, [] => a
    | x :: a', y :: b' => (x + y)%nat :: eadd_exps a' b'
    end.
  Definition mscale1 (m : monomial) (q : mpoly) : mpoly :=
    map (fun u => (fst m * fst u, eadd_exps (snd m) (snd u))) q.
  Fixpoint mpmul (p q : mpoly) : mpoly :=
    match p with [] => [] | m :: p' => mscale1 m q ++ mpmul p' q end.
  Definition mpscale (c : R) (p : mpoly) : mpoly := map (fun u => (c * fst u, snd u)) p.
  Definition mpneg (p : mpoly) : mpoly := mpscale (ropp z1) p.

  Lemma mon_eval_nil_l xs : mon_eval [] xs = z1.
  Proof. reflexivity. Qed.
  Lemma mon_eval_nil_r es : mon_eval es [] = z1.
  Proof. destruct es; reflexivity. Qed.
  (* both sides read the exponent lists only as far as xs goes *)
  Lemma mon_eval_add a : forall b xs, mon_eval (eadd_exps a b) xs = mon_eval a xs * mon_eval b xs.
  Proof.
    induction a as [|x a IH]; intros [|y b] [|v xs]; cbn [eadd_exps mon_eval]; [ring .. |].
    rewrite rpow_add, IH. ring.
  Qed.

  Definition exps_ok (k : nat) (p : mpoly) : bool := forallb (fun m => Nat.leb (length (snd m)) k) p.

  Lemma poly_eval_app p q xs : poly_eval (p ++ q) xs = poly_eval p xs + poly_eval q xs.
  Proof. induction p as [|m p IH]; cbn [app poly_eval]; [ring | rewrite IH; ring]. Qed.
  Lemma poly_eval_mpscale c p xs : poly_eval (mpscale c p) xs = c * poly_eval p xs.
  Proof. induction p as [|m p IH]; cbn [mpscale map poly_eval fst snd]; [ring | fold (mpscale c p); rewrite IH; ring]. Qed.
  Lemma poly_eval_mscale1 m q xs :
    poly_eval (mscale1 m q) xs = fst m * mon_eval (snd m) xs * poly_eval q xs.
  Proof.
    induction q as [|u q IH]; cbn [mscale1 map poly_eval fst snd]; [ring|].
    fold (mscale1 m q). rewrite IH, mon_eval_add. ring.
  Qed.
  Lemma poly_eval_mpmul p q xs : poly_eval (mpmul p q) xs = poly_eval p xs * poly_eval q xs.
  Proof.
    induction p as [|m p IH]; cbn [mpmul poly_eval]; [ring|].
    rewrite poly_eval_app, poly_eval_mscale1, IH. ring.
  Qed.

  (* normalisation: merge monomials with equal exponent vectors *)
  Fixpoint exps_eqb (a b : list nat) : bool :=
    match a, b with
    | [], [] => true
    | x :: a', y :: b' => Nat.eqb x y && exps_eqb a' b'
    | _, _ => false
    end.
  Lemma exps_eqb_eq a b : exps_eqb a b = true -> a = b.
  Proof.
    revert b; induction a as [|x a IH]; intros [|y b] H; simpl in H; try discriminate; [reflexivity|].
    apply andb_true_iff in H. destruct H as [H1 H2]. apply Nat.eqb_eq in H1. subst. f_equal. apply IH; exact H2.
  Qed.
  Fixpoint minsert (m : monomial) (p : mpoly) : mpoly :=
    match p with
    | [] => [m]
    | u :: p' => if exps_eqb (snd m) (snd u) then (fst m + fst u, snd u) :: p' else u :: minsert m p'
    end.
  Fixpoint mnorm (p : mpoly) : mpoly :=
    match p with [] => [] | m :: p' => minsert m (mnorm p') end.
  Definition mpzero (p : mpoly) : bool := forallb (fun m => reqb (fst m) z0) (mnorm p).

  Lemma poly_eval_minsert m p xs : poly_eval (minsert m p) xs = fst m * mon_eval (snd m) xs + poly_eval p xs.
  Proof.
    induction p as [|u p IH]; cbn [minsert poly_eval]; [reflexivity|].
    destruct (exps_eqb (snd m) (snd u)) eqn:E; cbn [poly_eval fst snd].
    - apply exps_eqb_eq in E. rewrite E. ring.
    - rewrite IH. ring.
  Qed.
  Lemma poly_eval_mnorm p xs : poly_eval (mnorm p) xs = poly_eval p xs.
  Proof. induction p as [|m p IH]; cbn [mnorm poly_eval]; [reflexivity | rewrite poly_eval_minsert, IH; reflexivity]. Qed.
  Lemma allzero_poly p xs : forallb (fun m => reqb (fst m) z0) p = true -> poly_eval p xs = z0.
  Proof.
    induction p as [|m p IH]; cbn [forallb poly_eval]; intros H; [reflexivity|].
    apply andb_true_iff in H. destruct H as [Hm Hp]. apply reqb_eq in Hm. rewrite Hm, (IH Hp). ring.
  Qed.
  Theorem mpzero_sound p : mpzero p = true -> forall xs, poly_eval p xs = z0.
  Proof. intros H xs. rewrite <- poly_eval_mnorm. apply allzero_poly; exact H. Qed.

  Definition mpeq (p q : mpoly) : bool := mpzero (p ++ mpneg q).
  Theorem mpeq_sound p q : mpeq p q = true -> forall xs, poly_eval p xs = poly_eval q xs.
  Proof.
    intros H xs. pose proof (mpzero_sound _ H xs) as E.
    rewrite poly_eval_app in E. unfold mpneg in E. rewrite poly_eval_mpscale in E.
    transitivity (poly_eval p xs + ropp z1 * poly_eval q xs + poly_eval q xs); [ring | rewrite E; ring].
  Qed.
End Inv.

Arguments mon_eval {R} _ _. Arguments poly_eval {R} _ _. Arguments poly_eval_ep {R} _ _.
Arguments mon_eval_ep {R} _ _. Arguments evalF {R} _ _. Arguments check_invariant {R} _ _.
Arguments mpmul {R} _ _. Arguments mpscale {R} _ _. Arguments mpneg {R} _. Arguments mpzero {R} _.
Arguments mpeq {R} _ _. Arguments exps_ok {R} _ _. Arguments mnorm {R} _.
