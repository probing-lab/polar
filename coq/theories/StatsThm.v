(* Lemmas ABOUT the generated definitions of gen/StatsGen.v (translated on every
   run from utils/statistics.py, cli/common.py:get_all_moments and the bound expressions of
   cli/actions/goals_action.py).  An edit of the Python changes the Coq terms these proofs
   are about. *)
From Coq Require Import List ZArith QArith Qcanon Lia Arith Bool Field.
From Polar Require Import Qcx Stats StatsFps.
From PolarGen Require Import StatsGen.
Import ListNotations.
Local Open Scope Qc_scope.

(* the translated comb (integer floor division n! // (k! (n-k)!)) is the binomial coefficient *)
Theorem comb_spec_lemma : forall n k : nat, comb n k = binom n k.
Proof. intros n k. unfold comb. apply comb_intdiv_spec. Qed.

(* d holds the raw moments 1..K of the law L (in any key order) *)
Definition moments_of (L : law) (K : nat) (d : pydict) : Prop :=
  dlen d = K /\ forall k, (1 <= k <= K)%nat -> dget d k = raw L k.

Definition dkeys (d : pydict) : list nat := map fst d.

Lemma dset_fresh d k v : ~ In k (dkeys d) -> dset d k v = d ++ [(k, v)].
Proof.
  induction d as [|[k' v'] d IH]; intros H; [reflexivity|].
  cbn [dset]. destruct (Nat.eqb k' k) eqn:E.
  - exfalso. apply H. left. apply Nat.eqb_eq in E. exact E.
  - cbn [app]. f_equal. apply IH. intros C. apply H. right. exact C.
Qed.

Lemma dget_table (f : nat -> Qc) l k : In k l -> dget (map (fun i => (i, f i)) l) k = f k.
Proof.
  induction l as [|x l IH]; intros H; [destruct H|].
  cbn [map dget]. destruct (Nat.eqb x k) eqn:E.
  - apply Nat.eqb_eq in E. subst x. reflexivity.
  - destruct H as [->|H]; [rewrite Nat.eqb_refl in E; discriminate | apply IH; exact H].
Qed.

(* get_all_moments builds the table i |-> get_moment(monom**i) in the order of its loop *)
Lemma get_all_moments_loop (mp : nat -> Qc) (ex : nat -> bool) l : forall b d,
  NoDup l -> (forall i, In i l -> ~ In i (dkeys d)) ->
  snd (fold_left (fun '(all_exact, moments) (i : nat) =>
                    (andb all_exact (ex i), dset moments i (mp i))) l (b, d))
  = d ++ map (fun i => (i, mp i)) l.
Proof.
  induction l as [|x l IH]; intros b d ND HF.
  - cbn. rewrite app_nil_r. reflexivity.
  - cbn [fold_left map]. rewrite IH.
    + rewrite dset_fresh by (apply HF; left; reflexivity). rewrite <- app_assoc. reflexivity.
    + inversion ND; assumption.
    + intros i Hi. rewrite dset_fresh by (apply HF; left; reflexivity).
      unfold dkeys. rewrite map_app, in_app_iff. cbn [map fst In].
      intros [C|[C|[]]].
      * apply (HF i); [right; exact Hi | exact C].
      * subst x. inversion ND; contradiction.
Qed.

Theorem get_all_moments_table (mp : nat -> Qc) (ex : nat -> bool) K :
  fst (get_all_moments mp ex K) = map (fun i => (i, mp i)) (rev (pyrange 1 (K + 1))).
Proof.
  unfold get_all_moments. cbv zeta.
  pose proof (get_all_moments_loop mp ex (rev (pyrange 1 (K + 1))) true dempty) as H.
  destruct (fold_left _ (rev (pyrange 1 (K + 1))) (true, dempty)) as [b d] eqn:E.
  cbn [fst]. cbn [snd] in H. rewrite H; [reflexivity | | intros i _ []].
  apply NoDup_rev. unfold pyrange. apply seq_NoDup.
Qed.

Theorem get_all_moments_spec L (ex : nat -> bool) K :
  moments_of L K (fst (get_all_moments (raw L) ex K)).
Proof.
  rewrite get_all_moments_table. split.
  - unfold dlen. rewrite map_length, rev_length. unfold pyrange. rewrite seq_length. lia.
  - intros k Hk. apply dget_table. apply -> in_rev. apply in_pyrange. lia.
Qed.

Lemma qpow_opp b n : qpow (- b) n = qpow (- (1)) n * qpow b n.
Proof. replace (- b) with (- (1) * b) by ring. apply qpow_mul. Qed.

Lemma central_1_zero L : mass L = 1 -> central L 1 = 0.
Proof.
  intros HM. unfold central.
  rewrite (Ex_ext L _ (fun v => v - raw L 1)) by (intros; apply qpow_one).
  rewrite Ex_shift1 by exact HM. ring.
Qed.

(* [raw_moments_to_X_with cmb] is the translated function with its callee `comb` abstracted
   (raw_moments_to_X = raw_moments_to_X_with comb).  The theorems from here on ask of cmb only
   that it is the binomial, so they hold with [binom] and, by [comb_spec_lemma], as Polar runs them. *)

(* centrals[1] is the literal 0 *)
Theorem centrals_key1 (cmb : nat -> nat -> Z) d :
  dget (raw_moments_to_centrals_with cmb d) 1 = 0.
Proof.
  unfold raw_moments_to_centrals_with. cbv zeta.
  etransitivity; [apply (dloop_untouched (fun _ i => _)); lia|].
  rewrite dget_dset_same. apply zq_0.
Qed.

Theorem centrals_exact_gen (cmb : nat -> nat -> Z) L K d i :
  (forall n k, (n <= K)%nat -> cmb n k = binom n k) ->
  mass L = 1 -> moments_of L K d -> (1 <= i <= K)%nat ->
  dget (raw_moments_to_centrals_with cmb d) i = central L i.
Proof.
  intros Hc HM [HL HD] Hi.
  destruct (Nat.eq_dec i 1) as [->|Hi1].
  { rewrite centrals_key1. symmetry. apply central_1_zero. exact HM. }
  unfold raw_moments_to_centrals_with. cbv zeta.
  change (length (ditems d)) with (dlen d). rewrite HL.
  etransitivity; [apply (dloop_at (fun _ i => _)); lia|]. cbv beta.
  etransitivity; [apply fold_left_add|].
  rewrite zq_0, Qcplus_0_l. replace (i + 1)%nat with (S i) by lia. rewrite pyrange_0.
  rewrite central_expansion. apply bigsum_ext. intros j Hj. apply in_seq in Hj.
  rewrite Hc by lia. rewrite zq_mul, zq_pow, zq_opp, zq_1.
  rewrite (HD 1%nat) by lia. rewrite (qpow_opp (raw L 1)). unfold bq.
  assert (Hm : (if (0 <? j)%nat then dget d j else 1) = raw L j).
  { destruct j as [|j]; cbn [Nat.ltb Nat.leb].
    - rewrite raw_0. symmetry. exact HM.
    - apply HD. lia. }
  rewrite Hm. ring.
Qed.

Theorem cumulants_recursion (cmb : nat -> nat -> Z) d i :
  (1 <= i <= dlen d)%nat ->
  let kap := raw_moments_to_cumulants_with cmb d in
  dget kap i = dget d i - bigsum (pyrange 1 i)
                 (fun k => zq (cmb (i - 1)%nat (k - 1)%nat) * dget kap k * dget d (i - k)%nat).
Proof.
  intros Hi. cbv zeta. unfold raw_moments_to_cumulants_with. cbv zeta.
  change (length (ditems d)) with (dlen d).
  set (g := fun (cumulants : pydict) (i : nat) =>
              fold_left (fun c_i k => c_i - zq (cmb (i - 1)%nat (k - 1)%nat) * dget cumulants k * dget d (i - k)%nat)
                        (pyrange 1 i) (dget d i)).
  change (fold_left _ (pyrange 1 (dlen d + 1)) dempty) with (dloop g 1 (dlen d + 1) dempty).
  transitivity (g (dloop g 1 (dlen d + 1) dempty) i); [|unfold g at 1; apply fold_left_sub].
  apply dloop_fix; [|lia]. intros c c' j H. unfold g. rewrite !fold_left_sub. f_equal. apply bigsum_ext.
  intros k Hk. apply in_pyrange in Hk. rewrite H by lia. reflexivity.
Qed.

(* the translated function, read as a sequence of cumulants *)
Definition cumulants_seq (cmb : nat -> nat -> Z) (d : pydict) : seqc :=
  fun i => dget (raw_moments_to_cumulants_with cmb d) i.

(* ... satisfies the moment-cumulant recursion m_i = sum_{k=1..i} C(i-1,k-1) kappa_k m_{i-k}
   w.r.t. the raw moments of the law (m_0 = 1) *)
Theorem cumulants_cum_rec (cmb : nat -> nat -> Z) L K d :
  (forall n k, (n <= K)%nat -> cmb n k = binom n k) ->
  mass L = 1 -> moments_of L K d -> cum_rec K (raw L) (cumulants_seq cmb d).
Proof.
  intros Hc HM [HL HD]. apply cum_rec_solved; [exact HM|]. intros i Hi. unfold cumulants_seq.
  rewrite (cumulants_recursion cmb d i), (HD i) by lia. f_equal. apply bigsum_ext.
  intros k Hk. apply in_pyrange in Hk. rewrite Hc, HD by lia. reflexivity.
Qed.

Lemma cumulants_unique (cmb : nat -> nat -> Z) L K d kap i :
  (forall n k, (n <= K)%nat -> cmb n k = binom n k) ->
  mass L = 1 -> moments_of L K d -> cum_rec K (raw L) kap -> (1 <= i <= K)%nat ->
  dget (raw_moments_to_cumulants_with cmb d) i = kap i.
Proof.
  intros Hc HM HD R Hi.
  exact (cum_rec_unique K (raw L) (cumulants_seq cmb d) kap HM (cumulants_cum_rec cmb L K d Hc HM HD) R i Hi).
Qed.

(* FULL STRENGTH, independent definition: the translated cumulants are the coefficients of
   the logarithm of the exponential generating function of the raw moments *)
Theorem cumulants_are_log_coefficients (cmb : nat -> nat -> Z) L K d i :
  (forall n k, (n <= K)%nat -> cmb n k = binom n k) ->
  mass L = 1 -> moments_of L K d -> (1 <= i <= K)%nat ->
  dget (raw_moments_to_cumulants_with cmb d) i = cumulant_log (raw L) i.
Proof.
  intros Hc HM HD Hi.
  apply (cum_rec_is_log K (raw L) (cumulants_seq cmb d)); [rewrite raw_0; exact HM | | exact Hi].
  apply cumulants_cum_rec; assumption.
Qed.

(* additivity over independent sums, EVERY order *)
Theorem cumulants_additive (cmb : nat -> nat -> Z) L1 L2 K d1 d2 d12 i :
  (forall n k, (n <= K)%nat -> cmb n k = binom n k) ->
  mass L1 = 1 -> mass L2 = 1 ->
  moments_of L1 K d1 -> moments_of L2 K d2 -> moments_of (indep_sum L1 L2) K d12 ->
  (1 <= i <= K)%nat ->
  dget (raw_moments_to_cumulants_with cmb d12) i
  = dget (raw_moments_to_cumulants_with cmb d1) i + dget (raw_moments_to_cumulants_with cmb d2) i.
Proof.
  intros Hc M1 M2 D1 D2 D12 Hi.
  apply (cumulants_unique cmb (indep_sum L1 L2) K d12 (sadd (cumulants_seq cmb d1) (cumulants_seq cmb d2)));
    try assumption.
  - rewrite mass_indep_sum, M1, M2. apply Qcmult_1_l.
  - apply cum_rec_indep_sum; apply cumulants_cum_rec; assumption.
Qed.

(* shift: kappa_1 (X + c) = kappa_1 X + c, kappa_i (X + c) = kappa_i X for i >= 2, EVERY order *)
Theorem cumulants_shift (cmb : nat -> nat -> Z) L c K d d' i :
  (forall n k, (n <= K)%nat -> cmb n k = binom n k) ->
  mass L = 1 -> moments_of L K d -> moments_of (shift_law c L) K d' -> (1 <= i <= K)%nat ->
  dget (raw_moments_to_cumulants_with cmb d') i
  = dget (raw_moments_to_cumulants_with cmb d) i + (if Nat.eqb i 1 then c else 0).
Proof.
  intros Hc HM HD HD' Hi.
  rewrite (cumulants_unique cmb (shift_law c L) K d'
             (sadd (cumulants_seq cmb d) (fun i => match i with 1%nat => c | _ => 0 end)));
    try assumption.
  - unfold sadd, cumulants_seq. destruct i as [|[|i]]; reflexivity.
  - rewrite mass_shift_law. exact HM.
  - apply cum_rec_shift_law, cumulants_cum_rec; assumption.
Qed.

(* homogeneity: kappa_i (c X) = c^i kappa_i X, EVERY order *)
Theorem cumulants_scale (cmb : nat -> nat -> Z) L c K d d' i :
  (forall n k, (n <= K)%nat -> cmb n k = binom n k) ->
  mass L = 1 -> moments_of L K d -> moments_of (scale_law c L) K d' -> (1 <= i <= K)%nat ->
  dget (raw_moments_to_cumulants_with cmb d') i = qpow c i * dget (raw_moments_to_cumulants_with cmb d) i.
Proof.
  intros Hc HM HD HD' Hi.
  apply (cumulants_unique cmb (scale_law c L) K d' (fun i => qpow c i * cumulants_seq cmb d i));
    try assumption.
  - rewrite mass_scale_law. exact HM.
  - apply cum_rec_scale_law, cumulants_cum_rec; assumption.
Qed.

Lemma tail_bound_upper_map a d :
  tail_bound_upper a d = rev (map (fun km => snd km / qpow a (fst km)) d).
Proof.
  unfold tail_bound_upper. cbv zeta. unfold ditems. f_equal. apply map_ext. intros [k m]. reflexivity.
Qed.

(* Polar's list: position j-1 (printed label j) holds E[X^j]/a^j *)
Theorem tail_bound_upper_listing a (mp : nat -> Qc) ex K :
  tail_bound_upper a (fst (get_all_moments mp ex K)) = map (fun k => mp k / qpow a k) (pyrange 1 (K + 1)).
Proof.
  rewrite tail_bound_upper_map, get_all_moments_table. rewrite map_map. cbn [fst snd].
  rewrite map_rev, rev_involutive. reflexivity.
Qed.

(* any dict of raw moments, whatever its key order *)
Theorem markov_bounds_valid_dict L a d :
  nonneg_weights L -> support_ge L 0 -> 0 < a ->
  (forall k m, In (k, m) d -> m = raw L k) ->
  Forall (fun b => Pge L a <= b) (tail_bound_upper a d).
Proof.
  intros HW HS Ha HD. rewrite tail_bound_upper_map. apply Forall_forall. intros b Hb.
  apply in_rev in Hb. apply in_map_iff in Hb. destruct Hb as [[k m] [<- Hkm]]. cbn [fst snd].
  rewrite (HD k m Hkm). apply markov_core; assumption.
Qed.

(* in particular the dict that get_all_moments builds *)
Theorem markov_bounds_valid L a ex K :
  nonneg_weights L -> support_ge L 0 -> 0 < a ->
  Forall (fun b => Pge L a <= b) (tail_bound_upper a (fst (get_all_moments (raw L) ex K))).
Proof.
  intros HW HS Ha. apply markov_bounds_valid_dict; try assumption.
  rewrite get_all_moments_table. intros k m H. apply in_map_iff in H. destruct H as [i [E _]].
  injection E as <- <-. reflexivity.
Qed.

Theorem second_moment_bound_valid L a K d :
  is_prob L -> support_ge L a -> moments_of L K d -> (2 <= K)%nat ->
  tail_bound_lower a d <= Pgt L a.
Proof.
  intros [HW HM] HS [_ HD] HK. unfold tail_bound_lower. cbv zeta.
  rewrite (HD 1%nat), (HD 2%nat) by lia. rewrite !qpow_two, zq_2.
  rewrite <- (Ex_shift1 L a HM). rewrite <- (Ex_shift2 L a HM).
  apply Qcdiv_le_of_mul.
  - apply Ex_nonneg; [exact HW|]. intros; apply Qcle_0_sq.
  - apply Pgt_nonneg. exact HW.
  - apply second_moment_core; assumption.
Qed.

Theorem second_moment_bound_polar L a ex :
  is_prob L -> support_ge L a ->
  tail_bound_lower a (fst (get_all_moments (raw L) ex tail_bound_lower_order)) <= Pgt L a.
Proof.
  intros HP HS. apply second_moment_bound_valid with (K := tail_bound_lower_order).
  - exact HP.
  - exact HS.
  - apply get_all_moments_spec.
  - unfold tail_bound_lower_order. lia.
Qed.

Theorem centrals_exact L K d i :
  mass L = 1 -> moments_of L K d -> (1 <= i <= K)%nat ->
  dget (raw_moments_to_centrals_with binom d) i = central L i.
Proof. apply centrals_exact_gen. reflexivity. Qed.

Theorem centrals_exact_polar L K d i :
  mass L = 1 -> moments_of L K d -> (1 <= i <= K)%nat ->
  dget (raw_moments_to_centrals d) i = central L i.
Proof. apply centrals_exact_gen. intros n k _. apply comb_spec_lemma. Qed.

Theorem cumulants_polar L K d i :
  mass L = 1 -> moments_of L K d -> (1 <= i <= K)%nat ->
  dget (raw_moments_to_cumulants d) i = cumulant_log (raw L) i.
Proof. apply cumulants_are_log_coefficients. intros n k _. apply comb_spec_lemma. Qed.
