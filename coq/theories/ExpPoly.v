(* Exponential polynomials  sum_j b_j^n * P_j(n)  over a commutative ring, with the
   operations the validators need (shift n -> n+1, sum, scaling, product, a sound zero
   test) and their evaluation lemmas.  Everything is executable. *)
From Coq Require Import List Bool Arith Lia Ring.
From Polar Require Import CRing.
Import ListNotations.

Section EP.
  Variable R : cring.
  Add Ring Rring : (rth R).
  Local Open Scope cr_scope.
  Notation "0" := (@r0 R).
  Notation "1" := (@r1 R).

  Fixpoint rnat (n : nat) : R := match n with O => 0 | S n => rnat n + 1 end.
  Fixpoint rpow (b : R) (n : nat) : R := match n with O => 1 | S n => b * rpow b n end.

  Lemma rpow_add b n m : rpow b (n + m) = rpow b n * rpow b m.
  Proof. induction n; simpl; [ring | rewrite IHn; ring]. Qed.
  Lemma rpow_mul_base a b n : rpow (a * b) n = rpow a n * rpow b n.
  Proof. induction n; simpl; [ring | rewrite IHn; ring]. Qed.
  Lemma rpow_1 n : rpow 1 n = 1.
  Proof. induction n; simpl; [reflexivity | rewrite IHn; ring]. Qed.
  Lemma rpow_rpow b n m : rpow (rpow b n) m = rpow b (n * m).
  Proof.
    induction m as [|m IH]; [rewrite Nat.mul_0_r; reflexivity|].
    rewrite Nat.mul_succ_r, Nat.add_comm, rpow_add. cbn [rpow]. rewrite IH. reflexivity.
  Qed.
  Lemma rpow_inv b bi n : b * bi = 1 -> rpow b n * rpow bi n = 1.
  Proof. intros H. rewrite <- rpow_mul_base, H. apply rpow_1. Qed.

  (* univariate polynomials as coefficient lists, low -> high *)
  Definition upoly := list R.
  Fixpoint peval (p : upoly) (x : R) : R :=
    match p with [] => 0 | c :: p' => c + x * peval p' x end.
  Fixpoint padd (p q : upoly) : upoly :=
    match p, q with
    | [], _ => q
    | _, [] => p
    | a :: p', b :: q' => (a + b) :: padd p' q'
    end.
  Definition pscale (c : R) (p : upoly) : upoly := map (fun a => c * a) p.
  Fixpoint pmul (p q : upoly) : upoly :=
    match p with [] => [] | a :: p' => padd (pscale a q) (0 :: pmul p' q) end.
  (* p(x+1) *)
  Fixpoint pshift (p : upoly) : upoly :=
    match p with
    | [] => []
    | c :: p' => let s := pshift p' in padd [c] (padd (0 :: s) s)
    end.
  Definition pzero (p : upoly) : bool := forallb (fun c => reqb c 0) p.

  Lemma peval_padd p q x : peval (padd p q) x = peval p x + peval q x.
  Proof.
    revert q; induction p as [|a p IH]; intros [|b q]; simpl; try ring.
    rewrite IH; ring.
  Qed.
  Lemma peval_pscale c p x : peval (pscale c p) x = c * peval p x.
  Proof. induction p as [|a p IH]; simpl; [ring | rewrite IH; ring]. Qed.
  Lemma peval_pmul p q x : peval (pmul p q) x = peval p x * peval q x.
  Proof.
    induction p as [|a p IH]; [simpl; ring|].
    cbn [pmul]; rewrite peval_padd, peval_pscale; cbn [peval]; rewrite IH; ring.
  Qed.
  Lemma peval_pshift p x : peval (pshift p) x = peval p (x + 1).
  Proof.
    induction p as [|c p IH]; [reflexivity|].
    cbn [pshift]; rewrite !peval_padd; cbn [peval]; rewrite IH; ring.
  Qed.
  Lemma pzero_sound p : pzero p = true -> forall x, peval p x = 0.
  Proof.
    induction p as [|c p IH]; simpl; intros H x; [reflexivity|].
    apply andb_true_iff in H; destruct H as [Hc Hp].
    apply reqb_eq in Hc; subst c; rewrite (IH Hp x); ring.
  Qed.

  Definition epoly := list (R * upoly).
  Definition eterm (t : R * upoly) (n : nat) : R := rpow (fst t) n * peval (snd t) (rnat n).
  Fixpoint eeval (f : epoly) (n : nat) : R :=
    match f with [] => 0 | t :: f' => eterm t n + eeval f' n end.

  Definition eadd (f g : epoly) : epoly := f ++ g.
  Definition escale (c : R) (f : epoly) : epoly := map (fun t => (fst t, pscale c (snd t))) f.
  Definition eshift (f : epoly) : epoly :=
    map (fun t => (fst t, pscale (fst t) (pshift (snd t)))) f.
  Definition econst (c : R) : epoly := [(1, [c])].
  Definition emul1 (t : R * upoly) (g : epoly) : epoly :=
    map (fun u => (fst t * fst u, pmul (snd t) (snd u))) g.
  Fixpoint emul (f g : epoly) : epoly :=
    match f with [] => [] | t :: f' => emul1 t g ++ emul f' g end.
  Fixpoint epow (f : epoly) (k : nat) : epoly :=
    match k with O => econst 1 | S k => emul f (epow f k) end.

  Lemma eeval_app f g n : eeval (f ++ g) n = eeval f n + eeval g n.
  Proof. induction f as [|t f IH]; simpl; [ring | rewrite IH; ring]. Qed.
  Lemma eeval_eadd f g n : eeval (eadd f g) n = eeval f n + eeval g n.
  Proof. apply eeval_app. Qed.
  Lemma eeval_escale c f n : eeval (escale c f) n = c * eeval f n.
  Proof.
    induction f as [|[b p] f IH]; simpl; [ring|].
    rewrite IH; unfold eterm; simpl; rewrite peval_pscale; ring.
  Qed.
  Lemma eeval_eshift f n : eeval (eshift f) n = eeval f (S n).
  Proof.
    induction f as [|[b p] f IH]; simpl; [reflexivity|].
    rewrite IH; unfold eterm; simpl; rewrite peval_pscale, peval_pshift; ring.
  Qed.
  Lemma eeval_econst c n : eeval (econst c) n = c.
  Proof. unfold econst; simpl; unfold eterm; simpl; rewrite rpow_1; ring. Qed.
  Lemma eeval_emul1 t g n : eeval (emul1 t g) n = eterm t n * eeval g n.
  Proof.
    induction g as [|[b p] g IH]; simpl; [ring|].
    rewrite IH; unfold eterm; simpl; rewrite rpow_mul_base, peval_pmul; ring.
  Qed.
  Lemma eeval_emul f g n : eeval (emul f g) n = eeval f n * eeval g n.
  Proof.
    induction f as [|t f IH]; simpl; [ring|].
    rewrite eeval_app, eeval_emul1, IH; ring.
  Qed.
  Lemma eeval_epow f k n : eeval (epow f k) n = rpow (eeval f n) k.
  Proof.
    induction k as [|k IH]; simpl epow; [apply eeval_econst|].
    rewrite eeval_emul, IH; reflexivity.
  Qed.

  (* merge terms with (provably) equal bases; sound whatever reqb answers *)
  Fixpoint einsert (t : R * upoly) (f : epoly) : epoly :=
    match f with
    | [] => [t]
    | u :: f' => if reqb (fst t) (fst u) then (fst u, padd (snd t) (snd u)) :: f'
                 else u :: einsert t f'
    end.
  Fixpoint enorm (f : epoly) : epoly :=
    match f with [] => [] | t :: f' => einsert t (enorm f') end.
  Definition ezero (f : epoly) : bool := forallb (fun t => pzero (snd t)) (enorm f).

  Lemma eeval_einsert t f n : eeval (einsert t f) n = eterm t n + eeval f n.
  Proof.
    induction f as [|u f IH]; simpl; [reflexivity|].
    destruct (reqb (fst t) (fst u)) eqn:E; simpl.
    - apply reqb_eq in E. unfold eterm; simpl. rewrite peval_padd, E; ring.
    - rewrite IH; ring.
  Qed.
  Lemma eeval_enorm f n : eeval (enorm f) n = eeval f n.
  Proof. induction f as [|t f IH]; simpl; [reflexivity | rewrite eeval_einsert, IH; reflexivity]. Qed.
  Lemma allzero_eval f : forallb (fun t => pzero (snd t)) f = true -> forall n, eeval f n = 0.
  Proof.
    induction f as [|t f IH]; simpl; intros H n; [reflexivity|].
    apply andb_true_iff in H; destruct H as [Ht Hf].
    unfold eterm; rewrite (pzero_sound _ Ht), (IH Hf n); ring.
  Qed.
  Theorem ezero_sound f : ezero f = true -> forall n, eeval f n = 0.
  Proof. intros H n; rewrite <- eeval_enorm; apply allzero_eval; exact H. Qed.

  Definition esub (f g : epoly) : epoly := eadd f (escale (ropp 1) g).
  Lemma eeval_esub f g n : eeval (esub f g) n = eeval f n - eeval g n.
  Proof. unfold esub; rewrite eeval_eadd, eeval_escale; ring. Qed.
  Definition eeq (f g : epoly) : bool := ezero (esub f g).
  Theorem eeq_sound f g : eeq f g = true -> forall n, eeval f n = eeval g n.
  Proof.
    intros H n; pose proof (ezero_sound _ H n) as E; rewrite eeval_esub in E.
    transitivity (eeval f n - eeval g n + eeval g n); [ring | rewrite E; ring].
  Qed.
End EP.

Arguments rnat {R} _. Arguments rpow {R} _ _.
Arguments peval {R} _ _. Arguments eeval {R} _ _.
Arguments eadd {R} _ _. Arguments escale {R} _ _. Arguments eshift {R} _.
Arguments emul {R} _ _. Arguments epow {R} _ _. Arguments econst {R} _.
Arguments esub {R} _ _. Arguments ezero {R} _. Arguments eeq {R} _ _. Arguments enorm {R} _.
