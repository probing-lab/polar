(* C02, pass DistTransformer (program/transformer/dist_transformer.py): location-scale
   rewriting of continuous draws whose parameters mention variables,

     x = Normal(mu, s2)      ~>  t = Normal(0, 1);    x = mu + sqrt(s2)*t      (s2 a constant)
     x = Uniform(a, b)       ~>  t = Uniform(0, 1);   x = a + (b - a)*t
     x = Laplace(mu, b)      ~>  t = Laplace(0, b);   x = mu + t
     x = Exponential(c/e)    ~>  t = Exponential(c);  x = e*t                  (NOT in the model)

   on the statement TREE of a source program (the pass runs before IfTransformer), with fresh
   variables t = `_u<k>` from Polar's global counter — here: from a supply of names.

   Parameter order of a DCont draw = alphabetical order of the Python attribute names, as
   produced by harness/tasks_core.dump_dist:  Normal [mu; sigma2], Uniform [a; b],
   Laplace [b; mu], Exponential [lamb].

   Outside the model ([None]): Normal with a variance that is not a constant with a rational
   square root (needs sqrt), Exponential with a non-constant rate (rate 1/e is not a
   polynomial expression), a continuous draw inside a simultaneous assignment.

   Theorem [dist_pass_drel]: parametric in the law of the continuous families, under the
   three location-scale equations of [law] (Section hypotheses, no axiom): for every program,
   every n and every start state, the two runs are related at iteration n by agreement
   outside the fresh names, hence give every f that ignores those names the same expectation. *)
From Coq Require Import List String QArith Qcanon ZArith Bool Ring.
From Polar Require Import Qcx Dist Syntax Sem Types Poly PassGuard PassCNBase.
Import ListNotations.
Local Open Scope Qc_scope.
Local Open Scope string_scope.

(* relational lifting at the level of expectations *)
Definition drel {A B} (R : A -> B -> Prop) (d : dist A) (d' : dist B) : Prop :=
  forall f g, (forall a b, R a b -> f a = g b) -> E d f = E d' g.

Lemma drel_ret {A B} (R : A -> B -> Prop) a b : R a b -> drel R (ret a) (ret b).
Proof. intros H f g Hfg. rewrite !E_ret. apply Hfg, H. Qed.
Lemma drel_bind {A A' B B'} (R : A -> A' -> Prop) (R' : B -> B' -> Prop) d d' k k' :
  drel R d d' -> (forall a a', R a a' -> drel R' (k a) (k' a')) -> drel R' (bind d k) (bind d' k').
Proof.
  intros Hd Hk f g Hfg. rewrite !E_bind. apply Hd. intros a a' Ha. apply (Hk a a' Ha f g Hfg).
Qed.
Lemma drel_deq_l {A B} (R : A -> B -> Prop) d1 d2 d' : deq d1 d2 -> drel R d2 d' -> drel R d1 d'.
Proof. intros H1 H2 f g Hfg. rewrite (H1 f). apply H2, Hfg. Qed.
Lemma drel_deq_r {A B} (R : A -> B -> Prop) d d1 d2 : deq d1 d2 -> drel R d d2 -> drel R d d1.
Proof. intros H1 H2 f g Hfg. rewrite (H1 g). apply H2, Hfg. Qed.
Lemma drel_same {A B C} (R : B -> C -> Prop) (d : dist A) k k' :
  (forall a, drel R (k a) (k' a)) -> drel R (bind d k) (bind d k').
Proof. intros H f g Hfg. rewrite !E_bind. apply E_ext. intros a. apply (H a f g Hfg). Qed.

Definition dmap {A B} (h : A -> B) (d : dist A) : dist B := map (fun p => (fst p, h (snd p))) d.
Lemma E_dmap {A B} (h : A -> B) d f : E (dmap h d) f = E d (fun a => f (h a)).
Proof. induction d as [|[w a] d IH]; cbn [dmap map E fst snd]; [reflexivity | fold (dmap h d); rewrite IH; reflexivity]. Qed.

(* square roots of rational constants (checked, hence sound by construction) *)
Definition qsqrt (c : Qc) : option Qc :=
  let r := mkq (Z.sqrt (qnum c)) (Pos.sqrt (qden c)) in
  if Qc_eqb (r * r) c then Some r else None.
Lemma qsqrt_sound c r : qsqrt c = Some r -> r * r = c.
Proof.
  unfold qsqrt. destruct (Qc_eqb_spec (mkq (Z.sqrt (qnum c)) (Pos.sqrt (qden c)) * mkq (Z.sqrt (qnum c)) (Pos.sqrt (qden c))) c) as [H|H];
    intros E0; [injection E0 as <-; exact H | discriminate].
Qed.

Definition is_closed (e : expr) : bool := match vars_of e with [] => true | _ => false end.
Definition qe (z : Z) : expr := EConst (mkq z 1).

Inductive dt_result :=
| DtKeep                                     (* returned unchanged *)
| DtRewrite (d0 : draw) (e : var -> expr)    (* t = d0 ; x = e t *)
| DtOut.                                     (* outside the model *)

Definition dt_draw (f : string) (args : list expr) : dt_result :=
  if String.eqb f "Normal" then
    match args with
    | [mu; s2] =>
        if is_closed mu && is_closed s2 then DtKeep
        else match s2 with
             | EConst c => match qsqrt c with
                           | Some r => DtRewrite (DCont "Normal" [qe 0; qe 1])
                                                 (fun t => EAdd mu (EMul (EConst r) (EVar t)))
                           | None => DtOut
                           end
             | _ => DtOut
             end
    | _ => DtOut
    end
  else if String.eqb f "Uniform" then
    match args with
    | [a; b] =>
        if is_closed a && is_closed b then DtKeep
        else DtRewrite (DCont "Uniform" [qe 0; qe 1])
                       (fun t => EAdd a (EMul (ESub b a) (EVar t)))
    | _ => DtOut
    end
  else if String.eqb f "Laplace" then
    match args with
    | [b; mu] =>
        if is_closed mu then DtKeep
        else DtRewrite (DCont "Laplace" [b; qe 0]) (fun t => EAdd mu (EVar t))
    | _ => DtOut
    end
  else if String.eqb f "Exponential" then
    match args with
    | [lamb] => if is_closed lamb then DtKeep else DtOut
    | _ => DtOut
    end
  else DtKeep.

Definition has_cont (r : rhs) : bool := match r with RDraw (DCont _ _) => true | _ => false end.

Fixpoint dt_stmt (ns : list var) (st : stmt) : option (block * list var) :=
  match st with
  | SAssign x (RDraw (DCont f args)) =>
      match dt_draw f args with
      | DtKeep => Some (BCons st BNil, ns)
      | DtRewrite d0 e =>
          match ns with
          | t :: ns' => Some (BCons (SAssign t (RDraw d0)) (BCons (SAssign x (RDet (e t))) BNil), ns')
          | [] => None
          end
      | DtOut => None
      end
  | SAssign _ _ => Some (BCons st BNil, ns)
  | SSimult l => if existsb (fun xr => has_cont (snd xr)) l then None else Some (BCons st BNil, ns)
  | SIf bs els =>
      match dt_branches ns bs with
      | Some (bs', ns1) =>
          match dt_block ns1 els with
          | Some (els', ns2) => Some (BCons (SIf bs' els') BNil, ns2)
          | None => None
          end
      | None => None
      end
  end
with dt_block (ns : list var) (b : block) : option (block * list var) :=
  match b with
  | BNil => Some (BNil, ns)
  | BCons st b' =>
      match dt_stmt ns st with
      | Some (frag, ns1) =>
          match dt_block ns1 b' with
          | Some (b'', ns2) => Some (block_app frag b'', ns2)
          | None => None
          end
      | None => None
      end
  end
with dt_branches (ns : list var) (bs : branches) : option (branches * list var) :=
  match bs with
  | BrNil => Some (BrNil, ns)
  | BrCons c b bs' =>
      match dt_block ns b with
      | Some (b', ns1) =>
          match dt_branches ns1 bs' with
          | Some (bs'', ns2) => Some (BrCons c b' bs'', ns2)
          | None => None
          end
      | None => None
      end
  end.

(* TreeTransformer: children "initial" then "loop_body"; the guard is not touched *)
Definition dt_prog (ns : list var) (p : prog) : option (prog * list var) :=
  match dt_block ns (p_init p) with
  | Some (i, ns1) =>
      match dt_block ns1 (p_body p) with
      | Some (b, ns2) => Some ({| p_init := i; p_guard := p_guard p; p_body := b |}, ns2)
      | None => None
      end
  | None => None
  end.

(* every variable occurring in a program *)
Fixpoint simult_vars (l : list (var * rhs)) : list var :=
  match l with [] => [] | (x, r) :: l' => x :: rvars r ++ simult_vars l' end.
Fixpoint stmt_vars (st : stmt) : list var :=
  match st with
  | SAssign x r => x :: rvars r
  | SSimult l => simult_vars l
  | SIf bs els => branches_vars bs ++ block_vars els
  end
with block_vars (b : block) : list var :=
  match b with BNil => [] | BCons st b' => stmt_vars st ++ block_vars b' end
with branches_vars (bs : branches) : list var :=
  match bs with BrNil => [] | BrCons c b bs' => cvars c ++ block_vars b ++ branches_vars bs' end.
Definition prog_vars (p : prog) : list var := block_vars (p_init p) ++ cvars (p_guard p) ++ block_vars (p_body p).

(* the hypothesis: the supplied names do not occur in the program *)
Definition fresh_ok (ns : list var) (p : prog) : bool := disjointb (prog_vars p) ns.

Section DistLS.
  Variable law : string -> list Qc -> dist Qc.
  (* location-scale equations of the continuous families (what DistTransformer relies on) *)
  Hypothesis law_normal : forall m r : Qc,
    deq (law "Normal" [m; r * r]) (dmap (fun z => m + r * z) (law "Normal" [0; 1])).
  Hypothesis law_uniform : forall a b : Qc,
    deq (law "Uniform" [a; b]) (dmap (fun z => a + (b - a) * z) (law "Uniform" [0; 1])).
  Hypothesis law_laplace : forall b m : Qc,
    deq (law "Laplace" [b; m]) (dmap (fun z => m + z) (law "Laplace" [b; 0])).

  Variable names : list var.
  (* states that agree outside the fresh names *)
  Definition Rn (s s' : state) : Prop := forall x, ~ In x names -> s x = s' x.

  Lemma Rn_upd s s' x v : Rn s s' -> Rn (upd s x v) (upd s' x v).
  Proof. intros H y Hy. unfold upd. destruct (var_eqb y x); [reflexivity | apply H, Hy]. Qed.
  Lemma Rn_upd_fresh s s' t v : Rn s s' -> In t names -> Rn s (upd s' t v).
  Proof. intros H Ht y Hy. rewrite upd_other; [apply H, Hy | intros ->; exact (Hy Ht)]. Qed.

  Definition avoids (vs : list var) : Prop := forall x, In x vs -> ~ In x names.

  Lemma Rn_on vs s s' : Rn s s' -> avoids vs -> forall x, In x vs -> s x = s' x.
  Proof. intros H Ha x Hx. apply H, Ha, Hx. Qed.

  (* from states related by [Rn], [f] and [g] produce results related by [R] *)
  Definition sim {A B} (R : A -> B -> Prop) (f : state -> A) (g : state -> B) : Prop :=
    forall s s', Rn s s' -> R (f s) (g s').

  Lemma assign_sim x r : avoids (rvars r) ->
    sim (drel Rn) (exec_stmt law (SAssign x r)) (exec_stmt law (SAssign x r)).
  Proof.
    intros Ha s s' H. cbn [exec_stmt]. rewrite (sample_ext law r s s' (Rn_on _ s s' H Ha)).
    apply drel_same. intros v. apply drel_ret, Rn_upd, H.
  Qed.

  Lemma simult_Rn l : forall s s' t t', Rn s s' -> Rn t t' -> avoids (simult_vars l) ->
    drel Rn (exec_simult law l s t) (exec_simult law l s' t').
  Proof.
    induction l as [|[x r] l IH]; intros s s' t t' Hs Ht Ha; cbn [exec_simult].
    - apply drel_ret, Ht.
    - cbn [simult_vars] in Ha.
      rewrite (sample_ext law r s s') by (intros y Hy; apply Hs, Ha; right; apply in_or_app; auto).
      apply drel_same. intros v. apply IH; [exact Hs | apply Rn_upd, Ht|].
      intros y Hy. apply Ha. right. apply in_or_app; auto.
  Qed.

  Lemma closed_eval e s s' : is_closed e = true -> eval e s = eval e s'.
  Proof.
    unfold is_closed. destruct (vars_of e) eqn:Ev; [|discriminate]. intros _.
    apply eval_ext. intros x Hx. rewrite Ev in Hx. destruct Hx.
  Qed.

  (* what every rewriting  x = D(args)  ~>  t = d0; x = e t  of [dt_draw] rests on, whatever the
     family: the law of D(args) is the image under some h of the law of d0 in the same state,
     and  e t  computes h from the value of t when t is not a variable of the parameters *)
  Lemma dt_draw_spec f args d0 e :
    dt_draw f args = DtRewrite d0 e ->
    exists h : state -> Qc -> Qc,
      (forall s, deq (draw_law law (DCont f args) s) (dmap (h s) (draw_law law d0 s))) /\
      (forall t s z, (forall a, In a args -> ~ In t (vars_of a)) -> eval (e t) (upd s t z) = h s z).
  Proof.
    unfold dt_draw.
    destruct (String.eqb_spec f "Normal") as [->|_].
    { destruct args as [|mu [|s2 [|]]]; try discriminate.
      destruct (is_closed mu && is_closed s2); [discriminate|].
      destruct s2 as [c| | | |]; try discriminate.
      destruct (qsqrt c) as [r|] eqn:Er; [|discriminate]. intros [= <- <-].
      exists (fun s z => eval mu s + r * z). split.
      - intros s. cbn [draw_law map eval qe]. rewrite <- (qsqrt_sound c r Er), mkq_1_1, mkq_0_1. apply law_normal.
      - intros t s z Ht. cbn [eval]. rewrite upd_same, (eval_upd_notin mu) by (apply Ht; left; reflexivity).
        reflexivity. }
    destruct (String.eqb_spec f "Uniform") as [->|_].
    { destruct args as [|a [|b [|]]]; try discriminate.
      destruct (is_closed a && is_closed b); [discriminate|]. intros [= <- <-].
      exists (fun s z => eval a s + (eval b s - eval a s) * z). split.
      - intros s. cbn [draw_law map eval qe]. rewrite mkq_1_1, mkq_0_1. apply law_uniform.
      - intros t s z Ht. cbn [eval ESub ENeg].
        rewrite upd_same, (eval_upd_notin a), (eval_upd_notin b), mkq_m1_1;
          [ring | apply Ht; right; left; reflexivity | apply Ht; left; reflexivity]. }
    destruct (String.eqb_spec f "Laplace") as [->|_].
    { destruct args as [|b [|mu [|]]]; try discriminate.
      destruct (is_closed mu); [discriminate|]. intros [= <- <-].
      exists (fun s z => eval mu s + z). split.
      - intros s. cbn [draw_law map eval qe]. rewrite mkq_0_1. apply law_laplace.
      - intros t s z Ht. cbn [eval]. rewrite upd_same, (eval_upd_notin mu) by (apply Ht; right; left; reflexivity).
        reflexivity. }
    destruct (String.eqb f "Exponential").
    { destruct args as [|l [|]]; try discriminate. destruct (is_closed l); discriminate. }
    discriminate.
  Qed.

  (* the original draw of x against  t = d0; x = e t *)
  Lemma dt_draw_sim f args d0 e x t :
    dt_draw f args = DtRewrite d0 e -> In t names -> avoids (flat_map vars_of args) ->
    sim (drel Rn) (exec_stmt law (SAssign x (RDraw (DCont f args))))
                  (exec_block law (BCons (SAssign t (RDraw d0)) (BCons (SAssign x (RDet (e t))) BNil))).
  Proof.
    intros Hd Ht Ha s s' HR f0 g Hfg. destruct (dt_draw_spec f args d0 e Hd) as [h [Hlaw He]].
    rewrite E_assign, E_block_cons, E_assign.
    rewrite (sample_ext law (RDraw (DCont f args)) s s' (Rn_on _ s s' HR Ha)).
    cbn [sample]. rewrite (Hlaw s'), E_dmap.
    apply E_ext. intros z. rewrite E_block_single, E_assign_det.
    rewrite He by (intros a Hin Hv; apply (Ha t); [apply in_flat_map; exists a; split; assumption | exact Ht]).
    apply Hfg, Rn_upd, Rn_upd_fresh; assumption.
  Qed.

  Lemma avoids_app_l a b : avoids (a ++ b) -> avoids a.
  Proof. intros H x Hx. apply H, in_or_app; auto. Qed.
  Lemma avoids_app_r a b : avoids (a ++ b) -> avoids b.
  Proof. intros H x Hx. apply H, in_or_app; auto. Qed.

  Definition branches_rel (o : option (dist state)) (o' : option (dist state)) : Prop :=
    match o, o' with
    | Some d, Some d' => drel Rn d d'
    | None, None => True
    | _, _ => False
    end.

  Lemma single_sim st st' :
    sim (drel Rn) (exec_stmt law st) (exec_stmt law st') ->
    sim (drel Rn) (exec_stmt law st) (exec_block law (BCons st' BNil)).
  Proof. intros H s s' HR. exact (drel_deq_r Rn _ _ _ (E_block_single law st' s') (H s s' HR)). Qed.

  Lemma if_sim bs bs' els els' :
    sim branches_rel (exec_branches law bs) (exec_branches law bs') ->
    sim (drel Rn) (exec_block law els) (exec_block law els') ->
    sim (drel Rn) (exec_stmt law (SIf bs els)) (exec_stmt law (SIf bs' els')).
  Proof.
    intros Hbs Hels s s' HR. rewrite !exec_stmt_if. specialize (Hbs s s' HR). unfold branches_rel in Hbs.
    destruct (exec_branches law bs s), (exec_branches law bs' s'); try contradiction; [exact Hbs | apply Hels, HR].
  Qed.

  Lemma cons_sim st frag b b' :
    sim (drel Rn) (exec_stmt law st) (exec_block law frag) ->
    sim (drel Rn) (exec_block law b) (exec_block law b') ->
    sim (drel Rn) (exec_block law (BCons st b)) (exec_block law (block_app frag b')).
  Proof.
    intros Hst Hb s s' HR f g Hfg. rewrite E_block_cons, E_block_app.
    apply (Hst s s' HR). intros a a' Ha. exact (Hb a a' Ha f g Hfg).
  Qed.

  Lemma brcons_sim c b b' bs bs' :
    avoids (cvars c) ->
    sim (drel Rn) (exec_block law b) (exec_block law b') ->
    sim branches_rel (exec_branches law bs) (exec_branches law bs') ->
    sim branches_rel (exec_branches law (BrCons c b bs)) (exec_branches law (BrCons c b' bs')).
  Proof.
    intros Hc Hb Hbs s s' HR. rewrite !exec_branches_cons, <- (holds_ext c s s' (Rn_on _ s s' HR Hc)).
    destruct (holds c s); [exact (Hb s s' HR) | apply Hbs, HR].
  Qed.

  (* the pass follows the tree; the supply of names stays inside [names] *)
  Lemma dt_sim :
    (forall st ns frag ns', dt_stmt ns st = Some (frag, ns') -> incl ns names -> avoids (stmt_vars st) ->
        incl ns' names /\ sim (drel Rn) (exec_stmt law st) (exec_block law frag)) /\
    (forall b ns b' ns', dt_block ns b = Some (b', ns') -> incl ns names -> avoids (block_vars b) ->
        incl ns' names /\ sim (drel Rn) (exec_block law b) (exec_block law b')) /\
    (forall bs ns bs' ns', dt_branches ns bs = Some (bs', ns') -> incl ns names -> avoids (branches_vars bs) ->
        incl ns' names /\ sim branches_rel (exec_branches law bs) (exec_branches law bs')).
  Proof.
    apply stmt_block_branches_ind.
    - intros x r ns frag ns' H Hi Ha. cbn [stmt_vars] in Ha.
      assert (Har : avoids (rvars r)) by (intros y Hy; apply Ha; right; exact Hy).
      (* every right-hand side but a rewritten continuous draw is kept *)
      assert (Hkeep : Some (BCons (SAssign x r) BNil, ns) = Some (frag, ns') ->
                incl ns' names /\ sim (drel Rn) (exec_stmt law (SAssign x r)) (exec_block law frag)).
      { intros [= <- <-]. split; [exact Hi | apply single_sim, assign_sim, Har]. }
      destruct r as [alts|[p|ps|a b|f args]]; try exact (Hkeep H).
      cbn [dt_stmt] in H. destruct (dt_draw f args) as [|d0 e|] eqn:Ed; [exact (Hkeep H) | | discriminate].
      destruct ns as [|t ns1]; [discriminate|]. injection H as <- <-. split.
      + intros y Hy. apply Hi. right; exact Hy.
      + apply (dt_draw_sim f args d0 e x t Ed); [apply Hi; left; reflexivity | exact Har].
    - intros l ns frag ns' H Hi Ha. cbn [dt_stmt] in H.
      destruct (existsb (fun xr => has_cont (snd xr)) l); [discriminate|]. injection H as <- <-.
      split; [exact Hi|]. apply single_sim. intros s s' HR. cbn [exec_stmt]. apply simult_Rn; assumption.
    - intros bs IHbs els IHels ns frag ns' H Hi Ha. cbn [dt_stmt] in H. cbn [stmt_vars] in Ha.
      destruct (dt_branches ns bs) as [[bs' ns1]|] eqn:Ebs; [|discriminate].
      destruct (dt_block ns1 els) as [[els' ns2]|] eqn:Eels; [|discriminate]. injection H as <- <-.
      destruct (IHbs _ _ _ Ebs Hi (avoids_app_l _ _ Ha)) as [Hi1 Hbs].
      destruct (IHels _ _ _ Eels Hi1 (avoids_app_r _ _ Ha)) as [Hi2 Hels].
      split; [exact Hi2 | apply single_sim, if_sim; assumption].
    - intros ns b' ns' H Hi _. cbn [dt_block] in H. injection H as <- <-. split; [exact Hi|].
      intros s s' HR. apply drel_ret, HR.
    - intros st IHst b IHb ns b' ns' H Hi Ha. cbn [dt_block] in H. cbn [block_vars] in Ha.
      destruct (dt_stmt ns st) as [[frag ns1]|] eqn:Est; [|discriminate].
      destruct (dt_block ns1 b) as [[b'' ns2]|] eqn:Eb; [|discriminate]. injection H as <- <-.
      destruct (IHst _ _ _ Est Hi (avoids_app_l _ _ Ha)) as [Hi1 Hst].
      destruct (IHb _ _ _ Eb Hi1 (avoids_app_r _ _ Ha)) as [Hi2 Hb].
      split; [exact Hi2 | apply cons_sim; assumption].
    - intros ns bs' ns' H Hi _. cbn [dt_branches] in H. injection H as <- <-. split; [exact Hi|].
      intros s s' _. exact I.
    - intros c b IHb bs IHbs ns bs' ns' H Hi Ha. cbn [dt_branches] in H. cbn [branches_vars] in Ha.
      destruct (dt_block ns b) as [[b' ns1]|] eqn:Eb; [|discriminate].
      destruct (dt_branches ns1 bs) as [[bs'' ns2]|] eqn:Ebs; [|discriminate]. injection H as <- <-.
      destruct (IHb _ _ _ Eb Hi (avoids_app_l _ _ (avoids_app_r _ _ Ha))) as [Hi1 Hb].
      destruct (IHbs _ _ _ Ebs Hi1 (avoids_app_r _ _ (avoids_app_r _ _ Ha))) as [Hi2 Hbs].
      split; [exact Hi2 | apply brcons_sim; [exact (avoids_app_l _ _ Ha) | assumption | assumption]].
  Qed.

  Theorem dist_pass_drel p p' rest :
    dt_prog names p = Some (p', rest) -> fresh_ok names p = true ->
    forall n s0, drel Rn (run law p n s0) (run law p' n s0).
  Proof.
    unfold dt_prog, fresh_ok, prog_vars. intros H Hf.
    pose proof (disjointb_spec _ _ Hf : avoids _) as Ha.
    destruct (dt_block names (p_init p)) as [[i ns1]|] eqn:Ei; [|discriminate].
    destruct (dt_block ns1 (p_body p)) as [[b ns2]|] eqn:Eb; [|discriminate]. injection H as <- <-.
    destruct dt_sim as [_ [Hblock _]].
    destruct (Hblock _ _ _ _ Ei (incl_refl names) (avoids_app_l _ _ Ha)) as [Hi1 Hinit].
    destruct (Hblock _ _ _ _ Eb Hi1 (avoids_app_r _ _ (avoids_app_r _ _ Ha))) as [_ Hbody].
    intros n s0. induction n as [|n IH]; cbn [run p_init].
    - apply Hinit. intros x _. reflexivity.
    - apply (drel_bind Rn Rn); [exact IH|]. intros s s' HR. unfold iter. cbn [p_guard p_body].
      rewrite <- (holds_ext _ s s' (Rn_on _ s s' HR (avoids_app_l _ _ (avoids_app_r _ _ Ha)))).
      destruct (holds (p_guard p) s); [apply Hbody, HR | apply drel_ret, HR].
  Qed.
End DistLS.

(* a function of the state that does not read the fresh names *)
Definition ignores_names (ns : list var) (f : state -> Qc) : Prop :=
  forall s s', (forall x, ~ In x ns -> s x = s' x) -> f s = f s'.

(* the hypotheses on [law] are consistent: a finitely supported family satisfying all three
   (two-point laws at loc +- scale for Uniform/Laplace ends, a point mass for Normal) *)
Definition demo_law (f : string) (args : list Qc) : dist Qc :=
  if String.eqb f "Normal" then match args with [m; _] => [(1, m)] | _ => [] end
  else if String.eqb f "Uniform" then match args with [a; b] => [(mkq 1 2, a); (mkq 1 2, b)] | _ => [] end
  else if String.eqb f "Laplace" then match args with [b; m] => [(mkq 1 2, m - b); (mkq 1 2, m + b)] | _ => [] end
  else [].

Lemma demo_law_normal m r : deq (demo_law "Normal" [m; r * r]) (dmap (fun z => m + r * z) (demo_law "Normal" [0; 1])).
Proof. intros f. cbn. replace (m + r * 0) with m by ring. reflexivity. Qed.
Lemma demo_law_uniform a b : deq (demo_law "Uniform" [a; b]) (dmap (fun z => a + (b - a) * z) (demo_law "Uniform" [0; 1])).
Proof. intros f. cbn. replace (a + (b - a) * 0) with a by ring. replace (a + (b - a) * 1) with b by ring. reflexivity. Qed.
Lemma demo_law_laplace b m : deq (demo_law "Laplace" [b; m]) (dmap (fun z => m + z) (demo_law "Laplace" [b; 0])).
Proof. intros f. cbn. replace (m + (0 - b)) with (m - b) by ring. replace (m + (0 + b)) with (m + b) by ring. reflexivity. Qed.
