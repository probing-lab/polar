(* C02, first pass: LoopGuardTransformer.  `while G: B`  becomes  `while true: if G': B' end`
   where first-level single-branch ifs of B are collapsed into the condition.  Model and
   proof that it preserves the distribution of every state function at every iteration. *)
From Coq Require Import List String QArith Qcanon ZArith Bool.
From Polar Require Import Qcx Dist Syntax Sem.
Import ListNotations.
Local Open Scope Qc_scope.

Definition deq {A} (d1 d2 : dist A) : Prop := forall f, E d1 f = E d2 f.

Lemma deq_refl {A} (d : dist A) : deq d d.
Proof. intros f; reflexivity. Qed.
Lemma deq_trans {A} (d1 d2 d3 : dist A) : deq d1 d2 -> deq d2 d3 -> deq d1 d3.
Proof. intros H1 H2 f; rewrite H1; apply H2. Qed.
Lemma deq_sym {A} (d1 d2 : dist A) : deq d1 d2 -> deq d2 d1.
Proof. intros H f; symmetry; apply H. Qed.
Lemma deq_bind_ret {A} (d : dist A) : deq (bind d ret) d.
Proof. intros f. rewrite E_bind. apply E_ext. intros a. apply E_ret. Qed.
Lemma deq_bind {A B} (d1 d2 : dist A) (g1 g2 : A -> dist B) :
  deq d1 d2 -> (forall a, deq (g1 a) (g2 a)) -> deq (bind d1 g1) (bind d2 g2).
Proof.
  intros Hd Hg f. rewrite !E_bind. rewrite (E_ext d1 _ (fun a => E (g2 a) f)) by (intros a; apply Hg). apply Hd.
Qed.

Section Guard.
  Variable law : string -> list Qc -> dist Qc.

  (* simplify(): drop literal true conjuncts *)
  Definition and_s (c1 c2 : cond) : cond :=
    match c1, c2 with
    | CTrue, _ => c2
    | _, CTrue => c1
    | _, _ => CAnd c1 c2
    end.
  Lemma holds_and_s c1 c2 s : holds (and_s c1 c2) s = holds c1 s && holds c2 s.
  Proof.
    destruct c1, c2; simpl; try reflexivity; try (rewrite andb_true_r; reflexivity).
  Qed.

  (* _collapse_first_level_ifs: a body that is exactly one if-statement with one branch and
     no else is replaced by its branch, recursively; fuel = nesting depth *)
  Fixpoint collapse (fuel : nat) (b : block) : block * cond :=
    match fuel with
    | O => (b, CTrue)
    | S fuel' =>
        match b with
        | BCons (SIf (BrCons c br BrNil) BNil) BNil =>
            let '(b', c') := collapse fuel' br in (b', and_s c' c)
        | _ => (b, CTrue)
        end
    end.

  Definition guarded (c : cond) (b : block) (s : state) : dist state :=
    if holds c s then exec_block law b s else ret s.

  Lemma exec_single_if c b s :
    deq (exec_block law (BCons (SIf (BrCons c b BrNil) BNil) BNil) s) (guarded c b s).
  Proof.
    rewrite exec_block_cons, exec_stmt_if, exec_branches_cons. unfold guarded.
    destruct (holds c s); apply deq_bind_ret.
  Qed.

  Lemma collapse_sound fuel b s :
    let '(b', c') := collapse fuel b in deq (exec_block law b s) (guarded c' b' s).
  Proof.
    revert b s; induction fuel as [|fuel IH]; intros b s; [apply deq_refl|].
    (* every other shape of body is returned unchanged, under the condition true *)
    destruct b as [|[x r|l|[|c br [|]] [|]] [|]]; try apply deq_refl.
    cbn [collapse]. specialize (IH br s). destruct (collapse fuel br) as [b' c'].
    eapply deq_trans; [apply exec_single_if|].
    unfold guarded in *. rewrite holds_and_s.
    destruct (holds c s); [rewrite andb_true_r; exact IH | rewrite andb_false_r; apply deq_refl].
  Qed.

  (* when the combined guard is [CTrue] the program is returned as it is: body [p_body p], not
     the collapsed [b'] *)
  Definition loop_guard_pass (fuel : nat) (p : prog) : prog :=
    let '(b', c') := collapse fuel (p_body p) in
    let g := and_s (p_guard p) c' in
    match g with
    | CTrue => {| p_init := p_init p; p_guard := CTrue; p_body := p_body p |}
    | _ => {| p_init := p_init p; p_guard := CTrue;
              p_body := BCons (SIf (BrCons g b' BrNil) BNil) BNil |}
    end.

  Lemma iter_preserved fuel p s : deq (iter law p s) (iter law (loop_guard_pass fuel p) s).
  Proof.
    unfold loop_guard_pass.
    pose proof (collapse_sound fuel (p_body p) s) as Hc. destruct (collapse fuel (p_body p)) as [b' c'].
    pose proof (holds_and_s (p_guard p) c' s) as Hg.
    assert (Hmain : deq (iter law p s) (guarded (and_s (p_guard p) c') b' s)).
    { unfold iter, guarded in *. rewrite Hg. destruct (holds (p_guard p) s); [exact Hc | apply deq_refl]. }
    destruct (and_s (p_guard p) c');
      try (eapply deq_trans; [exact Hmain | apply deq_sym, exec_single_if]).
    (* the combined condition is literally true: the body is kept unchanged *)
    symmetry in Hg. apply andb_true_iff in Hg. unfold iter. rewrite (proj1 Hg). apply deq_refl.
  Qed.

  Theorem loop_guard_preserves fuel p :
    forall n s0, deq (run law p n s0) (run law (loop_guard_pass fuel p) n s0).
  Proof.
    intros n s0; induction n as [|n IH]; cbn [run].
    - unfold loop_guard_pass. destruct (collapse fuel (p_body p)) as [b' c'].
      destruct (and_s (p_guard p) c'); apply deq_refl.
    - apply deq_bind; [exact IH | intros s; apply iter_preserved].
  Qed.
End Guard.
