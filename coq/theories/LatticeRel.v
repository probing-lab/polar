(* Multiplicative relations  prod_i b_i^{e_i} = 1  with integer exponents over a commutative
   ring (C16).  A base is a pair (b, b') with b * b' = 1 (the inverse is SUPPLIED and
   CHECKED, so the development works in Qc and in the quadratic-extension towers of
   CRing.v alike).  [check_relations] is the executable validator for the rows returned by
   ExponentLattice.compute_basis; the relation set is proved to be closed under integer
   combinations, so accepted rows put their whole Z-span inside the relation lattice. *)
From Coq Require Import List Bool Arith Lia Ring ZArith.
From Polar Require Import CRing ExpPoly Lattice.
Import ListNotations.

Section Rel.
  Variable R : cring.
  Add Ring Rring : (rth R).
  Local Open Scope cr_scope.
  Local Notation z1 := (@r1 R).

  Definition zpow (b binv : R) (e : Z) : R :=
    match e with
    | Z0 => z1
    | Zpos p => rpow b (Pos.to_nat p)
    | Zneg p => rpow binv (Pos.to_nat p)
    end.

  Fixpoint prodpow (bs : list (R * R)) (e : list Z) : R :=
    match bs, e with
    | (b, bi) :: bs', x :: e' => zpow b bi x * prodpow bs' e'
    | _, _ => z1
    end.

  Definition inverses_ok (bs : list (R * R)) : Prop := forall p, In p bs -> fst p * snd p = z1.
  Definition is_relation (bs : list (R * R)) (e : list Z) : Prop := prodpow bs e = z1.

  Definition check_inverses (bs : list (R * R)) : bool :=
    forallb (fun p => reqb (fst p * snd p) z1) bs.
  Definition check_relation (bs : list (R * R)) (e : list Z) : bool :=
    Nat.eqb (length e) (length bs) && reqb (prodpow bs e) z1.
  Definition check_relations (bs : list (R * R)) (B : list (list Z)) : bool :=
    check_inverses bs && forallb (check_relation bs) B.

  Lemma check_inverses_ok bs : check_inverses bs = true -> inverses_ok bs.
  Proof.
    unfold check_inverses, inverses_ok. intros H p Hp. rewrite forallb_forall in H.
    apply reqb_eq. apply H; exact Hp.
  Qed.

  Theorem check_relations_sound bs B :
    check_relations bs B = true ->
    inverses_ok bs /\ forall e, In e B -> length e = length bs /\ is_relation bs e.
  Proof.
    unfold check_relations. intros H. apply andb_true_iff in H; destruct H as [Hi HB].
    split; [apply check_inverses_ok; exact Hi|].
    intros e He. rewrite forallb_forall in HB. specialize (HB e He).
    unfold check_relation in HB. apply andb_true_iff in HB; destruct HB as [HL HP].
    split; [apply Nat.eqb_eq; exact HL | apply reqb_eq; exact HP].
  Qed.

  Lemma rpow_cancel (b bi : R) n m c : b * bi = z1 ->
    rpow b (n + c) * rpow bi (m + c) = rpow b n * rpow bi m.
  Proof.
    intros H. rewrite !rpow_add.
    transitivity (rpow b n * rpow bi m * (rpow b c * rpow bi c)); [ring|].
    rewrite (rpow_inv R b bi c H). ring.
  Qed.
  Lemma rpow_balance (b bi : R) n1 n2 m1 m2 : b * bi = z1 -> (n1 + m2 = m1 + n2)%nat ->
    rpow b n1 * rpow bi n2 = rpow b m1 * rpow bi m2.
  Proof.
    intros H E.
    rewrite <- (rpow_cancel b bi n1 n2 m2 H), E.
    rewrite (Nat.add_comm n2 m2). apply rpow_cancel; exact H.
  Qed.

  Lemma zpow_split b bi e : zpow b bi e = rpow b (Z.to_nat e) * rpow bi (Z.to_nat (- e)).
  Proof.
    destruct e as [|p|p]; cbn [zpow Z.opp Z.to_nat rpow]; ring.
  Qed.
  Lemma zpow_0 b bi : zpow b bi 0 = z1.
  Proof. reflexivity. Qed.
  Lemma zpow_add b bi x y : b * bi = z1 -> zpow b bi (x + y) = zpow b bi x * zpow b bi y.
  Proof.
    intros H. rewrite !zpow_split.
    transitivity (rpow b (Z.to_nat x + Z.to_nat y) * rpow bi (Z.to_nat (- x) + Z.to_nat (- y)));
      [|rewrite !rpow_add; ring].
    apply rpow_balance; [exact H | lia].
  Qed.
  Lemma zpow_opp b bi x : zpow b bi (- x) = zpow bi b x.
  Proof. destruct x; reflexivity. Qed.
  Lemma zpow_inv b bi x : b * bi = z1 -> zpow b bi x * zpow bi b x = z1.
  Proof. intros H. rewrite <- (zpow_opp b bi x), <- zpow_add, Z.add_opp_diag_r by exact H. reflexivity. Qed.
  Lemma zpow_mul_base u ui w wi x : zpow (u * w) (ui * wi) x = zpow u ui x * zpow w wi x.
  Proof. rewrite !zpow_split, !rpow_mul_base. ring. Qed.
  Lemma zpow_zpow b bi a x : zpow (zpow b bi a) (zpow bi b a) x = zpow b bi (a * x).
  Proof.
    destruct a as [|p|p], x as [|q|q]; cbn [zpow Z.mul]; try reflexivity;
      rewrite ?rpow_1, ?rpow_rpow, ?Pos2Nat.inj_mul; reflexivity.
  Qed.
  Lemma zpow_one x : zpow z1 z1 x = z1.
  Proof. rewrite zpow_split, !rpow_1. ring. Qed.
  (* a self-inverse base (a sign): even powers are 1 *)
  Lemma zpow_involution u h : u * u = z1 -> zpow u u (2 * h) = z1.
  Proof.
    intros H. replace (2 * h)%Z with (h + h)%Z by lia.
    rewrite zpow_add by exact H. rewrite <- zpow_mul_base, H. apply zpow_one.
  Qed.

  (* the relation set is a subgroup of Z^k *)
  Definition swap_bases (bs : list (R * R)) : list (R * R) := map (fun p => (snd p, fst p)) bs.

  Lemma inverses_ok_tl p bs : inverses_ok (p :: bs) -> fst p * snd p = z1 /\ inverses_ok bs.
  Proof.
    intros H. split; [apply H; left; reflexivity|]. intros q Hq. apply H; right; exact Hq.
  Qed.

  Lemma prodpow_vadd bs : inverses_ok bs -> forall u v,
    prodpow bs (vadd (R := Z_cring) u v) = prodpow bs u * prodpow bs v.
  Proof.
    induction bs as [|[b bi] bs IH]; intros Hok u v.
    - destruct u, v; cbn [prodpow]; ring.
    - apply inverses_ok_tl in Hok. destruct Hok as [Hb Hok]. cbn [fst snd] in Hb.
      destruct u as [|x u], v as [|y v]; cbn [vadd prodpow]; [ring .. |].
      change (radd (c := Z_cring) x y) with (x + y)%Z.
      rewrite (zpow_add b bi x y Hb), (IH Hok u v). ring.
  Qed.
  Lemma prodpow_inv bs : inverses_ok bs -> forall u,
    prodpow bs u * prodpow (swap_bases bs) u = z1.
  Proof.
    induction bs as [|[b bi] bs IH]; intros Hok u.
    - destruct u; cbn [swap_bases map prodpow]; ring.
    - apply inverses_ok_tl in Hok. destruct Hok as [Hb Hok]. cbn [fst snd] in Hb.
      destruct u as [|x u]; cbn [swap_bases map prodpow fst snd]; [ring|].
      fold (swap_bases bs).
      transitivity ((zpow b bi x * zpow bi b x) * (prodpow bs u * prodpow (swap_bases bs) u)); [ring|].
      rewrite (zpow_inv b bi x Hb), (IH Hok u). ring.
  Qed.
  Lemma prodpow_vscale bs a : forall u,
    prodpow bs (vscale (R := Z_cring) a u) = zpow (prodpow bs u) (prodpow (swap_bases bs) u) a.
  Proof.
    induction bs as [|[b bi] bs IH]; intros u.
    - destruct u; cbn [vscale map prodpow swap_bases]; rewrite zpow_one; reflexivity.
    - destruct u as [|x u]; cbn [vscale map prodpow swap_bases fst snd].
      + rewrite zpow_one; reflexivity.
      + fold (swap_bases bs). fold (vscale (R := Z_cring) a u).
        rewrite zpow_mul_base, zpow_zpow, IH.
        change (rmul (c := Z_cring) a x) with (a * x)%Z. rewrite (Z.mul_comm a x). reflexivity.
  Qed.
  Lemma prodpow_zeros bs k : prodpow bs (zeros (R := Z_cring) k) = z1.
  Proof.
    revert k; induction bs as [|[b bi] bs IH]; intros [|k]; cbn [zeros repeat prodpow]; try reflexivity.
    fold (zeros (R := Z_cring) k). rewrite IH. change (@r0 Z_cring) with 0%Z. cbn [zpow]. ring.
  Qed.

  (* bases that are themselves products of powers of bs, one per row of M: a product of their
     powers is the product of powers of bs with the combined exponent vector *)
  Definition row_bases (bs : list (R * R)) (M : list (list Z)) : list (R * R) :=
    map (fun r => (prodpow bs r, prodpow (swap_bases bs) r)) M.

  Lemma prodpow_lincomb bs k : inverses_ok bs -> forall M c,
    prodpow (row_bases bs M) c = prodpow bs (lincomb (R := Z_cring) k c M).
  Proof.
    intros Hok. induction M as [|r M IH]; intros [|a c]; cbn [row_bases map prodpow lincomb];
      try (symmetry; apply prodpow_zeros).
    fold (row_bases bs M). rewrite (prodpow_vadd bs Hok), prodpow_vscale, IH. reflexivity.
  Qed.

  Lemma prodpow_ones bs : (forall p, In p bs -> p = (z1, z1)) -> forall e, prodpow bs e = z1.
  Proof.
    induction bs as [|p bs IH]; intros H [|x e]; cbn [prodpow]; try reflexivity.
    - destruct p; reflexivity.
    - rewrite (H p (or_introl eq_refl)), zpow_one, IH; [ring|]. intros q Hq. apply H; right; exact Hq.
  Qed.

  (* every integer combination of relations is a relation *)
  Theorem relations_closed bs B : inverses_ok bs ->
    (forall e, In e B -> is_relation bs e) ->
    forall k c, is_relation bs (lincomb (R := Z_cring) k c B).
  Proof.
    intros Hok HB k c. unfold is_relation in *. rewrite <- (prodpow_lincomb bs k Hok).
    apply prodpow_ones. intros p Hp. unfold row_bases in Hp. apply in_map_iff in Hp.
    destruct Hp as [r [<- Hr]]. pose proof (prodpow_inv bs Hok r) as Hi.
    rewrite (HB r Hr) in Hi |- *. f_equal. rewrite <- Hi. ring.
  Qed.
End Rel.

Arguments zpow {R} _ _ _. Arguments prodpow {R} _ _. Arguments is_relation {R} _ _.
Arguments inverses_ok {R} _. Arguments check_relations {R} _ _. Arguments check_relation {R} _ _.
Arguments check_inverses {R} _. Arguments swap_bases {R} _. Arguments row_bases {R} _ _.
