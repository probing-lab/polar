(* C14: verified validators for the unsolvable-loop synthesis.

   [check_synth]  decides, for a flat program fp, a polynomial Q, a constant k, a list of
   "effective items" (monomials with a linear system and validated closed forms, special
   cases included) and a candidate closed form f (an exponential polynomial), whether
        wp(body, Q) = k*Q + (a combination of the items' monomials)      (the coefficients
                                                                          are COMPUTED here)
        f(0) = wp(init, Q)                 and
        f(n+1) = k*f(n) + sum c_i * E[M_i]_n      for ALL n
   and [check_synth_sound] turns acceptance into   forall n s0, E[Q(state_n)] = f(n).

   [check_sim]  decides whether a second flat program (the synthesized solvable loop) with a
   variable s carries the same moment system and the same recurrence for s as the original
   loop carries for Q; [check_sim_sound] gives  E_S[s]_n = E_O[Q]_n  and equal moments of the
   system's monomials (retained variables) for ALL n. *)
From Coq Require Import List String QArith Qcanon ZArith Bool Ring Field Arith Lia.
From Polar Require Import Qcx CRing ExpPoly ClosedForm Dist Syntax Sem Types Poly Pipeline Wp.
Import ListNotations.
Local Open Scope Qc_scope.

Notation epolyQ := (epoly Qc_cring).
Definition eevalQ (f : epolyQ) (n : nat) : Qc := eeval (R := Qc_cring) f n.

(* a monomial list "contains" m up to normalisation *)
Definition mono_in (m : mono) (ms : list mono) : bool :=
  existsb (fun m' => mono_eqb (mnorm m') (mnorm m)) ms.

Lemma mono_in_sound m ms : mono_in m ms = true ->
  exists m', In m' ms /\ forall s, eval_mono m' s = eval_mono m s.
Proof.
  unfold mono_in. rewrite existsb_exists. intros [m' [Hin He]]. exists m'.
  split; [exact Hin | exact (mnorm_eqb_eval m' m He)].
Qed.

Lemma max_fold_ge {X} (g : X -> nat) l x :
  In x l -> (g x <= fold_right (fun y acc => Nat.max (g y) acc) 0 l)%nat.
Proof.
  induction l as [|y l IH]; intros Hin; [destruct Hin|]. cbn [fold_right].
  destruct Hin as [->|Hin]; [apply Nat.le_max_l | etransitivity; [exact (IH Hin) | apply Nat.le_max_r]].
Qed.

Lemma pw_eval_general_nth (F : list epolyQ) sp n k :
  (List.length sp <= n)%nat -> nth k (pw_eval (R := Qc_cring) F sp n) 0 = eevalQ (nth k F []) n.
Proof.
  intros H. rewrite (pw_eval_general Qc_cring F sp n H).
  exact (map_nth (fun f : epolyQ => eeval f n) F [] k).
Qed.

Lemma eventually_eeq (u w : nat -> Qc) (f g : epolyQ) N :
  forallb (fun i => Qc_eqb (u i) (w i)) (seq 0 N) = true -> eeq (R := Qc_cring) f g = true ->
  (forall n, (N <= n)%nat -> u n = eevalQ f n) -> (forall n, (N <= n)%nat -> w n = eevalQ g n) ->
  forall n, u n = w n.
Proof.
  intros Hlow Heq Hu Hw n. destruct (Nat.lt_ge_cases n N) as [Hn|Hn].
  - apply Qc_eqb_true. rewrite forallb_forall in Hlow. apply Hlow, in_seq. lia.
  - rewrite (Hu n Hn), (Hw n Hn). apply (eeq_sound Qc_cring _ _ Heq).
Qed.

Section Synth.
  Variable law : string -> list Qc -> dist Qc.
  Variable cmom : string -> list Qc -> nat -> Qc.
  Hypothesis Hc : cmom_ok law cmom.

  Lemma pipeline_moment fp T ms A v F sp k m :
    check_pipeline cmom fp T ms A v F sp = true -> nth_error ms k = Some m ->
    forall s0, init_ok fp T s0 ->
    forall n, nth k (pw_eval (R := Qc_cring) F sp n) 0 = E (frun law fp n s0) (eval_mono m).
  Proof.
    intros H Hk s0 H0 n. apply nth_error_nth.
    exact (closed_form_moment law cmom fp T ms A v F sp Hc H s0 H0 k m Hk n).
  Qed.

  Lemma init_value fp P Iw c :
    wp_gas cmom [] (fp_init fp) P = Some Iw -> pequiv [] Iw (pconst c) = true ->
    forall s0, E (frun law fp 0 s0) (eval_poly P) = c.
  Proof.
    intros EI Hi s0. cbn [frun].
    rewrite (wp_gas_exact law cmom [] (fp_init fp) Hc (check_ga_nil _) P Iw s0 (typed_nil s0) EI).
    rewrite (pequiv_sound [] _ _ Hi s0 (typed_nil s0)). apply eval_pconst.
  Qed.

  Lemma step_semantic fp T P W k R :
    check_types fp T = true -> wp_gas cmom T (fp_body fp) P = Some W ->
    (forall s, typed T s -> eval_poly W s = k * eval_poly P s + eval_poly R s) ->
    forall s0, init_ok fp T s0 ->
    forall n, E (frun law fp (S n) s0) (eval_poly P) =
              k * E (frun law fp n s0) (eval_poly P) + E (frun law fp n s0) (eval_poly R).
  Proof.
    intros HT EW HR s0 H0 n. cbn [frun]. rewrite E_bind, <- E_cmul, <- E_add.
    apply (E_frun_typed law fp T s0 n _ _ HT H0). intros s Hs. rewrite <- (HR s Hs).
    exact (wp_gas_exact law cmom T (fp_body fp) Hc (check_types_body fp T HT) P W s Hs EW).
  Qed.

  (* an effective item: a monomial, the closed linear system it lives in, closed forms *)
  Record eitem := {
    ei_ms : list mono;            (* monomials of the system; the constant is the empty monomial *)
    ei_A : list (list Qc);        (* one-step matrix *)
    ei_v : list Qc;               (* moments before the first iteration *)
    ei_F : list epolyQ;           (* closed forms, general part *)
    ei_sp : list (list Qc);       (* special cases: values of the whole vector at n = 0 .. *)
    ei_idx : nat }.               (* position of the item's monomial in ei_ms *)

  Definition ei_mono (it : eitem) : mono := nth (ei_idx it) (ei_ms it) [].
  Definition ei_val (it : eitem) (n : nat) : Qc :=
    nth (ei_idx it) (pw_eval (R := Qc_cring) (ei_F it) (ei_sp it) n) 0.
  Definition ei_gen (it : eitem) : epolyQ := nth (ei_idx it) (ei_F it) [].

  Definition check_item (fp : flatprog) (T : tenv) (it : eitem) : bool :=
    Nat.ltb (ei_idx it) (List.length (ei_ms it))
    && check_system cmom fp T (ei_ms it) (ei_A it)
    && check_init_vals cmom (fp_init fp) (ei_ms it) (ei_v it)
    && check_solution (R := Qc_cring) (ei_A it) (ei_v it) (ei_F it) (ei_sp it).

  Theorem item_sound fp T it :
    check_types fp T = true -> check_item fp T it = true ->
    forall s0, init_ok fp T s0 ->
    forall n, E (frun law fp n s0) (eval_mono (ei_mono it)) = ei_val it n.
  Proof.
    intros HT H s0 H0 n. unfold check_item in H.
    apply andb_prop in H as [H HF]. apply andb_prop in H as [H HI]. apply andb_prop in H as [Hidx HS].
    apply Nat.ltb_lt in Hidx.
    unfold ei_val, ei_mono. symmetry.
    apply (pipeline_moment fp T (ei_ms it) (ei_A it) (ei_v it)); [|apply nth_error_nth'; exact Hidx|exact H0].
    unfold check_pipeline. rewrite HT, HS, HI, HF. reflexivity.
  Qed.

  Lemma ei_val_general it n : (List.length (ei_sp it) <= n)%nat -> ei_val it n = eevalQ (ei_gen it) n.
  Proof. apply pw_eval_general_nth. Qed.

  (* the effective part: every term of R must be the monomial of an item *)
  Fixpoint find_item (m : mono) (items : list eitem) : option eitem :=
    match items with
    | [] => None
    | it :: r => if mono_eqb (mnorm (ei_mono it)) (mnorm m) then Some it else find_item m r
    end.

  Fixpoint eff_items (R : poly) (items : list eitem) : option (list (Qc * eitem)) :=
    match R with
    | [] => Some []
    | (c, m) :: R' =>
        match find_item m items, eff_items R' items with
        | Some it, Some l => Some ((c, it) :: l)
        | _, _ => None
        end
    end.

  Lemma find_item_sound m items it : find_item m items = Some it ->
    In it items /\ forall s, eval_mono (ei_mono it) s = eval_mono m s.
  Proof.
    induction items as [|it' r IH]; cbn [find_item]; [discriminate|].
    destruct (mono_eqb (mnorm (ei_mono it')) (mnorm m)) eqn:Em; intros H.
    - injection H as <-. split; [left; reflexivity | exact (mnorm_eqb_eval _ _ Em)].
    - destruct (IH H) as [Hin He]. split; [right; exact Hin | exact He].
  Qed.

  Definition eff_at (l : list (Qc * eitem)) (s : state) : Qc :=
    fold_right (fun ci acc => fst ci * eval_mono (ei_mono (snd ci)) s + acc) 0 l.
  Definition eff_val (l : list (Qc * eitem)) (n : nat) : Qc :=
    fold_right (fun ci acc => fst ci * ei_val (snd ci) n + acc) 0 l.
  Definition eff_epoly (l : list (Qc * eitem)) : epolyQ :=
    fold_right (fun ci acc => eadd (escale (R := Qc_cring) (fst ci) (ei_gen (snd ci))) acc) [] l.

  Lemma eff_items_sound R items l : eff_items R items = Some l ->
    (forall ci, In ci l -> In (snd ci) items) /\ forall s, eval_poly R s = eff_at l s.
  Proof.
    revert l; induction R as [|[c m] R IH]; cbn [eff_items]; intros l H.
    - injection H as <-. split; [intros ci []| reflexivity].
    - destruct (find_item m items) as [it|] eqn:Ef; [|discriminate].
      destruct (eff_items R items) as [l'|] eqn:El; [|discriminate].
      injection H as <-. destruct (IH l' eq_refl) as [Hin He].
      destruct (find_item_sound _ _ _ Ef) as [Hit Hm]. split.
      + intros ci [<-|Hci]; [exact Hit | apply Hin; exact Hci].
      + intros s. cbn [eval_poly eff_at fold_right fst snd]. rewrite Hm. fold (eff_at l' s). rewrite He. reflexivity.
  Qed.

  Lemma E_eff_val (d : dist state) l n :
    (forall ci, In ci l -> E d (eval_mono (ei_mono (snd ci))) = ei_val (snd ci) n) ->
    E d (eff_at l) = eff_val l n.
  Proof.
    intros H. unfold eff_at, eff_val. induction l as [|ci l IH]; cbn [fold_right]; [apply E_zero|].
    rewrite E_add, E_cmul, (H ci (or_introl eq_refl)), IH by (intros ci' Hci; apply H; right; exact Hci).
    reflexivity.
  Qed.

  Definition max_sp (l : list (Qc * eitem)) : nat :=
    fold_right (fun ci acc => Nat.max (List.length (ei_sp (snd ci))) acc) 0%nat l.

  Lemma max_sp_ge l ci : In ci l -> (List.length (ei_sp (snd ci)) <= max_sp l)%nat.
  Proof. exact (max_fold_ge (fun ci => List.length (ei_sp (snd ci))) l ci). Qed.

  Lemma eff_val_general l n : (max_sp l <= n)%nat -> eff_val l n = eevalQ (eff_epoly l) n.
  Proof.
    induction l as [|ci l IH]; cbn [max_sp eff_val eff_epoly fold_right]; intros H; [reflexivity|].
    unfold eevalQ. rewrite (eeval_eadd Qc_cring), (eeval_escale Qc_cring), ei_val_general by lia.
    apply (f_equal (Qcplus _)), IH. unfold max_sp. lia.
  Qed.

  Definition eff_residual (T : tenv) (W Q : poly) (k : Qc) : poly :=
    pclean (preduce T (psub W (pscale k Q))).

  (* the candidate closed form: special values fsp for n < length fsp (what Polar writes
     Piecewise((v0, n <= 0), ..., (general, True))), the exponential polynomial f from there on *)
  Definition fval (fsp : list Qc) (f : epolyQ) (n : nat) : Qc :=
    if Nat.ltb n (List.length fsp) then nth n fsp 0 else eevalQ f n.

  Definition check_closed_form (k : Qc) (l : list (Qc * eitem)) (fsp : list Qc) (f : epolyQ) : bool :=
    forallb (fun n => Qc_eqb (fval fsp f (S n)) (k * fval fsp f n + eff_val l n))
            (seq 0 (Nat.max (max_sp l) (List.length fsp)))
    && eeq (R := Qc_cring) (eshift f) (eadd (escale (R := Qc_cring) k f) (eff_epoly l)).

  Definition check_synth (fp : flatprog) (T : tenv) (Q : poly) (k : Qc) (items : list eitem)
             (fsp : list Qc) (f : epolyQ) : bool :=
    check_types fp T
    && forallb (check_item fp T) items
    && match wp_gas cmom T (fp_body fp) Q, wp_gas cmom [] (fp_init fp) Q with
       | Some W, Some Iw =>
           match eff_items (eff_residual T W Q k) items with
           | Some l => pequiv [] Iw (pconst (fval fsp f 0)) && check_closed_form k l fsp f
           | None => false
           end
       | _, _ => false
       end.

  (* k may be left to the validator: any of the listed candidates *)
  Definition check_synth_any (fp : flatprog) (T : tenv) (Q : poly) (ks : list Qc) (items : list eitem)
             (fsp : list Qc) (f : epolyQ) : bool :=
    existsb (fun k => check_synth fp T Q k items fsp f) ks.

  Lemma eval_eff_residual T W Q k s : typed T s ->
    eval_poly W s = k * eval_poly Q s + eval_poly (eff_residual T W Q k) s.
  Proof.
    intros HT. unfold eff_residual. rewrite eval_pclean, eval_preduce by exact HT.
    rewrite eval_psub, eval_pscale. ring.
  Qed.

  Lemma fval_general fsp f n : (List.length fsp <= n)%nat -> fval fsp f n = eevalQ f n.
  Proof. intros H. unfold fval. apply Nat.ltb_ge in H. rewrite H. reflexivity. Qed.

  Lemma closed_form_step k l fsp f : check_closed_form k l fsp f = true ->
    forall n, fval fsp f (S n) = k * fval fsp f n + eff_val l n.
  Proof.
    unfold check_closed_form. intros H. apply andb_true_iff in H as [Hlow Heq].
    apply (eventually_eeq (fun n => fval fsp f (S n)) (fun n => k * fval fsp f n + eff_val l n) _ _ _ Hlow Heq);
      intros n Hn; unfold eevalQ.
    - rewrite (eeval_eshift Qc_cring). apply fval_general. lia.
    - rewrite (eeval_eadd Qc_cring), (eeval_escale Qc_cring), fval_general, eff_val_general by lia. reflexivity.
  Qed.

  Lemma poly_step fp T Q W k items l :
    check_types fp T = true -> forallb (check_item fp T) items = true ->
    wp_gas cmom T (fp_body fp) Q = Some W ->
    eff_items (eff_residual T W Q k) items = Some l ->
    forall s0, init_ok fp T s0 ->
    forall n, E (frun law fp (S n) s0) (eval_poly Q) = k * E (frun law fp n s0) (eval_poly Q) + eff_val l n.
  Proof.
    intros HT Hit HW Hl s0 H0 n. destruct (eff_items_sound _ _ _ Hl) as [Hin He].
    rewrite (step_semantic fp T Q W k _ HT HW (eval_eff_residual T W Q k) s0 H0 n). f_equal.
    rewrite (E_ext _ _ _ He). apply E_eff_val. intros ci Hci.
    rewrite forallb_forall in Hit. exact (item_sound fp T _ HT (Hit _ (Hin ci Hci)) s0 H0 n).
  Qed.

  Theorem check_synth_sound fp T Q k items fsp f :
    check_synth fp T Q k items fsp f = true ->
    forall s0, init_ok fp T s0 ->
    forall n, E (frun law fp n s0) (eval_poly Q) = fval fsp f n.
  Proof.
    unfold check_synth. intros H s0 H0.
    apply andb_true_iff in H; destruct H as [H H3].
    apply andb_true_iff in H; destruct H as [HT Hit].
    destruct (wp_gas cmom T (fp_body fp) Q) as [W|] eqn:EW; [|discriminate].
    destruct (wp_gas cmom [] (fp_init fp) Q) as [Iw|] eqn:EI; [|discriminate].
    destruct (eff_items (eff_residual T W Q k) items) as [l|] eqn:El; [|discriminate].
    apply andb_true_iff in H3; destruct H3 as [Hi Hf].
    induction n as [|n IH].
    - exact (init_value fp Q Iw _ EI Hi s0).
    - rewrite (poly_step fp T Q W k items l HT Hit EW El s0 H0 n), IH.
      symmetry. apply closed_form_step. exact Hf.
  Qed.

  Corollary check_synth_any_sound fp T Q ks items fsp f :
    check_synth_any fp T Q ks items fsp f = true ->
    forall s0, init_ok fp T s0 ->
    forall n, E (frun law fp n s0) (eval_poly Q) = fval fsp f n.
  Proof.
    unfold check_synth_any. rewrite existsb_exists. intros [k [_ H]]. exact (check_synth_sound fp T Q k items fsp f H).
  Qed.

  (* two accepted closed forms for the same polynomial denote the same sequence (k = 1 search
     and general search of the CLI; invariants returned next to a synthesized loop) *)
  Corollary check_synth_agree fp T Q k items fsp f k' items' fsp' f' :
    check_synth fp T Q k items fsp f = true -> check_synth fp T Q k' items' fsp' f' = true ->
    forall s0, init_ok fp T s0 -> forall n, fval fsp f n = fval fsp' f' n.
  Proof.
    intros H H' s0 H0 n.
    rewrite <- (check_synth_sound _ _ _ _ _ _ _ H s0 H0 n), <- (check_synth_sound _ _ _ _ _ _ _ H' s0 H0 n).
    reflexivity.
  Qed.

  (* certified values: the exact sequence E[Q]_0, E[Q]_1, ... computed from the validated
     items alone (no candidate closed form involved).  Used by the search: a candidate f whose
     value differs from this list at some n is refuted at that n. *)
  Fixpoint iter_vals (k : Qc) (l : list (Qc * eitem)) (cur : Qc) (n N : nat) : list Qc :=
    match N with
    | O => []
    | S N' => cur :: iter_vals k l (k * cur + eff_val l n) (S n) N'
    end.

  Definition synth_values (fp : flatprog) (T : tenv) (Q : poly) (k : Qc) (items : list eitem) (N : nat) : option (list Qc) :=
    if check_types fp T && forallb (check_item fp T) items then
      match wp_gas cmom T (fp_body fp) Q, wp_gas cmom [] (fp_init fp) Q with
      | Some W, Some Iw =>
          match eff_items (eff_residual T W Q k) items with
          | Some l => if pequiv [] Iw (pconst (eval_poly Iw st0)) then Some (iter_vals k l (eval_poly Iw st0) 0 N) else None
          | None => None
          end
      | _, _ => None
      end
    else None.

  Lemma iter_vals_nth k l (g : nat -> Qc) :
    (forall n, g (S n) = k * g n + eff_val l n) ->
    forall N n0 i, (i < N)%nat -> nth i (iter_vals k l (g n0) n0 N) 0 = g (n0 + i)%nat.
  Proof.
    intros Hg; induction N as [|N IH]; intros n0 i Hi; [lia|].
    cbn [iter_vals]. destruct i as [|i]; cbn [nth].
    - rewrite Nat.add_0_r. reflexivity.
    - rewrite <- (Hg n0). rewrite (IH (S n0) i) by lia. f_equal. lia.
  Qed.

  Theorem synth_values_sound fp T Q k items N vs :
    synth_values fp T Q k items N = Some vs ->
    forall s0, init_ok fp T s0 ->
    forall n, (n < N)%nat -> nth n vs 0 = E (frun law fp n s0) (eval_poly Q).
  Proof.
    unfold synth_values. intros H s0 H0 n Hn.
    destruct (check_types fp T && forallb (check_item fp T) items) eqn:Hck; [|discriminate].
    apply andb_true_iff in Hck; destruct Hck as [HT Hit].
    destruct (wp_gas cmom T (fp_body fp) Q) as [W|] eqn:EW; [|discriminate].
    destruct (wp_gas cmom [] (fp_init fp) Q) as [Iw|] eqn:EI; [|discriminate].
    destruct (eff_items (eff_residual T W Q k) items) as [l|] eqn:El; [|discriminate].
    destruct (pequiv [] Iw (pconst (eval_poly Iw st0))) eqn:Ep; [|discriminate].
    injection H as <-. rewrite <- (init_value fp Q Iw _ EI Ep s0).
    exact (iter_vals_nth k l (fun j => E (frun law fp j s0) (eval_poly Q))
             (poly_step fp T Q W k items l HT Hit EW El s0 H0) N 0 n Hn).
  Qed.

  Definition check_polystep (fp : flatprog) (T : tenv) (P : poly) (k : Qc) (R : poly) : bool :=
    match wp_gas cmom T (fp_body fp) P with
    | Some W => pequiv T W (padd (pscale k P) R)
    | None => false
    end.

  Definition init_const (fp : flatprog) (P : poly) : option Qc :=
    match wp_gas cmom [] (fp_init fp) P with
    | Some Iw => if pequiv [] Iw (pconst (eval_poly Iw st0)) then Some (eval_poly Iw st0) else None
    | None => None
    end.

  Lemma moments_all fp T ms A v :
    check_types fp T = true -> check_system cmom fp T ms A = true ->
    check_init_vals cmom (fp_init fp) ms v = true ->
    forall s0, init_ok fp T s0 ->
    forall n, moments_vec law fp ms n s0 = iter_mat (R := Qc_cring) A n v.
  Proof.
    intros HT HS HI s0 H0 n.
    rewrite (moments_iter law fp T ms A HT (check_system_sound law cmom fp T ms A Hc HT HS) s0 H0 n).
    rewrite (check_init_vals_sound law cmom fp ms v Hc HI s0). reflexivity.
  Qed.

  (* no fresh variable (loop already solvable, or no invariant found): only the retained
     variables' system is compared *)
  Definition check_sys_agree (fpO : flatprog) (TO : tenv) (fpS : flatprog) (TS : tenv)
             (ms : list mono) (A : list (list Qc)) (v : list Qc) : bool :=
    check_types fpO TO && check_types fpS TS
    && check_system cmom fpO TO ms A && check_system cmom fpS TS ms A
    && check_init_vals cmom (fp_init fpO) ms v && check_init_vals cmom (fp_init fpS) ms v.

  Theorem check_sys_agree_sound fpO TO fpS TS ms A v :
    check_sys_agree fpO TO fpS TS ms A v = true ->
    forall s0 s0', init_ok fpO TO s0 -> init_ok fpS TS s0' ->
    forall n, moments_vec law fpS ms n s0' = moments_vec law fpO ms n s0.
  Proof.
    unfold check_sys_agree. intros H s0 s0' H0 H0' n.
    apply andb_prop in H as [H HIS]. apply andb_prop in H as [H HIO].
    apply andb_prop in H as [H HSS]. apply andb_prop in H as [H HSO]. apply andb_prop in H as [HTO HTS].
    rewrite (moments_all fpS TS ms A v HTS HSS HIS s0' H0' n),
            (moments_all fpO TO ms A v HTO HSO HIO s0 H0 n). reflexivity.
  Qed.

  (* fpO/TO: original loop, Q its polynomial; fpS/TS: synthesized loop, sv its fresh variable;
     ms/A/v: a linear system that is closed and exact in BOTH programs with equal initial
     values (it contains the effective monomials and the retained variables) *)
  Definition check_sim (fpO : flatprog) (TO : tenv) (fpS : flatprog) (TS : tenv)
             (Q : poly) (sv : var) (k : Qc) (ms : list mono) (A : list (list Qc)) (v : list Qc) : bool :=
    check_types fpO TO && check_types fpS TS
    && check_system cmom fpO TO ms A && check_system cmom fpS TS ms A
    && check_init_vals cmom (fp_init fpO) ms v && check_init_vals cmom (fp_init fpS) ms v
    && match wp_gas cmom TO (fp_body fpO) Q with
       | Some W =>
           let R := eff_residual TO W Q k in
           forallb (fun t => mono_in (snd t) ms) R
           && check_polystep fpS TS (pvar sv) k R
       | None => false
       end
    && match init_const fpO Q, init_const fpS (pvar sv) with
       | Some a, Some b => Qc_eqb a b
       | _, _ => false
       end.

  Lemma init_const_sound fp P c : init_const fp P = Some c ->
    forall s0, E (frun law fp 0 s0) (eval_poly P) = c.
  Proof.
    unfold init_const. intros H s0.
    destruct (wp_gas cmom [] (fp_init fp) P) as [Iw|] eqn:EI; [|discriminate].
    destruct (pequiv [] Iw (pconst (eval_poly Iw st0))) eqn:Ep; [|discriminate].
    injection H as <-. exact (init_value fp P Iw _ EI Ep s0).
  Qed.

  Lemma E_poly_by_moments (R : poly) (ms : list mono) (d d' : dist state) :
    forallb (fun t => mono_in (snd t) ms) R = true ->
    map (fun m => E d (eval_mono m)) ms = map (fun m => E d' (eval_mono m)) ms ->
    E d (eval_poly R) = E d' (eval_poly R).
  Proof.
    intros HR Hm.
    rewrite (E_eval_poly d R), (E_eval_poly d' R).
    induction R as [|[c m] R IH]; [reflexivity|].
    cbn [forallb snd] in HR. apply andb_true_iff in HR; destruct HR as [Hin HR].
    cbn [fold_right fst snd]. rewrite (IH HR). f_equal. f_equal.
    destruct (mono_in_sound _ _ Hin) as [m' [Hm' He]].
    rewrite <- (E_ext d _ _ He), <- (E_ext d' _ _ He).
    exact (ext_in_map Hm m' Hm').
  Qed.

  Lemma polystep_sound fp T P k R :
    check_types fp T = true -> check_polystep fp T P k R = true ->
    forall s0, init_ok fp T s0 ->
    forall n, E (frun law fp (S n) s0) (eval_poly P) =
              k * E (frun law fp n s0) (eval_poly P) + E (frun law fp n s0) (eval_poly R).
  Proof.
    intros HT H s0 H0 n. unfold check_polystep in H.
    destruct (wp_gas cmom T (fp_body fp) P) as [W|] eqn:EW; [|discriminate].
    apply (step_semantic fp T P W k R HT EW); [|exact H0].
    intros s Hs. rewrite (pequiv_sound T _ _ H s Hs), eval_padd, eval_pscale. reflexivity.
  Qed.

  Theorem check_sim_sound fpO TO fpS TS Q sv k ms A v :
    check_sim fpO TO fpS TS Q sv k ms A v = true ->
    forall s0 s0', init_ok fpO TO s0 -> init_ok fpS TS s0' ->
    forall n,
      E (frun law fpS n s0') (fun s : state => s sv) = E (frun law fpO n s0) (eval_poly Q)
      /\ moments_vec law fpS ms n s0' = moments_vec law fpO ms n s0.
  Proof.
    unfold check_sim. intros H s0 s0' H0 H0'.
    apply andb_prop in H as [H Hinit]. apply andb_prop in H as [Hsys Hstep].
    pose proof (check_sys_agree_sound fpO TO fpS TS ms A v Hsys s0 s0' H0 H0') as Hms.
    destruct (check_types fpO TO) eqn:HTO; [|discriminate Hsys].
    destruct (check_types fpS TS) eqn:HTS; [|discriminate Hsys].
    destruct (wp_gas cmom TO (fp_body fpO) Q) as [W|] eqn:EW; [|discriminate].
    apply andb_prop in Hstep as [HR HS].
    destruct (init_const fpO Q) as [a|] eqn:Ea; [|discriminate].
    destruct (init_const fpS (pvar sv)) as [b|] eqn:Eb; [|discriminate].
    apply Qc_eqb_true in Hinit. subst b.
    intros n. split; [|apply Hms].
    rewrite (E_ext _ (fun s : state => s sv) (eval_poly (pvar sv))) by (intros s; symmetry; apply eval_pvar).
    set (R := eff_residual TO W Q k) in *.
    induction n as [|n IH].
    - rewrite (init_const_sound fpS _ _ Eb s0'), (init_const_sound fpO _ _ Ea s0). reflexivity.
    - rewrite (polystep_sound fpS TS (pvar sv) k R HTS HS s0' H0' n).
      rewrite (step_semantic fpO TO Q W k R HTO EW (eval_eff_residual TO W Q k) s0 H0 n).
      rewrite IH. f_equal. apply (E_poly_by_moments R ms); [exact HR | apply Hms].
  Qed.

End Synth.

(* the discrete instance: no continuous families, hypothesis-free *)
Definition cm0 : string -> list Qc -> nat -> Qc := fun _ _ _ => 0.
Lemma cm0_ok : cmom_ok no_law cm0.
Proof. intros f args k; reflexivity. Qed.

(* moments of the continuous families occurring in the repository's unsolvable benchmarks,
   as specifications (C08 is about these formulas): Normal(mu, sigma2) by the recurrence
   m(k+2) = mu*m(k+1) + (k+1)*sigma2*m(k), Uniform(a, b) = (b^(k+1) - a^(k+1)) / ((k+1)(b-a)).
   [normal_mom mu s2 k] is the pair (m(k), m(k+1)).  [cmom_std] is the cmom argument that
   harness/checks/c14.py gives the validator for programs with continuous distributions ([cm0]
   otherwise); it is stated independently of DistSympy.normal_moment, and no theorem relates the two. *)
Fixpoint normal_mom (mu s2 : Qc) (k : nat) : Qc * Qc :=
  match k with
  | O => (1, mu)
  | S k' => let ab := normal_mom mu s2 k' in (snd ab, mu * snd ab + qnat (S k') * s2 * fst ab)
  end.
Definition cmom_std (f : string) (args : list Qc) (k : nat) : Qc :=
  if String.eqb f "Normal" then
    match args with [mu; s2] => fst (normal_mom mu s2 k) | _ => 0 end
  else if String.eqb f "Uniform" then
    match args with [a; b] => (qpow b (S k) - qpow a (S k)) / (qnat (S k) * (b - a)) | _ => 0 end
  else 0.
