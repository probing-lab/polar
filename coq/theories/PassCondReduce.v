(* C02, ConditionsReducer (program/transformer/conditions_reducer.py, Atom.reduce in
   program/condition/atom_cond.py).

   Python:   store = {}                                  # Atom -> alias symbol, per block
             for assign in assignments:
                 aliases = assign.condition.reduce(store)     # And/Or: left then right; Not: child
                 for (new_var, e) in aliases: emit  new_var = e
                 emit assign
                 store = {k: v for k, v in store if assign.variable not in k.free_symbols}
             Atom.reduce(store):  if poly1.is_Symbol and poly2.is_Integer: unchanged
                                  elif self in store: poly1, poly2 = store[self], 0
                                  else: new = _r<counter++>; store[copy of self] = new
                                        alias = poly1 - poly2; poly1, poly2 = new, 0; return [(new, alias)]

   Model [cond_reduce k0] below; k0 is the value of the global name counter.  Theorem: one
   execution of the transformed list, from ANY state that agrees with the source state
   outside the generated alias names, gives every observation that does not read alias names
   the same expectation; lifted to all iterations (initial block and loop body). *)
From Coq Require Import List String QArith Qcanon ZArith Bool Lia Arith Ring.
From Polar Require Import Qcx Dist Syntax Sem Types PassFlat.
Import ListNotations.
Local Open Scope nat_scope.

(* the store is keyed by the atom, compared structurally *)
Fixpoint expr_eqb (a b : expr) : bool :=
  match a, b with
  | EConst p, EConst q => Qc_eqb p q
  | EVar x, EVar y => var_eqb x y
  | EAdd a1 a2, EAdd b1 b2 => expr_eqb a1 b1 && expr_eqb a2 b2
  | EMul a1 a2, EMul b1 b2 => expr_eqb a1 b1 && expr_eqb a2 b2
  | EPow a1 k, EPow b1 j => expr_eqb a1 b1 && Nat.eqb k j
  | _, _ => false
  end.
Lemma expr_eqb_eq a b : expr_eqb a b = true -> a = b.
Proof.
  revert b; induction a as [p|x|a1 IH1 a2 IH2|a1 IH1 a2 IH2|a1 IH1 k]; intros [q|y|b1 b2|b1 b2|b1 j];
    cbn [expr_eqb]; intros H; try discriminate.
  - apply Qc_eqb_true in H. subst. reflexivity.
  - apply var_eqb_eq in H. subst. reflexivity.
  - apply andb_true_iff in H. destruct H as [H1 H2]. rewrite (IH1 _ H1), (IH2 _ H2). reflexivity.
  - apply andb_true_iff in H. destruct H as [H1 H2]. rewrite (IH1 _ H1), (IH2 _ H2). reflexivity.
  - apply andb_true_iff in H. destruct H as [H1 H2]. rewrite (IH1 _ H1). apply Nat.eqb_eq in H2. subst. reflexivity.
Qed.
Definition cop_eqb (o p : cop) : bool :=
  match o, p with
  | Ceq, Ceq | Cle, Cle | Cge, Cge | Clt, Clt | Cgt, Cgt => true
  | _, _ => false
  end.
Lemma cop_eqb_eq o p : cop_eqb o p = true -> o = p.
Proof. destruct o, p; cbn; intros H; try discriminate; reflexivity. Qed.

Definition atom : Type := expr * cop * expr.
Definition atom_eqb (x y : atom) : bool :=
  let '(a, o, b) := x in let '(a', o', b') := y in expr_eqb a a' && cop_eqb o o' && expr_eqb b b'.
Lemma atom_eqb_eq x y : atom_eqb x y = true -> x = y.
Proof.
  destruct x as [[a o] b], y as [[a' o'] b']. cbn [atom_eqb]. intros H.
  apply andb_true_iff in H. destruct H as [H H3]. apply andb_true_iff in H. destruct H as [H1 H2].
  rewrite (expr_eqb_eq _ _ H1), (cop_eqb_eq _ _ H2), (expr_eqb_eq _ _ H3). reflexivity.
Qed.

Definition store : Type := list (atom * var).
Fixpoint st_lookup (x : atom) (st : store) : option var :=
  match st with
  | [] => None
  | (y, r) :: st' => if atom_eqb x y then Some r else st_lookup x st'
  end.
Lemma st_lookup_In x st r : st_lookup x st = Some r -> In (x, r) st.
Proof.
  induction st as [|[y r'] st IH]; cbn [st_lookup]; intros H; [discriminate|].
  destruct (atom_eqb x y) eqn:E.
  - apply atom_eqb_eq in E. inversion H. subst. left. reflexivity.
  - right. apply IH. exact H.
Qed.

(* Atom.is_reduced: <symbol> cop <integer> *)
Definition is_reduced (a b : expr) : bool :=
  match a, b with
  | EVar _, EConst q => Pos.eqb (qden q) 1
  | _, _ => false
  end.

(* get_unique_var(name="r") *)
Definition rname (k : nat) : var := ("_r" ++ nat_str k)%string.
Lemma rname_inj j k : rname j = rname k -> j = k.
Proof. unfold rname. intros H. apply append_inj_l in H. apply nat_str_inj. exact H. Qed.

Definition EZero : expr := EConst 0%Qc.

(* Condition.reduce: new condition, alias definitions in order, new store, new counter *)
Fixpoint reduce_cond (c : cond) (st : store) (k : nat) : cond * list (var * expr) * store * nat :=
  match c with
  | CTrue | CFalse => (c, [], st, k)
  | CAtom a o b =>
      if is_reduced a b then (c, [], st, k)
      else match st_lookup (a, o, b) st with
           | Some r => (CAtom (EVar r) o EZero, [], st, k)
           | None => let r := rname k in
                     (CAtom (EVar r) o EZero, [(r, ESub a b)], ((a, o, b), r) :: st, S k)
           end
  | CNot c1 => let '(c1', al, st', k') := reduce_cond c1 st k in (CNot c1', al, st', k')
  | CAnd c1 c2 =>
      let '(c1', al1, st1, k1) := reduce_cond c1 st k in
      let '(c2', al2, st2, k2) := reduce_cond c2 st1 k1 in
      (CAnd c1' c2', al1 ++ al2, st2, k2)
  | COr c1 c2 =>
      let '(c1', al1, st1, k1) := reduce_cond c1 st k in
      let '(c2', al2, st2, k2) := reduce_cond c2 st1 k1 in
      (COr c1' c2', al1 ++ al2, st2, k2)
  end.

(* PolyAssignment.deterministic(new_var, e): condition true, default = the variable itself *)
Definition alias_ga (xe : var * expr) : gassign :=
  {| ga_var := fst xe; ga_cond := CTrue; ga_default := fst xe; ga_rhs := RDet (snd xe) |}.

Definition atom_mentions (x : var) (a : atom) : bool :=
  let '(e1, _, e2) := a in smem x (vars_of e1 ++ vars_of e2).
Definition purge (x : var) (st : store) : store := filter (fun ar => negb (atom_mentions x (fst ar))) st.

Definition set_cond (g : gassign) (c : cond) : gassign :=
  {| ga_var := ga_var g; ga_cond := c; ga_default := ga_default g; ga_rhs := ga_rhs g |}.

Fixpoint cr_go (st : store) (k : nat) (l : list gassign) : list gassign * nat :=
  match l with
  | [] => ([], k)
  | g :: l' =>
      let '(c', al, st1, k1) := reduce_cond (ga_cond g) st k in
      let '(out, k2) := cr_go (purge (ga_var g) st1) k1 l' in
      (map alias_ga al ++ set_cond g c' :: out, k2)
  end.

Definition cond_reduce (k0 : nat) (l : list gassign) : list gassign * nat := cr_go [] k0 l.

(* the pass: initial block first, then the loop body, one counter, a fresh store each *)
Definition cr_prog (k0 : nat) (fp : flatprog) : flatprog * nat :=
  let '(i', k1) := cond_reduce k0 (fp_init fp) in
  let '(b', k2) := cond_reduce k1 (fp_body fp) in
  ({| fp_init := i'; fp_body := b' |}, k2).

(* generated names and the boolean hypothesis: no generated alias name occurs in the source *)
Definition rnames (k0 k1 : nat) : list var := map rname (seq k0 (k1 - k0)).
Definition cr_gen (k0 : nat) (l : list gassign) : list var := rnames k0 (snd (cond_reduce k0 l)).
Definition wf_cr (k0 : nat) (l : list gassign) : bool := sdisjoint (cr_gen k0 l) (gas_vars l).
Definition cr_prog_gen (k0 : nat) (fp : flatprog) : list var := rnames k0 (snd (cr_prog k0 fp)).
Definition wf_cr_prog (k0 : nat) (fp : flatprog) : bool :=
  sdisjoint (cr_prog_gen k0 fp) (gas_vars (fp_init fp) ++ gas_vars (fp_body fp)).

Lemma rnames_In k0 k1 j : k0 <= j < k1 -> In (rname j) (rnames k0 k1).
Proof. intros H. unfold rnames. apply in_map. apply in_seq. lia. Qed.

Local Open Scope Qc_scope.
Lemma Qccompare_sub_0 (x y : Qc) : (x - y ?= 0) = (x ?= y).
Proof.
  destruct (x ?= y) eqn:E.
  - apply Qceq_alt in E. subst. apply Qceq_alt. ring.
  - apply Qclt_alt in E. apply Qclt_alt. apply Qclt_minus_iff. apply Qclt_minus_iff in E.
    replace (0 + - (x - y)) with (y + - x) by ring. exact E.
  - apply Qcgt_alt in E. apply Qcgt_alt. apply Qclt_minus_iff. apply Qclt_minus_iff in E.
    replace (x - y + - 0) with (x + - y) by ring. exact E.
Qed.
Lemma Qccompare_0_sub (x y : Qc) : (0 ?= x - y) = (y ?= x).
Proof.
  unfold Qccompare. rewrite <- (Qcompare_antisym (x - y)%Qc 0%Qc), <- (Qcompare_antisym x y).
  f_equal. apply Qccompare_sub_0.
Qed.
Lemma cop_holds_sub o (x y : Qc) : cop_holds o (x - y) 0 = cop_holds o x y.
Proof.
  destruct o; cbn [cop_holds]; unfold Qc_leb, Qc_ltb; rewrite ?Qccompare_sub_0, ?Qccompare_0_sub; try reflexivity.
  destruct (Qc_eqb_spec (x - y) 0) as [E|E], (Qc_eqb_spec x y) as [E'|E']; try reflexivity.
  - exfalso. apply E', Qc_minus_0, E.
  - exfalso. apply E. subst. ring.
Qed.
Local Close Scope Qc_scope.

(* And and Or are treated alike by the pass *)
Lemma reduce_cond_bin op c1 c2 st k : op = CAnd \/ op = COr ->
  reduce_cond (op c1 c2) st k =
  let '(c1', al1, st1, k1) := reduce_cond c1 st k in
  let '(c2', al2, st2, k2) := reduce_cond c2 st1 k1 in
  (op c1' c2', al1 ++ al2, st2, k2).
Proof. intros [->| ->]; reflexivity. Qed.

(* values: every stored alias holds the difference of the two sides of its atom *)
Definition st_val (st : store) (t : state) : Prop :=
  forall a o b r, In ((a, o, b), r) st -> t r = (eval a t - eval b t)%Qc.
(* names: aliases are generated names _r<j>, j < k; the atoms only mention other variables *)
Definition st_names (G : var -> Prop) (k : nat) (st : store) : Prop :=
  forall a o b r, In ((a, o, b), r) st ->
    (exists j, j < k /\ r = rname j) /\ G r /\ fresh G (vars_of a ++ vars_of b).

Lemma holds_alias st t a o b r :
  st_val st t -> In ((a, o, b), r) st -> holds (CAtom (EVar r) o EZero) t = holds (CAtom a o b) t.
Proof. intros Hv Hin. cbn [holds eval EZero]. rewrite (Hv a o b r Hin). apply cop_holds_sub. Qed.

Lemma st_val_upd st t x v :
  (forall a o b r, In ((a, o, b), r) st -> r <> x /\ ~ In x (vars_of a ++ vars_of b)) ->
  st_val st t -> st_val st (upd t x v).
Proof.
  intros Hx Hv a o b r Hin. destruct (Hx a o b r Hin) as [Hr Hab].
  rewrite upd_other by exact Hr.
  rewrite !eval_upd_notin by (intros H; apply Hab; apply in_or_app; auto).
  exact (Hv a o b r Hin).
Qed.

Lemma purge_In x st a o b r :
  In ((a, o, b), r) (purge x st) -> In ((a, o, b), r) st /\ ~ In x (vars_of a ++ vars_of b).
Proof.
  unfold purge. intros H. apply filter_In in H. destruct H as [H1 H2].
  split; [exact H1 | apply smem_false, negb_true_iff; exact H2].
Qed.

(* the purged store survives an assignment to a source variable x: its atoms do not mention
   x by the purge, its aliases are not x because they are generated names *)
Lemma st_val_purge G k st t x v :
  st_names G k st -> ~ G x -> st_val st t -> st_val (purge x st) (upd t x v).
Proof.
  intros Hn Hx Hv. apply st_val_upd.
  - intros a o b r Hin. apply purge_In in Hin. destruct Hin as [Hin Hab]. split; [|exact Hab].
    intros ->. apply Hx. apply (Hn a o b _ Hin).
  - intros a o b r Hin. apply purge_In in Hin. apply (Hv a o b r), Hin.
Qed.

(* running the alias definitions *)
Definition run_al (al : list (var * expr)) (t : state) : state :=
  fold_left (fun t xe => upd t (fst xe) (eval (snd xe) t)) al t.
Lemma run_al_app al1 al2 t : run_al (al1 ++ al2) t = run_al al2 (run_al al1 t).
Proof. unfold run_al. apply fold_left_app. Qed.

(* what a reduction of c from store st and counter k promises of its result: the counter and
   the store grow; (1) the new condition is equivalent to c in every state in which the new
   store is valid; (2) if the names the counter ran through are generated names and c
   mentions none, then running the alias definitions makes the new store valid and writes
   generated names only *)
Definition reduced_to (c : cond) (st : store) (k : nat)
    (out : cond * list (var * expr) * store * nat) : Prop :=
  let '(c', al, st', k') := out in
  k <= k' /\ incl st st' /\
  (forall t, st_val st' t -> holds c' t = holds c t) /\
  forall (G : var -> Prop) t, (forall j, k <= j < k' -> G (rname j)) -> fresh G (cond_vars c) ->
    st_names G k st -> st_val st t ->
    st_names G k' st' /\ st_val st' (run_al al t) /\ agree G t (run_al al t).

Lemma reduced_to_same c c' st k :
  (forall t, st_val st t -> holds c' t = holds c t) -> reduced_to c st k (c', [], st, k).
Proof.
  intros Hh. split; [apply le_n | split; [apply incl_refl | split; [exact Hh|]]].
  intros G t _ _ Hn Hv. split; [exact Hn | split; [exact Hv | apply agree_refl]].
Qed.

(* a new alias _r<k> := a - b: it is mentioned neither by a, b nor by the store *)
Lemma reduced_to_alias a o b st k :
  reduced_to (CAtom a o b) st k
    (CAtom (EVar (rname k)) o EZero, [(rname k, ESub a b)], ((a, o, b), rname k) :: st, S k).
Proof.
  split; [apply le_S, le_n | split; [apply incl_tl, incl_refl | split]].
  { intros t Hv. apply (holds_alias _ t a o b _ Hv). left. reflexivity. }
  intros G t HG Hc Hn Hv. assert (HGk : G (rname k)) by (apply HG; lia).
  cbn [run_al fold_left fst snd]. split; [|split].
  - intros a' o' b' r [Hin|Hin].
    + inversion Hin; subst. split; [exists k; split; [lia | reflexivity] | split; [exact HGk | exact Hc]].
    + destruct (Hn a' o' b' r Hin) as [[j [Hj Er]] Hr]. split; [exists j; split; [lia | exact Er] | exact Hr].
  - assert (Hst : st_val st (upd t (rname k) (eval (ESub a b) t))).
    { apply st_val_upd; [|exact Hv]. intros a' o' b' r Hin.
      destruct (Hn a' o' b' r Hin) as [[j [Hj ->]] [_ Hfr]].
      split; [intros E; apply rname_inj in E; lia | exact (Hfr _ HGk)]. }
    intros a' o' b' r [Hin|Hin]; [|exact (Hst a' o' b' r Hin)].
    inversion Hin; subst. rewrite upd_same, !eval_upd_notin, eval_ESub; [reflexivity | |];
      intros H; apply (Hc _ HGk); cbn [cond_vars]; apply in_or_app; auto.
  - apply agree_upd_gen; [apply agree_refl | exact HGk].
Qed.

(* reductions compose: c2 is reduced from the store and counter that c1 leaves, and what c1
   stored is still valid wherever the final store is *)
Lemma reduced_to_bin op c1 c2 st k c1' al1 st1 k1 c2' al2 st2 k2 : op = CAnd \/ op = COr ->
  reduced_to c1 st k (c1', al1, st1, k1) -> reduced_to c2 st1 k1 (c2', al2, st2, k2) ->
  reduced_to (op c1 c2) st k (op c1' c2', al1 ++ al2, st2, k2).
Proof.
  intros Hop (Hm1 & Hi1 & Hh1 & Hr1) (Hm2 & Hi2 & Hh2 & Hr2).
  split; [lia | split; [eapply incl_tran; eassumption | split]].
  - intros t Hv.
    assert (H1 : holds c1' t = holds c1 t) by (apply Hh1; intros a o b r Hin; apply (Hv a o b r), Hi2, Hin).
    destruct Hop as [->| ->]; cbn [holds]; rewrite H1, (Hh2 t Hv); reflexivity.
  - intros G t HG Hc Hn Hv.
    assert (Hc12 : fresh G (cond_vars c1) /\ fresh G (cond_vars c2)) by (destruct Hop as [->| ->]; apply fresh_app, Hc).
    destruct (Hr1 G t) as (Hn1 & Hv1 & Ha1); [intros j Hj; apply HG; lia | apply Hc12 | exact Hn | exact Hv |].
    destruct (Hr2 G (run_al al1 t)) as (Hn2 & Hv2 & Ha2); [intros j Hj; apply HG; lia | apply Hc12 | exact Hn1 | exact Hv1 |].
    rewrite run_al_app. split; [exact Hn2 | split; [exact Hv2 | eapply agree_trans; eassumption]].
Qed.

Lemma reduce_cond_sound c : forall st k, reduced_to c st k (reduce_cond c st k).
Proof.
  induction c as [| |a o b|c IH|op c1 c2 Hop IH1 IH2] using cond_ind_bin; intros st k.
  - apply reduced_to_same. reflexivity.
  - apply reduced_to_same. reflexivity.
  - cbn [reduce_cond]. destruct (is_reduced a b); [apply reduced_to_same; reflexivity|].
    destruct (st_lookup (a, o, b) st) as [r|] eqn:El; [|apply reduced_to_alias].
    apply reduced_to_same. intros t Hv. exact (holds_alias st t a o b r Hv (st_lookup_In _ _ _ El)).
  - cbn [reduce_cond]. specialize (IH st k). destruct (reduce_cond c st k) as [[[c' al] st'] k'].
    destruct IH as (Hm & Hi & Hh & Hr). split; [exact Hm | split; [exact Hi | split; [|exact Hr]]].
    intros t Hv. cbn [holds]. rewrite (Hh t Hv). reflexivity.
  - rewrite reduce_cond_bin by exact Hop.
    specialize (IH1 st k). destruct (reduce_cond c1 st k) as [[[c1' al1] st1] k1].
    specialize (IH2 st1 k1). destruct (reduce_cond c2 st1 k1) as [[[c2' al2] st2] k2].
    eapply reduced_to_bin; [exact Hop | exact IH1 | exact IH2].
Qed.

Lemma cr_go_mono l : forall st k, k <= snd (cr_go st k l).
Proof.
  induction l as [|g l IH]; intros st k; cbn [cr_go]; [apply le_n|].
  pose proof (reduce_cond_sound (ga_cond g) st k) as Hm.
  destruct (reduce_cond (ga_cond g) st k) as [[[c' al] st1] k1]. destruct Hm as [Hm _].
  specialize (IH (purge (ga_var g) st1) k1). destruct (cr_go (purge (ga_var g) st1) k1 l) as [out k2].
  cbn [snd] in *. lia.
Qed.

Section CR.
  Variable law : string -> list Qc -> dist Qc.

  Lemma E_exec_aliases al rest t f :
    E (exec_gas law (map alias_ga al ++ rest) t) f = E (exec_gas law rest (run_al al t)) f.
  Proof.
    revert t. induction al as [|[x e] al IH]; intros t; cbn [map app]; [reflexivity|].
    rewrite E_exec_gas_cons, E_exec_ga. cbn [alias_ga ga_cond ga_rhs ga_var fst snd holds].
    rewrite sample_det, E_ret. apply IH.
  Qed.

  Lemma cr_go_sim (G : var -> Prop) l : forall st k,
    (forall j, k <= j < snd (cr_go st k l) -> G (rname j)) -> fresh G (gas_vars l) ->
    forall s s' f,
      st_names G k st -> st_val st s' -> agree G s s' -> respects G f ->
      E (exec_gas law (fst (cr_go st k l)) s') f = E (exec_gas law l s) f.
  Proof.
    induction l as [|g l IH]; intros st k HG Hsrc s s' f Hn Hv Ha Hf.
    - cbn [cr_go fst]. rewrite !E_exec_gas_nil. apply Hf. exact Ha.
    - apply fresh_gas_cons in Hsrc. destruct Hsrc as [Hg Hl].
      cbn [cr_go] in HG |- *.
      pose proof (reduce_cond_sound (ga_cond g) st k) as Hred.
      destruct (reduce_cond (ga_cond g) st k) as [[[c' al] st1] k1]. destruct Hred as (Hm0 & _ & Hh & Hr).
      pose proof (cr_go_mono l (purge (ga_var g) st1) k1) as Hm.
      specialize (IH (purge (ga_var g) st1) k1).
      destruct (cr_go (purge (ga_var g) st1) k1 l) as [out k2]. cbn [fst snd] in *.
      destruct (Hr G s') as [Hn1 [Hv1 Ha1]]; [intros j Hj; apply HG; lia | | exact Hn | exact Hv |].
      { intros x Hx Hin. apply (Hg x Hx). unfold ga_vars. right. right. apply in_or_app. left. exact Hin. }
      (* the aliases are run first; the assignment then reads the state they leave *)
      rewrite E_exec_aliases. set (t := run_al al s') in *.
      assert (Hat : agree G s t) by (eapply agree_trans; eassumption).
      apply (exec_gas_cons_sim law g _ l _ s t t f (agree_fresh G _ s t Hg Hat));
        [exact (Hh t Hv1) | reflexivity | reflexivity |].
      intros v. apply IH; [intros j Hj; apply HG; lia | exact Hl | | | apply agree_upd; exact Hat | exact Hf].
      + intros a o b r Hin. apply purge_In in Hin. apply (Hn1 a o b r), Hin.
      + apply (st_val_purge G k1); [exact Hn1 | | exact Hv1]. intros HGx. apply (Hg _ HGx). left. reflexivity.
  Qed.

  Definition in_names (k0 k1 : nat) : var -> Prop := fun x => In x (rnames k0 k1).

  (* any block of the program, any counter window [k0, kend) that contains the names used *)
  Lemma cond_reduce_sim_gen k0 kend k l :
    k0 <= k -> snd (cond_reduce k l) <= kend ->
    fresh (in_names k0 kend) (gas_vars l) ->
    sim_on law (in_names k0 kend) l (fst (cond_reduce k l)).
  Proof.
    intros Hk Hke Hsrc s s' f. apply (cr_go_sim (in_names k0 kend)).
    - intros j Hj. apply rnames_In. unfold cond_reduce in Hke. lia.
    - exact Hsrc.
    - intros a o b r [].
    - intros a o b r [].
  Qed.

  Theorem cond_reduce_step k0 l : wf_cr k0 l = true ->
    forall s s' f,
      (forall x, ~ In x (cr_gen k0 l) -> s' x = s x) ->
      (forall t t', (forall x, ~ In x (cr_gen k0 l) -> t' x = t x) -> f t' = f t) ->
      E (exec_gas law (fst (cond_reduce k0 l)) s') f = E (exec_gas law l s) f.
  Proof.
    intros Hwf. apply (cond_reduce_sim_gen k0 (snd (cond_reduce k0 l)) k0 l); [apply le_n | apply le_n |].
    exact (sdisjoint_spec _ _ Hwf).
  Qed.

  (* the two blocks of the pass: the body starts at the counter the initial block ends with *)
  Lemma cr_prog_eq k0 fp :
    cr_prog k0 fp =
    let k1 := snd (cond_reduce k0 (fp_init fp)) in
    ({| fp_init := fst (cond_reduce k0 (fp_init fp)); fp_body := fst (cond_reduce k1 (fp_body fp)) |},
     snd (cond_reduce k1 (fp_body fp))).
  Proof.
    unfold cr_prog. destruct (cond_reduce k0 (fp_init fp)) as [i' k1]. cbn [fst snd].
    destruct (cond_reduce k1 (fp_body fp)); reflexivity.
  Qed.

  Theorem cond_reduce_preserves k0 fp : wf_cr_prog k0 fp = true ->
    forall n s0 s0' f,
      (forall x, ~ In x (cr_prog_gen k0 fp) -> s0' x = s0 x) ->
      (forall t t', (forall x, ~ In x (cr_prog_gen k0 fp) -> t' x = t x) -> f t' = f t) ->
      E (frun law (fst (cr_prog k0 fp)) n s0') f = E (frun law fp n s0) f.
  Proof.
    unfold wf_cr_prog, cr_prog_gen. rewrite cr_prog_eq. cbv zeta. cbn [fst snd].
    set (k1 := snd (cond_reduce k0 (fp_init fp))). set (k2 := snd (cond_reduce k1 (fp_body fp))).
    assert (H01 : k0 <= k1) by apply cr_go_mono. assert (H12 : k1 <= k2) by apply cr_go_mono.
    intros Hwf. destruct (fresh_app (in_names k0 k2) _ _ (sdisjoint_spec _ _ Hwf)) as [Hi Hb].
    apply (frun_lift law (in_names k0 k2) fp); cbn [fp_init fp_body].
    - apply cond_reduce_sim_gen; [apply le_n | exact H12 | exact Hi].
    - apply cond_reduce_sim_gen; [exact H01 | apply le_n | exact Hb].
  Qed.
End CR.

(* the hypothesis is necessary: capture of a user variable named like an alias *)
Open Scope string_scope.
Definition cr_capture_body : list gassign :=
  [ {| ga_var := "x"; ga_cond := CAtom (EMul (EVar "_r1") (EVar "y")) Cgt (EMul (EVar "x") (EVar "_r1"));
       ga_default := "x"; ga_rhs := RDet (EConst (mkq 1 1)) |};
    {| ga_var := "z"; ga_cond := CTrue; ga_default := "z"; ga_rhs := RDet (EVar "_r1") |} ].
Definition cr_capture_state : state := upd (upd st0 "_r1" (mkq 1 1)) "y" (mkq 0 1).
(* with the counter at 1 the alias `_r1 = _r1*y - x*_r1` overwrites the user's `_r1`
   (1 in the source state): z = _r1 is 1 in the source, 0 after the pass *)
Theorem cond_reduce_needs_wf :
  wf_cr 1 cr_capture_body = false /\
  E (exec_gas no_law (fst (cond_reduce 1 cr_capture_body)) cr_capture_state) (fun s => s "z")
  <> E (exec_gas no_law cr_capture_body cr_capture_state) (fun s => s "z").
Proof.
  split; [vm_compute; reflexivity|]. intros H. apply (f_equal qnum) in H. vm_compute in H. discriminate.
Qed.
