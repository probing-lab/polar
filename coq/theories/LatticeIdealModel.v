(* Model of invariants/lattice_ideal.py:LatticeIdeal.compute_basis (C06, C16): soundness of the
   generator equations and of everything in the ideal they generate.
   Variables: x_1..x_k (one per base) followed by c_1..c_k (the "inverse symbols").
     row generator      prod_{e_i>0} x_i^{e_i} * prod_{e_i<0} c_i^{-e_i} - 1      for a lattice row e
     inverse generator  x_i * c_i - 1
   At  x_i = b_i^n, c_i = (1/b_i)^n  every generator vanishes for EVERY n when the rows are
   multiplicative relations of the bases; hence every member of the generated ideal does, and a
   member without inverse symbols (what the elimination returns) vanishes on x_i = b_i^n alone.
   Polar creates inverse symbols only for bases with a negative exponent; the model has all k of
   them (a superset of generators that are all sound).  Groebner elimination is not modelled: its
   outputs enter through an ideal-membership certificate (cofactors), hypothesis of the theorem. *)
From Coq Require Import List Bool Arith Lia Ring ZArith.
From Polar Require Import CRing ExpPoly Lattice LatticeRel Invariant InvariantIdeal.
Import ListNotations.

Section LI.
  Variable R : cring.
  Add Ring Rring3 : (rth R).
  Local Open Scope cr_scope.
  Local Notation z0 := (@r0 R).
  Local Notation z1 := (@r1 R).

  Definition pos_part (e : list Z) : list nat := map Z.to_nat e.
  Definition neg_part (e : list Z) : list nat := map (fun x => Z.to_nat (- x)) e.

  Definition row_gen (e : list Z) : mpoly R := [(z1, pos_part e ++ neg_part e); (ropp z1, [])].

  Fixpoint onehot (k i : nat) : list nat :=
    match k with
    | O => []
    | S k' => match i with O => 1%nat :: repeat 0%nat k' | S i' => 0%nat :: onehot k' i' end
    end.
  Definition inv_gen (k i : nat) : mpoly R := [(z1, onehot k i ++ onehot k i); (ropp z1, [])].

  Definition generators (k : nat) (B : list (list Z)) : list (mpoly R) :=
    map row_gen B ++ map (inv_gen k) (seq 0 k).

  Definition xval (bs : list (R * R)) (n : nat) : list R := map (fun p => rpow (fst p) n) bs.
  Definition cval (bs : list (R * R)) (n : nat) : list R := map (fun p => rpow (snd p) n) bs.
  Definition val (bs : list (R * R)) (n : nat) : list R := xval bs n ++ cval bs n.

  Lemma mon_eval_app es1 : forall es2 (xs1 xs2 : list R), length es1 = length xs1 ->
    mon_eval (es1 ++ es2) (xs1 ++ xs2) = mon_eval es1 xs1 * mon_eval es2 xs2.
  Proof.
    induction es1 as [|e es1 IH]; intros es2 [|x xs1] xs2 H; cbn [length] in H; try discriminate.
    - cbn [app mon_eval]. ring.
    - cbn [app mon_eval]. rewrite IH by lia. ring.
  Qed.

  Lemma mon_eval_short es : forall (xs ys : list R), length es <= length xs ->
    mon_eval es (xs ++ ys) = mon_eval es xs.
  Proof.
    induction es as [|e es IH]; intros [|x xs] ys H; cbn [length] in H; cbn [app mon_eval]; try reflexivity; try lia.
    rewrite IH by lia. reflexivity.
  Qed.

  Lemma mon_eval_repeat0 k : forall xs : list R, mon_eval (repeat 0%nat k) xs = z1.
  Proof.
    induction k as [|k IH]; intros [|x xs]; cbn [repeat mon_eval rpow]; try reflexivity.
    rewrite IH. ring.
  Qed.

  Lemma mon_eval_onehot k : forall i (xs : list R), i < k -> length xs = k -> mon_eval (onehot k i) xs = nth i xs z1.
  Proof.
    induction k as [|k IH]; intros i xs Hi Hl; [lia|].
    destruct xs as [|x xs]; [discriminate|]. cbn [length] in Hl.
    destruct i as [|i]; cbn [onehot mon_eval nth rpow].
    - rewrite mon_eval_repeat0. ring.
    - rewrite IH by lia. ring.
  Qed.

  Lemma rpow_swap (b : R) n m : rpow (rpow b n) m = rpow (rpow b m) n.
  Proof. rewrite !rpow_rpow, Nat.mul_comm. reflexivity. Qed.

  Lemma zpow_pow (b bi : R) e n : zpow (rpow b n) (rpow bi n) e = rpow (zpow b bi e) n.
  Proof.
    destruct e as [|p|p]; cbn [zpow]; [symmetry; apply rpow_1 | apply rpow_swap | apply rpow_swap].
  Qed.

  (* the bases with their inverses, raised to the n-th power: [val bs n] lists their first
     components, then their second components *)
  Definition bpow (bs : list (R * R)) (n : nat) : list (R * R) :=
    map (fun p => (rpow (fst p) n, rpow (snd p) n)) bs.

  Lemma prodpow_bpow (bs : list (R * R)) n : forall e, prodpow (bpow bs n) e = rpow (prodpow bs e) n.
  Proof.
    induction bs as [|[b bi] bs IH]; intros [|x e]; cbn [bpow map prodpow fst snd];
      try (symmetry; apply rpow_1).
    fold (bpow bs n). rewrite IH, zpow_pow, rpow_mul_base. reflexivity.
  Qed.
  Lemma xval_bpow (bs : list (R * R)) n : xval bs n = map fst (bpow bs n).
  Proof. unfold xval, bpow. rewrite map_map. reflexivity. Qed.
  Lemma cval_bpow (bs : list (R * R)) n : cval bs n = map snd (bpow bs n).
  Proof. unfold cval, bpow. rewrite map_map. reflexivity. Qed.

  Lemma mon_eval_parts (bs : list (R * R)) : forall e,
    mon_eval (pos_part e) (map fst bs) * mon_eval (neg_part e) (map snd bs) = prodpow bs e.
  Proof.
    induction bs as [|[b bi] bs IH]; intros [|x e];
      cbn [pos_part neg_part map mon_eval prodpow fst snd]; [ring .. |].
    fold (pos_part e) (neg_part e). rewrite <- IH, zpow_split. ring.
  Qed.

  Theorem row_gen_vanishes (bs : list (R * R)) e n :
    length e = length bs -> is_relation bs e -> poly_eval (row_gen e) (val bs n) = z0.
  Proof.
    intros HL HR. unfold row_gen, val. cbn [poly_eval fst snd].
    rewrite mon_eval_app by (unfold pos_part, xval; rewrite !map_length; exact HL).
    rewrite xval_bpow, cval_bpow, mon_eval_parts, prodpow_bpow.
    unfold is_relation in HR. rewrite HR, rpow_1. cbn [mon_eval]. ring.
  Qed.

  Lemma length_onehot k : forall i, length (onehot k i) = k.
  Proof.
    induction k as [|k IH]; intros [|i]; cbn [onehot length]; rewrite ?repeat_length, ?IH; reflexivity.
  Qed.
  Lemma val_inverse (bs : list (R * R)) n : inverses_ok bs ->
    forall i, nth i (xval bs n) z1 * nth i (cval bs n) z1 = z1.
  Proof.
    induction bs as [|[b bi] bs IH]; intros Hok [|i]; cbn [xval cval map nth fst snd]; [ring | ring | |].
    - apply rpow_inv. exact (Hok _ (or_introl eq_refl)).
    - apply IH. intros q Hq. apply Hok. right. exact Hq.
  Qed.

  Theorem inv_gen_vanishes (bs : list (R * R)) i n :
    inverses_ok bs -> i < length bs -> poly_eval (inv_gen (length bs) i) (val bs n) = z0.
  Proof.
    intros HI Hi. unfold inv_gen, val. cbn [poly_eval fst snd mon_eval].
    assert (Lx : length (xval bs n) = length bs) by apply map_length.
    assert (Lc : length (cval bs n) = length bs) by apply map_length.
    rewrite mon_eval_app by (rewrite length_onehot, Lx; reflexivity).
    rewrite !mon_eval_onehot, (val_inverse bs n HI i) by assumption. ring.
  Qed.

  Lemma generators_vanish (bs : list (R * R)) B n :
    inverses_ok bs -> (forall e, In e B -> length e = length bs /\ is_relation bs e) ->
    forall G, In G (generators (length bs) B) -> poly_eval G (val bs n) = z0.
  Proof.
    intros HI HB G HG. unfold generators in HG. apply in_app_or in HG. destruct HG as [HG|HG].
    - apply in_map_iff in HG. destruct HG as [e [<- He]]. destruct (HB e He) as [HL HR].
      apply row_gen_vanishes; assumption.
    - apply in_map_iff in HG. destruct HG as [i [<- Hi]]. apply in_seq in Hi.
      apply inv_gen_vanishes; [exact HI | lia].
  Qed.

  Lemma poly_eval_short (q : mpoly R) xs ys :
    exps_ok (length xs) q = true -> poly_eval q (xs ++ ys) = poly_eval q xs.
  Proof.
    induction q as [|m q IH]; intros H; cbn [poly_eval]; [reflexivity|].
    cbn [exps_ok forallb] in H. apply andb_true_iff in H. destruct H as [Hm H]. apply Nat.leb_le in Hm.
    rewrite mon_eval_short by exact Hm. rewrite IH by exact H. reflexivity.
  Qed.

  (* exponent vectors of q (over x_1..x_k) padded with zeros for the inverse symbols, so that the
     syntactic comparison [mpeq] with a combination over all 2k variables is meaningful *)
  Definition padq (m : nat) (q : mpoly R) : mpoly R :=
    map (fun u => (fst u, snd u ++ repeat 0%nat (m - length (snd u)))) q.
  Lemma mon_eval_pad es m : forall xs : list R, mon_eval (es ++ repeat 0%nat m) xs = mon_eval es xs.
  Proof.
    induction es as [|e es IH]; intros xs; cbn [app].
    - rewrite mon_eval_repeat0. reflexivity.
    - destruct xs as [|x xs]; cbn [mon_eval]; [reflexivity|]. rewrite IH. reflexivity.
  Qed.
  Lemma poly_eval_padq m (q : mpoly R) xs : poly_eval (padq m q) xs = poly_eval q xs.
  Proof.
    induction q as [|u q IH]; cbn [padq map poly_eval fst snd]; [reflexivity|].
    fold (padq m q). rewrite IH, mon_eval_pad. reflexivity.
  Qed.

  (* the lattice ideal is sound: a polynomial q in the x_i alone that is (certified to be) a
     member of the ideal generated by the row and inverse generators of accepted relation rows
     vanishes on x_i = b_i^n at EVERY n *)
  Theorem lattice_ideal_sound (bs : list (R * R)) (B : list (list Z)) (Cs : list (mpoly R)) (q : mpoly R) :
    check_relations bs B = true ->
    exps_ok (length bs) q = true ->
    forallb (exps_ok (length bs + length bs)%nat) (generators (length bs) B) = true ->
    forallb (exps_ok (length bs + length bs)%nat) Cs = true ->
    mpeq (padq (length bs + length bs)%nat q) (ideal_comb Cs (generators (length bs) B)) = true ->
    forall n, poly_eval q (xval bs n) = z0.
  Proof.
    intros HR Hq _ _ HE n.
    destruct (check_relations_sound R bs B HR) as [HI HB].
    assert (Lx : length (xval bs n) = length bs) by apply map_length.
    rewrite <- (poly_eval_short q (xval bs n) (cval bs n)) by (rewrite Lx; exact Hq).
    fold (val bs n). rewrite <- (poly_eval_padq (length bs + length bs)%nat q (val bs n)).
    rewrite (mpeq_sound R _ _ HE (val bs n)).
    apply ideal_comb_vanishes, generators_vanish; assumption.
  Qed.
End LI.

Arguments row_gen {R} _. Arguments inv_gen {R} _ _. Arguments generators {R} _ _.
Arguments xval {R} _ _. Arguments val {R} _ _. Arguments padq {R} _ _.
