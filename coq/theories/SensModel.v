(* C10 — sensitivity analysis, part 2: the model of Polar's sensitivity recurrences
   (recurrences/diff_rec_builder.py, sensitivity_analysis/sensitivity_analyzer.py) at the
   level of recurrence systems, and the validators run on Polar's actual output.

   A system (S, s) over a subset of the unknowns of a system (B, b), given by an index map
   iota, is accepted as a closed sub-system of (B, b) modulo a set Z of unknowns that are
   identically zero; then S^n s = (B^n b) restricted to iota, for all n.  The model follows the
   summand-wise rules of DiffRecBuilder.get_recurrence (skip p-independent summands; c'.m +
   c.(delta m) when both parts depend on p; c'.m when only the constant part does; c.(delta m)
   when only the monomial does) and of get_initial_value (derivative of the initial value).
   What SensivitiyAnalyzer.get_dependent_variables must guarantee for the monomials it
   classifies p-independent is a hypothesis: their rows and initial values are p-free and
   closed, so that their moments have zero p-derivative at every n.  Under it the model's
   system iterates to the value and the formal p-derivative of A(p)^n v(p), for all systems,
   parameter values and n; the executable validators conclude the same for one instance of
   Polar's output. *)
From Coq Require Import List Bool Arith Lia Ring.
From Polar Require Import CRing ExpPoly ClosedForm Sens.
Import ListNotations.

Section Sub.
  Variable R : cring.
  Add Ring Rring5 : (rth R).
  Local Open Scope cr_scope.
  Notation "0" := (@r0 R).
  Notation "1" := (@r1 R).

  Definition zero_on (Z : list bool) (y : list R) : Prop :=
    Forall2 (fun z a => z = true -> a = 0) Z y.

  Lemma zero_on_length Z y : zero_on Z y -> length Z = length y.
  Proof. intros H; induction H; simpl; congruence. Qed.

  Fixpoint rows_agree (Z : list bool) (r1 r2 : list R) : bool :=
    match Z, r1, r2 with
    | [], [], [] => true
    | z :: Z', a :: r1', b :: r2' => (z || reqb a b) && rows_agree Z' r1' r2'
    | _, _, _ => false
    end.

  Lemma rows_agree_dot Z : forall r1 r2, rows_agree Z r1 r2 = true ->
    forall y, zero_on Z y -> dot r1 y = dot r2 y.
  Proof.
    induction Z as [|z Z IH]; intros [|a r1] [|b r2] H y Hy; simpl in H; try discriminate.
    - reflexivity.
    - inversion Hy as [|z0 c Z0 y0 Hc Hy0]; subst.
      apply andb_true_iff in H. destruct H as [H1 H2]. simpl.
      rewrite (IH _ _ H2 _ Hy0).
      apply orb_true_iff in H1. destruct H1 as [H1|H1].
      + rewrite (Hc H1). ring.
      + apply reqb_eq in H1. subst. reflexivity.
  Qed.

  Fixpoint mats_agree (Z : list bool) (M B : list (list R)) : bool :=
    match M, B with
    | [], [] => true
    | r1 :: M', r2 :: B' => rows_agree Z r1 r2 && mats_agree Z M' B'
    | _, _ => false
    end.

  Lemma mats_agree_mvec Z : forall M B, mats_agree Z M B = true ->
    forall y, zero_on Z y -> mvec M y = mvec B y.
  Proof.
    induction M as [|r1 M IH]; intros [|r2 B] H y Hy; simpl in H; try discriminate; [reflexivity|].
    apply andb_true_iff in H. destruct H as [H1 H2]. simpl.
    rewrite (rows_agree_dot _ _ _ H1 _ Hy). f_equal. apply IH; assumption.
  Qed.

  Fixpoint zero_vec (Z : list bool) (b : list R) : bool :=
    match Z, b with
    | [], [] => true
    | z :: Z', a :: b' => (negb z || reqb a 0) && zero_vec Z' b'
    | _, _ => false
    end.

  Lemma zero_vec_sound Z : forall b, zero_vec Z b = true -> zero_on Z b.
  Proof.
    induction Z as [|z Z IH]; intros [|a b] H; simpl in H; try discriminate; [constructor|].
    apply andb_true_iff in H. destruct H as [H1 H2]. constructor; [|apply IH; exact H2].
    intros ->. apply reqb_eq. exact H1.
  Qed.

  Fixpoint zero_rows (Z Zf : list bool) (B : list (list R)) : bool :=
    match Zf, B with
    | [], [] => true
    | z :: Zf', r :: B' => (negb z || rows_agree Z r (zeros Z)) && zero_rows Z Zf' B'
    | _, _ => false
    end.

  Lemma zero_rows_sound Z : forall Zf B, zero_rows Z Zf B = true ->
    forall y, zero_on Z y -> zero_on Zf (mvec B y).
  Proof.
    induction Zf as [|z Zf IH]; intros [|r B] H y Hy; simpl in H; try discriminate; [constructor|].
    apply andb_true_iff in H. destruct H as [H1 H2]. constructor; [|apply IH; assumption].
    intros ->. rewrite (rows_agree_dot _ _ _ H1 _ Hy). apply dot_zeros.
  Qed.

  Definition gather (iota : list nat) (y : list R) : list R := map (fun c => nth c y 0) iota.
  Definition ind (c c' : nat) : R := if Nat.eqb c' c then 1 else 0.
  (* the row over K unknowns that acts on y as r acts on [gather iota y] *)
  Definition scatter (r : list R) (iota : list nat) (K : nat) : list R :=
    map (fun c => dot r (map (ind c) iota)) (seq 0 K).

  Lemma dot_map_lin a (f g : nat -> R) l : forall y,
    dot (map (fun c => a * f c + g c) l) y = a * dot (map f l) y + dot (map g l) y.
  Proof.
    induction l as [|c l IH]; intros [|b y]; simpl; try ring. rewrite IH. ring.
  Qed.

  Lemma dot_map_zero {X} (l : list X) (y : list R) : dot (map (fun _ => 0) l) y = 0.
  Proof. exact (dot_zeros R l y). Qed.

  (* row c0 of the identity matrix picks entry c0; the unit vector of a longer vector is
     the shifted unit vector of its tail *)
  Lemma dot_unit c0 K (y : list R) : length y = K ->
    dot (map (fun c => ind c c0) (seq 0 K)) y = nth c0 y 0.
  Proof.
    intros <-. revert c0. induction y as [|b y IH]; intros c0; [destruct c0; reflexivity|].
    cbn [length seq map dot]. rewrite <- seq_shift, map_map.
    destruct c0 as [|c0]; cbn [nth].
    - unfold ind; cbn [Nat.eqb]. rewrite dot_map_zero. ring.
    - rewrite <- (IH c0). unfold ind; cbn [Nat.eqb]. ring.
  Qed.

  Lemma scatter_dot K (y : list R) : length y = K ->
    forall r iota, dot (scatter r iota K) y = dot r (gather iota y).
  Proof.
    intros HK. induction r as [|a r IH]; intros [|c0 iota]; try apply dot_map_zero.
    unfold scatter, gather. cbn [map dot]. rewrite dot_map_lin, (dot_unit c0 K y HK).
    f_equal. apply IH.
  Qed.

  (* rows of S against the rows of B they claim to be *)
  Fixpoint sub_rows (Z : list bool) (B : list (list R)) (K : nat) (iall : list nat)
           (S : list (list R)) (iota : list nat) : bool :=
    match S, iota with
    | [], [] => true
    | r :: S', c :: iota' =>
        rows_agree Z (nth c B []) (scatter r iall K) && sub_rows Z B K iall S' iota'
    | _, _ => false
    end.

  Lemma nth_mvec c B (y : list R) : nth c (mvec B y) 0 = dot (nth c B []) y.
  Proof. change 0 with (dot (@nil R) y). apply (map_nth (fun r => dot r y)). Qed.

  Lemma sub_rows_sound Z B K iall : forall S iota, sub_rows Z B K iall S iota = true ->
    forall y, length y = K -> zero_on Z y -> mvec S (gather iall y) = gather iota (mvec B y).
  Proof.
    induction S as [|r S IH]; intros [|c iota] H y HK Hy; simpl in H; try discriminate; [reflexivity|].
    apply andb_true_iff in H. destruct H as [H1 H2].
    cbn [mvec gather map]. f_equal; [|apply IH; assumption].
    etransitivity; [|symmetry; apply nth_mvec].
    rewrite (rows_agree_dot _ _ _ H1 _ Hy). symmetry. apply scatter_dot. exact HK.
  Qed.

  Definition check_sub (B : list (list R)) (b : list R) (S : list (list R)) (s : list R)
             (iota : list nat) (Z : list bool) : bool :=
    let K := length b in
    Nat.eqb (length B) K && zero_vec Z b && zero_rows Z Z B
    && vec_eqb s (gather iota b) && sub_rows Z B K iota S iota.

  Theorem check_sub_sound B b S s iota Z : check_sub B b S s iota Z = true ->
    forall n, iter_mat S n s = gather iota (iter_mat B n b) /\ zero_on Z (iter_mat B n b).
  Proof.
    unfold check_sub. intros H.
    rewrite !andb_true_iff in H. destruct H as [[[[_ Hzv] Hzr] Hs] Hrows].
    apply vec_eqb_eq in Hs. subst s. apply zero_vec_sound in Hzv.
    assert (HI : forall y, zero_on Z y -> zero_on Z (mvec B y)) by (apply zero_rows_sound; exact Hzr).
    intros n. split; [|apply iter_mat_inv; assumption].
    apply (iter_mat_sim (zero_on Z) (gather iota)); [exact HI | | exact Hzv].
    (* a vector vanishing on Z has the length of Z, which is that of b *)
    intros y Hy. apply (sub_rows_sound Z B (length b)); [exact Hrows | | exact Hy].
    rewrite <- (zero_on_length _ _ Hy). apply zero_on_length. exact Hzv.
  Qed.
End Sub.

Arguments zero_on {R} _ _. Arguments gather {R} _ _. Arguments check_sub {R} _ _ _ _ _ _.
Arguments rows_agree {R} _ _ _.

Section Model.
  Variable R : cring.
  Add Ring Rring6 : (rth R).
  Local Open Scope cr_scope.
  Notation "0" := (@r0 R).
  Notation "1" := (@r1 R).
  Notation D := (dual_cring R).
  Notation poly := (list R).

  (* An original system is given row-wise: entry j of row i is the coefficient polynomial
     (in the parameter) of monomial j in the recurrence of monomial i, i.e. the list of
     summands  c_ij(p) * M_j ; [dep] flags the monomials Polar classifies as p-dependent
     (monomials containing a variable of get_dependent_variables). *)
  Definition sel (d : bool) (c : poly) : poly := if d then c else [].

  (* DiffRecBuilder.get_recurrence(delta * M_i): per summand c*M_j
       coefficient of M_j        : c'  if p occurs in c                       (else nothing)
       coefficient of delta*M_j  : c   if M_j is p-dependent                  (else nothing)
     which is exactly: skipped when neither holds; product rule when both hold; only c'.M_j
     when only the constant part depends on p; only c.delta M_j when only the monomial does *)
  Definition diff_row (dep : list bool) (row : list poly) : list poly :=
    map (fun c => if mentions c then pderiv c else []) row
    ++ map (fun cd => sel (snd cd) (fst cd)) (combine row dep).

  (* unknowns: M_0..M_{k-1}, delta M_0 .. delta M_{k-1} *)
  Definition model_ext (dep : list bool) (PA : list (list poly)) : list (list poly) :=
    map (fun r => r ++ map (fun _ => []) r) PA ++ map (diff_row dep) PA.
  (* DiffRecBuilder.get_initial_value: d/dp of the initial value *)
  Definition model_init (Pv : list poly) : list poly := Pv ++ derivV Pv.

  (* what the dependency analysis has to guarantee *)
  Definition row_closed (dep : list bool) (row : list poly) : bool :=
    forallb (fun cd => negb (mentions (fst cd)) && (negb (snd cd) || pzero R (fst cd))) (combine row dep).
  Fixpoint dep_closed_aux (dep dall : list bool) (PA : list (list poly)) (Pv : list poly) : bool :=
    match dep, PA, Pv with
    | [], [], [] => true
    | d :: dep', row :: PA', v0 :: Pv' =>
        (d || (negb (mentions v0) && row_closed dall row)) && dep_closed_aux dep' dall PA' Pv'
    | _, _, _ => false
    end.
  Definition dep_closed (dep : list bool) (PA : list (list poly)) (Pv : list poly) : bool :=
    dep_closed_aux dep dep PA Pv.

  Variable x : R.

  Definition indep_ok (dep : list bool) (y : list D) : Prop :=
    Forall2 (fun d (a : D) => d = false -> snd a = 0) dep y.

  Lemma dot_snd_zero : forall (row : list poly) dep (y : list D),
    row_closed dep row = true -> indep_ok dep y ->
    dot (evalV row x) (map snd y) = 0 /\ dot (evalV (derivV row) x) (map fst y) = 0.
  Proof.
    induction row as [|c row IH]; intros dep y H Hy; [split; reflexivity|].
    destruct Hy as [|d a dep y Ha Hy]; [split; reflexivity|].
    unfold row_closed in H. cbn [combine forallb fst snd] in H.
    apply andb_true_iff in H. destruct H as [H1 H2].
    apply andb_true_iff in H1. destruct H1 as [Hm Hd].
    apply negb_true_iff in Hm.
    destruct (IH dep y H2 Hy) as [E1 E2].
    unfold evalV, derivV in *. cbn [map dot]. rewrite E1, E2.
    rewrite (pderiv_const R c x Hm). split; [|ring].
    destruct d; simpl in Hd.
    - rewrite (pzero_sound R c Hd x). ring.
    - rewrite (Ha eq_refl). ring.
  Qed.

  (* a closed classification makes [indep_ok] hold initially and keeps it along a step *)
  Lemma closed_indep dep : forall da PA Pv, dep_closed_aux da dep PA Pv = true ->
    indep_ok da (map (evD x) Pv) /\
    forall y, indep_ok dep y -> indep_ok da (mvec (map (map (evD x)) PA) y).
  Proof.
    induction da as [|d da IH]; intros [|row PA] [|v0 Pv] H; simpl in H; try discriminate.
    - split; [|intros y _]; constructor.
    - apply andb_true_iff in H. destruct H as [H H']. destruct (IH _ _ H') as [I1 I2].
      assert (Hd : d = false -> mentions v0 = false /\ row_closed dep row = true).
      { intros ->. apply andb_true_iff in H. destruct H as [Hv Hr].
        apply negb_true_iff in Hv. split; assumption. }
      split; [|intros y Hy]; cbn [mvec map].
      + constructor; [|exact I1]. intros Ed. rewrite evD_pair. apply pderiv_const, Hd, Ed.
      + constructor; [|exact (I2 y Hy)]. intros Ed. destruct (Hd Ed) as [_ Hr].
        rewrite dot_dual, evD_fst, evD_snd. cbn [snd].
        destruct (dot_snd_zero row dep y Hr Hy) as [E1 E2]. rewrite E1, E2. ring.
  Qed.

  Theorem indep_invariant dep PA Pv : dep_closed dep PA Pv = true ->
    forall n, indep_ok dep (iter_mat (map (map (evD x)) PA) n (map (evD x) Pv)).
  Proof.
    intros H. destruct (closed_indep dep _ _ _ H). apply iter_mat_inv; assumption.
  Qed.

  Lemma sel_dot : forall (row : list poly) dep (y : list D), indep_ok dep y ->
    dot (evalV (map (fun cd => sel (snd cd) (fst cd)) (combine row dep)) x) (map snd y)
    = dot (evalV row x) (map snd y).
  Proof.
    unfold evalV. induction row as [|c row IH]; intros dep y Hy; [reflexivity|].
    destruct Hy as [|d a dep y Ha Hy]; [reflexivity|].
    cbn [combine map dot fst snd]. rewrite (IH dep y Hy). destruct d; simpl.
    - reflexivity.
    - rewrite (Ha eq_refl). ring.
  Qed.

  (* summands whose coefficient does not mention p are skipped: their derivative is 0 *)
  Lemma evalV_mentions (row : list poly) :
    evalV (map (fun c => if mentions c then pderiv c else []) row) x = evalV (derivV row) x.
  Proof.
    unfold evalV, derivV. rewrite !map_map. apply map_ext. intros c.
    destruct (mentions c) eqn:E; [reflexivity|]. rewrite (pderiv_const R c x E). reflexivity.
  Qed.

  Lemma diff_row_dot dep (row : list poly) (y : list D) : indep_ok dep y ->
    length row = length y ->
    dot (evalV (diff_row dep row) x) (map fst y ++ map snd y) = snd (dot (map (evD x) row) y).
  Proof.
    intros Hy Hl. unfold diff_row. rewrite evalV_app.
    rewrite dot_app by (unfold evalV; rewrite !map_length; exact Hl).
    rewrite dot_dual, evD_fst, evD_snd. cbn [snd].
    rewrite (evalV_mentions row), (sel_dot row dep y Hy). ring.
  Qed.

  Lemma model_step dep (PA : list (list poly)) (y : list D) : indep_ok dep y ->
    Forall (fun r => length r = length y) PA ->
    mvec (evalM (model_ext dep PA) x) (map fst y ++ map snd y)
    = map fst (mvec (map (map (evD x)) PA) y) ++ map snd (mvec (map (map (evD x)) PA) y).
  Proof.
    intros Hy HF. unfold model_ext, evalM, mvec. rewrite !map_app, !map_map.
    f_equal; apply map_ext_Forall; revert HF; apply Forall_impl; intros r Hr.
    - rewrite evalV_app. unfold evalV.
      rewrite dot_app by (rewrite !map_length; exact Hr).
      rewrite map_map. cbn [peval]. rewrite (dot_map_zero R), dot_dual, evD_fst. cbn [fst].
      unfold evalV. ring.
    - apply diff_row_dot; assumption.
  Qed.

  Theorem diffrec_model_correct dep PA Pv k :
    wfM k PA -> length Pv = k -> dep_closed dep PA Pv = true ->
    forall n, iter_mat (evalM (model_ext dep PA) x) n (evalV (model_init Pv) x)
              = evalV (piter PA n Pv) x ++ evalV (derivV (piter PA n Pv)) x.
  Proof.
    intros [HA HR] Hv Hc n. destruct (closed_indep dep _ _ _ Hc) as [I0 IS].
    unfold model_init. rewrite evalV_app, <- !evD_split, evD_piter.
    apply (iter_mat_sim (fun y => indep_ok dep y /\ length y = k)
                        (fun y : list D => map fst y ++ map snd y)).
    - intros y [Hy _]. split; [apply IS; exact Hy | rewrite mvec_length, map_length; exact HA].
    - intros y [Hy Hl]. apply model_step; [exact Hy | rewrite Hl; exact HR].
    - split; [exact I0 | rewrite map_length; exact Hv].
  Qed.

  (* monomials classified independent have zero derivative, all n *)
  Theorem dep_closure_sound dep PA Pv : dep_closed dep PA Pv = true ->
    forall n, Forall2 (fun d a => d = false -> a = 0) dep (evalV (derivV (piter PA n Pv)) x).
  Proof.
    intros Hc n. pose proof (indep_invariant dep PA Pv Hc n) as H.
    rewrite <- evD_piter in H. rewrite <- evD_snd. revert H.
    generalize (map (evD x) (piter PA n Pv)). intros y H. clear Hc.
    induction H as [|d a dep' y' Ha H IH]; simpl; constructor; auto.
  Qed.
End Model.

Arguments diff_row {R} _ _. Arguments model_ext {R} _ _. Arguments model_init {R} _.
Arguments dep_closed {R} _ _ _.

(* Validators for one instance of Polar's output at one parameter value x. *)
Section Validators.
  Variable R : cring.
  Notation poly := (list R).

  Definition shape_ok (k : nat) (PA : list (list poly)) (Pv : list poly) : bool :=
    Nat.eqb (length PA) k && forallb (fun r => Nat.eqb (length r) k) PA && Nat.eqb (length Pv) k.

  Lemma shape_ok_sound k PA Pv : shape_ok k PA Pv = true -> wfM k PA /\ length Pv = k.
  Proof.
    unfold shape_ok. intros H.
    apply andb_true_iff in H. destruct H as [H H3].
    apply andb_true_iff in H. destruct H as [H1 H2].
    apply Nat.eqb_eq in H1. apply Nat.eqb_eq in H3. split; [split|]; auto.
    apply Forall_forall. intros r Hr. rewrite forallb_forall in H2.
    apply Nat.eqb_eq. apply H2. exact Hr.
  Qed.

  (* the statement both validators establish: Polar's closed forms F (with special cases sp)
     for the unknowns of ITS system are, at every n, the value (index < k) resp. the formal
     p-derivative (index k + j) of the polynomial vector A(p)^n v(p), at p = x *)
  Definition sens_spec (PA : list (list poly)) (Pv : list poly) (x : R) (iota : list nat)
             (F : list (epoly R)) (sp : list (list R)) : Prop :=
    forall n, pw_eval F sp n
              = gather iota (evalV (piter PA n Pv) x ++ evalV (derivV (piter PA n Pv)) x).

  (* what [check_sub] and [check_solution] give together, whatever the reference system *)
  Lemma sub_solution_sound B b S s iota Z (F : list (epoly R)) sp :
    check_sub B b S s iota Z = true -> check_solution S s F sp = true ->
    forall n, pw_eval F sp n = gather iota (iter_mat B n b).
  Proof.
    intros Hsub Hsol n. rewrite (check_solution_sound R _ _ _ _ Hsol n).
    apply (check_sub_sound R _ _ _ _ _ _ Hsub n).
  Qed.

  (* Two validators for one instance of Polar's output, both concluding [sens_spec].  The first
     goes through the model of DiffRecBuilder: Polar's system is the model's system restricted
     to the unknowns Polar generated, and the classification is closed *)
  Definition check_sens_model (dep : list bool) PA Pv (x : R) (S : list (list R)) (s : list R)
             (iota : list nat) (F : list (epoly R)) (sp : list (list R)) : bool :=
    shape_ok (length dep) PA Pv && dep_closed dep PA Pv
    && check_sub (evalM (model_ext dep PA) x) (evalV (model_init Pv) x) S s iota
                 (map (fun _ => false) (model_init Pv))
    && check_solution S s F sp.

  Theorem check_sens_model_sound dep PA Pv x S s iota F sp :
    check_sens_model dep PA Pv x S s iota F sp = true -> sens_spec PA Pv x iota F sp.
  Proof.
    unfold check_sens_model. intros H.
    apply andb_true_iff in H; destruct H as [H Hsol].
    apply andb_true_iff in H; destruct H as [H Hsub].
    apply andb_true_iff in H; destruct H as [H Hc].
    apply shape_ok_sound in H. destruct H as [HA Hv].
    intros n. rewrite (sub_solution_sound _ _ _ _ _ _ _ _ Hsub Hsol n).
    rewrite (diffrec_model_correct R x dep PA Pv _ HA Hv Hc n). reflexivity.
  Qed.

  (* The second compares directly with the extended system of [deriv_system], independent of
     the model; Z flags the unknowns (of the 2k) claimed to vanish identically *)
  Definition check_sens_direct (k : nat) PA Pv (x : R) (S : list (list R)) (s : list R)
             (iota : list nat) (Z : list bool) (F : list (epoly R)) (sp : list (list R)) : bool :=
    shape_ok k PA Pv
    && check_sub (block (evalM PA x) (evalM (derivM PA) x)) (evalV Pv x ++ evalV (derivV Pv) x)
                 S s iota Z
    && check_solution S s F sp.

  Theorem check_sens_direct_sound k PA Pv x S s iota Z F sp :
    check_sens_direct k PA Pv x S s iota Z F sp = true -> sens_spec PA Pv x iota F sp.
  Proof.
    unfold check_sens_direct. intros H.
    apply andb_true_iff in H; destruct H as [H Hsol].
    apply andb_true_iff in H; destruct H as [H Hsub].
    apply shape_ok_sound in H. destruct H as [HA Hv].
    intros n. rewrite (sub_solution_sound _ _ _ _ _ _ _ _ Hsub Hsol n).
    rewrite (deriv_system R PA Pv k HA Hv x n). reflexivity.
  Qed.

  (* differentiated closed forms (method "-sens_diff"): a full vector of closed forms for
     (M_j, d/dp M_j) validated against the extended system *)
  Definition check_diffcf (k : nat) PA Pv (x : R) (F : list (epoly R)) (sp : list (list R)) : bool :=
    shape_ok k PA Pv
    && check_solution (block (evalM PA x) (evalM (derivM PA) x)) (evalV Pv x ++ evalV (derivV Pv) x) F sp.

  Theorem check_diffcf_sound k PA Pv x F sp : check_diffcf k PA Pv x F sp = true ->
    forall n, pw_eval F sp n = evalV (piter PA n Pv) x ++ evalV (derivV (piter PA n Pv)) x.
  Proof.
    unfold check_diffcf. intros H. apply andb_true_iff in H. destruct H as [H Hsol].
    apply shape_ok_sound in H. destruct H as [HA Hv].
    intros n. rewrite (check_solution_sound R _ _ _ _ Hsol n).
    apply (deriv_system R PA Pv k HA Hv x n).
  Qed.

  (* wherever both methods are validated they agree at every n *)
  Theorem methods_agree k dep PA Pv x S s iota F sp F' sp' :
    check_sens_model dep PA Pv x S s iota F sp = true ->
    check_diffcf k PA Pv x F' sp' = true ->
    forall n, pw_eval F sp n = gather iota (pw_eval F' sp' n).
  Proof.
    intros H H' n. rewrite (check_sens_model_sound _ _ _ _ _ _ _ _ _ H n).
    rewrite (check_diffcf_sound _ _ _ _ _ _ H' n). reflexivity.
  Qed.
End Validators.

Arguments check_sens_model {R} _ _ _ _ _ _ _ _ _. Arguments check_sens_direct {R} _ _ _ _ _ _ _ _ _ _.
Arguments check_diffcf {R} _ _ _ _ _ _. Arguments sens_spec {R} _ _ _ _ _ _.
