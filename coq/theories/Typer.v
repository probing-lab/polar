(* C05: executable Gallina model of Polar's type-inference ALGORITHM
   (type_inference/finite_fixed_point_typer.py, class FiniteFixedPointTyper) on flat programs.

   [typer_run P syms fp D implied drops] mirrors [infer_types]:
     _initialize_state ; at most [tp_iters] rounds of _progress until no status changed ;
     the cascade  while not fixedpoint: fail changed; progress  ;  _extract_types.
   Values are rationals or the absorbing token [None] ("not a number": the start symbol
   <v>0 of a never-initialised variable that is read before its assignment, symbolic program
   constants).  Partially substituted expressions are polynomials (Poly.poly), compared as
   polynomials, so that the de-duplication after each substituted variable and the
   more-than-[tp_max]-values test are the ones of _get_values_for_expr.

   The soundness theorem (the result is a post-fixpoint of the transfer function validated by
   Types.check_types) is in TyperSound.v. *)
From Coq Require Import List String QArith Qcanon ZArith Bool Arith.
From Polar Require Import Qcx Dist Syntax Sem Types Poly PassCNBase.
Import ListNotations.
Local Open Scope Qc_scope.

(* ---- values and value sets (lists without duplicates, insertion order) ---- *)
Definition val := option Qc.
Definition val_eqb (a b : val) : bool :=
  match a, b with
  | None, None => true
  | Some x, Some y => Qc_eqb x y
  | _, _ => false
  end.
Fixpoint vmem (v : val) (l : list val) : bool :=
  match l with [] => false | w :: l' => val_eqb v w || vmem v l' end.
Definition vsubset (a b : list val) : bool := forallb (fun v => vmem v b) a.
Definition vadd (acc : list val) (v : val) : list val := if vmem v acc then acc else acc ++ [v].
Definition vunion (a b : list val) : list val := fold_left vadd b a.
Definition is_nil {A} (l : list A) : bool := match l with [] => true | _ => false end.

(* ---- status of one variable (dataclass Status) and the state (a dict) ---- *)
Record status := { s_vals : list val; s_chg : bool; s_fail : bool; s_lock : bool }.
Definition tstate := list (var * status).

(* a variable without entry reads as failed and locked (Python would raise KeyError) *)
Definition st_missing : status := {| s_vals := []; s_chg := false; s_fail := true; s_lock := true |}.
Fixpoint sfind (st : tstate) (x : var) : option status :=
  match st with [] => None | (y, s) :: st' => if var_eqb x y then Some s else sfind st' x end.
Definition sget (st : tstate) (x : var) : status :=
  match sfind st x with Some s => s | None => st_missing end.
Definition shas (st : tstate) (x : var) : bool :=
  match sfind st x with Some _ => true | None => false end.
Fixpoint sset (st : tstate) (x : var) (s : status) : tstate :=
  match st with
  | [] => [(x, s)]
  | (y, t) :: st' => if var_eqb x y then (y, s) :: st' else (y, t) :: sset st' x s
  end.

Record tparams := { tp_iters : nat; tp_max : nat; tp_rev : bool }.
(* Polar's defaults: FiniteFixedPointTyper(iterations=100, max_values_before_fail=25) *)
Definition tp_default : tparams := {| tp_iters := 100; tp_max := 25; tp_rev := false |}.

(* ---- partially substituted expressions ---- *)
Definition pp := option poly.
Definition pp_eqb (a b : pp) : bool :=
  match a, b with
  | None, None => true
  | Some p, Some q => pzero (psub p q)
  | _, _ => false
  end.
Fixpoint pp_mem (p : pp) (l : list pp) : bool :=
  match l with [] => false | q :: l' => pp_eqb p q || pp_mem p l' end.
Definition pp_add (acc : list pp) (p : pp) : list pp := if pp_mem p acc then acc else acc ++ [p].
Definition pp_dedup (l : list pp) : list pp := fold_left pp_add l [].

(* expr.xreplace({x: q}) on a polynomial *)
Definition psubst1 (x : var) (q : Qc) (p : poly) : poly :=
  map (fun t => (fst t * qpow q (mdeg x (snd t)), mrest x (snd t))) p.
Definition pp_subst (x : var) (v : val) (p : pp) : pp :=
  match v, p with Some q, Some p' => Some (pclean (psubst1 x q p')) | _, _ => None end.
(* is_number *)
Definition pp_val (p : pp) : val :=
  match p with
  | None => None
  | Some p' => match pclean p' with
               | [] => Some 0
               | [(c, [])] => Some c
               | _ => None
               end
  end.

Section Model.
  Variable P : tparams.
  (* symbolic constants of the program (program.symbols): never substituted, not numbers *)
  Variable syms : list var.

  Definition st_sym : status := {| s_vals := [None]; s_chg := false; s_fail := false; s_lock := true |}.
  (* the status an expression sees for one of its free symbols *)
  Definition rd (st : tstate) (x : var) : status := if mem_var x syms then st_sym else sget st x.

  (* _get_values_for_expr: one variable after the other; the set is de-duplicated (a Python
     set) before its size is compared with max_values_before_fail *)
  Fixpoint subst_vars (st : tstate) (xs : list var) (res : list pp) : option (list pp) :=
    match xs with
    | [] => Some res
    | x :: xs' =>
        let s := rd st x in
        if s_fail s then None
        else
          let new := pp_dedup (flat_map (fun p => map (fun v => pp_subst x v p) (s_vals s)) res) in
          if Nat.ltb (tp_max P) (List.length new) then None else subst_vars st xs' new
    end.

  Definition var_order (e : expr) : list var :=
    let xs := nodup string_dec (vars_of e) in if tp_rev P then rev xs else xs.

  Definition values_for_expr (st : tstate) (e : expr) : option (list val) :=
    match subst_vars st (var_order e) [Some (of_expr e)] with
    | Some res => let vs := vunion [] (map pp_val res) in if is_nil vs then None else Some vs
    | None => None
    end.

  (* Distribution.get_support: finite supports, or an interval (= failure) *)
  Definition draw_vals (d : draw) : option (list val) :=
    match d with
    | DBern _ => Some [Some 0; Some 1]
    | DCat ps => Some (map Some (cat_vals (List.length ps) 0))
    | DUnif a b => Some (map Some (unif_vals a (Z.to_nat (b - a + 1))))
    | DCont _ _ => None
    end.

  (* Assignment.get_support: the alternatives / the support of the draw, plus the default
     unless the condition is TrueCond or the harness-supplied flag [drop] says Polar left it
     out (condition implied by the loop guard and default = the variable itself) *)
  Definition with_default (g : gassign) (drop : bool) : bool :=
    match ga_cond g with CTrue => false | _ => negb drop end.

  Definition support_parts (st : tstate) (g : gassign) (drop : bool) : list (option (list val)) :=
    match ga_rhs g with
    | RChoice alts => map (fun pe => values_for_expr st (snd pe)) alts
    | RDraw d => [draw_vals d]
    end ++ (if with_default g drop then [values_for_expr st (EVar (ga_default g))] else []).

  Fixpoint union_parts (l : list (option (list val))) (acc : list val) : option (list val) :=
    match l with
    | [] => Some acc
    | None :: _ => None
    | Some vs :: l' => union_parts l' (vunion acc vs)
    end.

  (* _get_values_for_assign; the empty set counts as failure at both call sites *)
  Definition assign_values (st : tstate) (g : gassign) (drop : bool) : option (list val) :=
    match union_parts (support_parts st g drop) [] with
    | Some vs => if Nat.ltb (tp_max P) (List.length vs) || is_nil vs then None else Some vs
    | None => None
    end.

  Definition set_chg (s : status) (b : bool) : status :=
    {| s_vals := s_vals s; s_chg := b; s_fail := s_fail s; s_lock := s_lock s |}.
  (* _fail_variable *)
  Definition failed_of (s : status) : status :=
    {| s_vals := s_vals s; s_chg := true; s_fail := true; s_lock := true |}.

  (* one assignment of _progress (with _update_variable_status) *)
  Definition step (st : tstate) (gd : gassign * bool) : tstate :=
    let g := fst gd in
    let x := ga_var g in
    let s := sget st x in
    if s_lock s then sset st x (set_chg s false)
    else match assign_values st g (snd gd) with
         | None => sset st x (failed_of s)
         | Some new =>
             if vsubset new (s_vals s) then sset st x (set_chg s false)
             else sset st x {| s_vals := vunion (s_vals s) new; s_chg := true; s_fail := s_fail s; s_lock := s_lock s |}
         end.

  Fixpoint zip_drops (l : list gassign) (drops : list bool) : list (gassign * bool) :=
    match l with
    | [] => []
    | g :: l' => (g, hd false drops) :: zip_drops l' (tl drops)
    end.

  Definition progress (body : list (gassign * bool)) (st : tstate) : tstate := fold_left step body st.

  Definition fixedpoint (st : tstate) : bool := forallb (fun xs => negb (s_chg (snd xs))) st.
  Definition fail_changed (st : tstate) : tstate :=
    map (fun xs => (fst xs, if s_chg (snd xs) then failed_of (snd xs) else snd xs)) st.

  (* for i in range(iterations): progress; if fixedpoint: break *)
  Fixpoint phase1 (body : list (gassign * bool)) (n : nat) (st : tstate) : tstate :=
    match n with
    | O => st
    | S n' => let st' := progress body st in if fixedpoint st' then st' else phase1 body n' st'
    end.

  (* while not fixedpoint: fail changed; progress   (explicit fuel; None = fuel exhausted) *)
  Fixpoint cascade (body : list (gassign * bool)) (fuel : nat) (st : tstate) : option tstate :=
    if fixedpoint st then Some st
    else match fuel with
         | O => None
         | S f => cascade body f (progress body (fail_changed st))
         end.
  (* number of cascade rounds actually used (evidence only) *)
  Fixpoint cascade_rounds (body : list (gassign * bool)) (fuel : nat) (st : tstate) : nat :=
    if fixedpoint st then O
    else match fuel with
         | O => O
         | S f => S (cascade_rounds body f (progress body (fail_changed st)))
         end.

  (* ---- _initialize_state ---- *)
  Definition declared_state (D : tenv) : tstate :=
    fold_left (fun st xt => sset st (fst xt) {| s_vals := map Some (snd xt); s_chg := false; s_fail := false; s_lock := true |})
              D [].

  Definition init_step (D : tenv) (st : tstate) (g : gassign) : tstate :=
    if mem_var (ga_var g) (map fst D) then st
    else match assign_values st g false with
         | Some vs => sset st (ga_var g) {| s_vals := vs; s_chg := true; s_fail := false; s_lock := false |}
         | None => sset st (ga_var g) {| s_vals := []; s_chg := true; s_fail := true; s_lock := true |}
         end.

  (* Assignment.get_free_symbols(with_default=False) *)
  Definition free_syms (g : gassign) (implied : bool) : list var :=
    ga_reads g ++ (if implied then [] else [ga_default g]).

  Fixpoint body_init (body : list gassign) (implied : list bool) (running : list var) (st : tstate) : tstate :=
    match body with
    | [] => st
    | g :: body' =>
        let running' := running ++ free_syms g (hd true implied) in
        let st' :=
          if shas st (ga_var g) then st
          else sset st (ga_var g)
                    {| s_vals := if mem_var (ga_var g) running' then [None] else [];
                       s_chg := true; s_fail := false; s_lock := false |} in
        body_init body' (tl implied) running' st'
    end.

  Definition init_state (fp : flatprog) (D : tenv) (implied : list bool) : tstate :=
    body_init (fp_body fp) implied [] (fold_left (init_step D) (fp_init fp) (declared_state D)).

  (* _check_applicability *)
  Definition applicable (fp : flatprog) : bool :=
    forallb (fun g => match ga_cond g with CTrue => true | _ => false end) (fp_init fp).

  (* ---- _extract_types ---- *)
  Definition is_num (v : val) : bool := match v with Some _ => true | None => false end.
  Definition nums (l : list val) : list Qc := flat_map (fun v => match v with Some q => [q] | None => [] end) l.
  Definition s_ok (s : status) : bool := negb (s_fail s) && forallb is_num (s_vals s).
  Definition extract (st : tstate) : tenv :=
    flat_map (fun x => let s := sget st x in if s_ok s then [(x, nums (s_vals s))] else [])
             (nodup string_dec (map fst st)).

  Definition cascade_fuel (st : tstate) : nat := S (S (List.length st)).

  Definition typer_state (fp : flatprog) (D : tenv) (implied drops : list bool) : option tstate :=
    if applicable fp then
      let body := zip_drops (fp_body fp) drops in
      let st1 := phase1 body (tp_iters P) (init_state fp D implied) in
      cascade body (cascade_fuel st1) st1
    else None.

  Definition typer_run (fp : flatprog) (D : tenv) (implied drops : list bool) : option tenv :=
    option_map extract (typer_state fp D implied drops).

  (* did the run need the failure cascade? (evidence only) *)
  Definition typer_cascade_rounds (fp : flatprog) (D : tenv) (implied drops : list bool) : nat :=
    let body := zip_drops (fp_body fp) drops in
    let st1 := phase1 body (tp_iters P) (init_state fp D implied) in
    cascade_rounds body (cascade_fuel st1) st1.
End Model.

(* the rule of the current code (Assignment.get_support): the default is left out only when
   the condition is implied by the loop guard AND the default is the variable itself *)
Definition drops_current (body : list gassign) (implied : list bool) : list bool :=
  map (fun gi : gassign * bool => snd gi && var_eqb (ga_default (fst gi)) (ga_var (fst gi)))
      (combine body implied).
(* the rule before repo commit cee80d2: left out whenever the condition is implied *)
Definition drops_old (body : list gassign) (implied : list bool) : list bool :=
  map (fun gi : gassign * bool => snd gi) (combine body implied).

(* ---- comparison of two type environments: same typed variables, same value SETS ---- *)
Definition tenv_sub (A B : tenv) : bool :=
  forallb (fun xt => match tlookup B (fst xt) with
                     | Some vs => subset (snd xt) vs && subset vs (snd xt)
                     | None => false
                     end) A.
Definition tenv_eqb (A B : tenv) : bool := tenv_sub A B && tenv_sub B A.

Definition typer_matches (P : tparams) (syms : list var) (fp : flatprog) (D : tenv) (implied drops : list bool) (T : tenv) : bool :=
  match typer_run P syms fp D implied drops with
  | Some M => tenv_eqb M T
  | None => false
  end.

(* does the run involve "not a number" values (where the model only approximates symengine:
   distinct symbolic values are identified, 0*symbol is not simplified)? (evidence only) *)
Definition typer_symbolic (P : tparams) (syms : list var) (fp : flatprog) (D : tenv) (implied : list bool) : bool :=
  negb (is_nil syms) ||
  existsb (fun xs : var * status => vmem None (s_vals (snd xs))) (init_state P syms fp D implied).

(* every variable the model types is typed by [T] with the same set ([T] may type more) *)
Definition typer_below (P : tparams) (syms : list var) (fp : flatprog) (D : tenv) (implied drops : list bool) (T : tenv) : bool :=
  match typer_run P syms fp D implied drops with
  | Some M => tenv_sub M T
  | None => false
  end.

(* printable form of a type environment *)
Definition tenv_pairs (T : tenv) : list (var * list (Z * positive)) :=
  map (fun xt => (fst xt, map qpair (snd xt))) T.
