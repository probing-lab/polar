(* C04, stated against the recurrence itself instead of against [iter_mat]:
   an accepted closed form (i) starts at the initial vector, (ii) satisfies
   x(n+1) = A x(n) at every n, and (iii) equals EVERY sequence that does (uniqueness),
   so "reproduces the linear recurrence sequence" does not rest on reading the
   definition of [iter_mat].  Also: the listed special cases may be dropped from the
   point where the general expressions are valid ([general_part_from_cutoff]). *)
From Coq Require Import List Bool Arith Lia.
From Polar Require Import CRing ExpPoly ClosedForm.
Import ListNotations.

Section Seq.
  Variable R : cring.

  Lemma rec_sequence_unique (A : list (list R)) (v : list R) (x : nat -> list R) :
    x 0 = v -> (forall n, x (S n) = mvec A (x n)) -> forall n, x n = iter_mat A n v.
  Proof.
    intros H0 Hs n; induction n as [|n IH]; cbn [iter_mat]; [exact H0|].
    rewrite Hs, IH; reflexivity.
  Qed.

  Theorem accepted_starts_at_init A v (F : list (epoly R)) sp :
    check_solution A v F sp = true -> pw_eval F sp 0 = v.
  Proof. intros H; rewrite (check_solution_sound R _ _ _ _ H 0); reflexivity. Qed.

  Theorem accepted_satisfies_recurrence A v (F : list (epoly R)) sp :
    check_solution A v F sp = true ->
    forall n, pw_eval F sp (S n) = mvec A (pw_eval F sp n).
  Proof.
    intros H n.
    rewrite (check_solution_sound R _ _ _ _ H (S n)), (check_solution_sound R _ _ _ _ H n).
    reflexivity.
  Qed.

  Theorem accepted_is_the_recurrence_sequence A v (F : list (epoly R)) sp :
    check_solution A v F sp = true ->
    forall x : nat -> list R,
      x 0 = v -> (forall n, x (S n) = mvec A (x n)) -> forall n, pw_eval F sp n = x n.
  Proof.
    intros H x H0 Hs n.
    rewrite (check_solution_sound R _ _ _ _ H n), (rec_sequence_unique A v x H0 Hs n).
    reflexivity.
  Qed.

  Theorem general_part_from_cutoff A v (F : list (epoly R)) sp :
    check_solution A v F sp = true ->
    forall n, length sp <= n -> evalF F n = iter_mat A n v.
  Proof.
    intros H n Hn. rewrite <- (pw_eval_general R F sp n Hn). apply check_solution_sound, H.
  Qed.
End Seq.
