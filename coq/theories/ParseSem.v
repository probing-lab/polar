(* C19 — meaning of the surface syntax: values of arithmetic ASTs (Python semantics of
   + - * / ** and unary minus over Q), translation of the polynomial fragment to
   Syntax.expr, decimal literals (model of float_to_rational = Rational(str(x))), and the
   token-level model of the parser's implicit last probability "1-p1-...-pk". *)
From Coq Require Import String List NArith ZArith QArith Qcanon Arith Bool Lia Field.
From Polar Require Import Qcx Syntax Sem Parse ParseCond.
Import ListNotations.
Local Open Scope Qc_scope.

Fixpoint pow10 (k : nat) : positive := match k with O => 1%positive | S k' => (10 * pow10 k')%positive end.
Definition numval (m : N) (k : nat) : Qc := mkq (Z.of_N m) (pow10 k).

Lemma Q2Qc_plus a b : Q2Qc a + Q2Qc b = Q2Qc (a + b)%Q.
Proof. unfold Qcplus. apply Q2Qc_eq_iff. simpl. rewrite !Qred_correct. reflexivity. Qed.
Lemma Q2Qc_mult a b : Q2Qc a * Q2Qc b = Q2Qc (a * b)%Q.
Proof. unfold Qcmult. apply Q2Qc_eq_iff. simpl. rewrite !Qred_correct. reflexivity. Qed.
Lemma Q2Qc_inv a : / Q2Qc a = Q2Qc (/ a)%Q.
Proof. unfold Qcinv. apply Q2Qc_eq_iff. simpl. rewrite !Qred_correct. reflexivity. Qed.
Lemma Q2Qc_div a b : Q2Qc a / Q2Qc b = Q2Qc (a / b)%Q.
Proof. unfold Qcdiv. rewrite Q2Qc_inv, Q2Qc_mult. reflexivity. Qed.

Lemma mkq_pos_nz p q : mkq (Zpos p) q <> 0.
Proof. unfold mkq. intros H. apply Q2Qc_eq_iff in H. discriminate H. Qed.
Lemma mkq_div z p q : mkq z (p * q) = mkq z p / mkq (Zpos q) 1.
Proof.
  unfold mkq. rewrite Q2Qc_div. apply Q2Qc_eq_iff.
  unfold Qeq, Qdiv, Qmult, Qinv. simpl. lia.
Qed.

Definition q10 : Qc := mkq 10 1.
Lemma q10_nz : q10 <> 0.
Proof. exact (mkq_pos_nz 10 1). Qed.
Lemma mkq_tenth z p : mkq z (10 * p) = mkq z p / q10.
Proof. rewrite Pos.mul_comm. exact (mkq_div z p 10). Qed.
Lemma mkq_add a b : mkq a 1 + mkq b 1 = mkq (a + b) 1.
Proof. unfold mkq. rewrite Q2Qc_plus. apply Q2Qc_eq_iff. unfold Qeq, Qplus. simpl. lia. Qed.
Lemma mkq_mul a b : mkq a 1 * mkq b 1 = mkq (a * b) 1.
Proof. unfold mkq. rewrite Q2Qc_mult. apply Q2Qc_eq_iff. unfold Qeq, Qmult. simpl. lia. Qed.

(* decimal literal  d1..dj . e1..ek  read positionally *)
Definition dstep (a : N) (d : nat) : N := (10 * a + N.of_nat d)%N.
Definition digits_val (ds : list nat) : N := fold_left dstep ds 0%N.
Fixpoint frac_val (ds : list nat) : Qc :=
  match ds with [] => 0 | d :: ds' => (mkq (Z.of_nat d) 1 + frac_val ds') / q10 end.
Definition dec_value (ip fp : list nat) : Qc := mkq (Z.of_N (digits_val ip)) 1 + frac_val fp.

Lemma frac_fold : forall fp acc,
  mkq (Z.of_N (fold_left dstep fp acc)) (pow10 (length fp)) = mkq (Z.of_N acc) 1 + frac_val fp.
Proof.
  induction fp as [|d fp IH]; intros acc; cbn [fold_left length frac_val].
  - change (pow10 0) with 1%positive. ring.
  - change (pow10 (S (length fp))) with (10 * pow10 (length fp))%positive.
    rewrite mkq_tenth, IH. unfold dstep.
    replace (Z.of_N (10 * acc + N.of_nat d)) with (10 * Z.of_N acc + Z.of_nat d)%Z by lia.
    rewrite <- mkq_add, <- mkq_mul. fold q10. field. apply q10_nz.
Qed.

(* the token the lexer makes of a decimal literal denotes its positional value: this is
   what Rational("d1..dj.e1..ek") is *)
Theorem decimal_literal_value : forall ip fp,
  numval (digits_val (ip ++ fp)) (length fp) = dec_value ip fp.
Proof. intros ip fp. unfold numval, digits_val, dec_value. rewrite fold_left_app. apply frac_fold. Qed.

Definition as_int (v : Qc) : option Z := if Pos.eqb (qden v) 1 then Some (qnum v) else None.
Definition pow_val (u v : Qc) : option Qc :=
  match as_int v with
  | None => None
  | Some z => if (0 <=? z)%Z then Some (qpow u (Z.to_nat z))
              else if Qc_eqb u 0 then None else Some (/ qpow u (Z.to_nat (- z)))
  end.
Definition div_val (u v : Qc) : option Qc := if Qc_eqb v 0 then None else Some (u / v).
Definition bind2 (f : Qc -> Qc -> option Qc) (a b : option Qc) : option Qc :=
  match a, b with Some u, Some v => f u v | _, _ => None end.

Fixpoint sx_eval (e : sx) (s : state) : option Qc :=
  match e with
  | XNum m k => Some (numval m k)
  | XVar x => Some (s x)
  | XNeg a => option_map Qcopp (sx_eval a s)
  | XAdd a b => bind2 (fun u v => Some (u + v)) (sx_eval a s) (sx_eval b s)
  | XSub a b => bind2 (fun u v => Some (u - v)) (sx_eval a s) (sx_eval b s)
  | XMul a b => bind2 (fun u v => Some (u * v)) (sx_eval a s) (sx_eval b s)
  | XDiv a b => bind2 div_val (sx_eval a s) (sx_eval b s)
  | XPow a b => bind2 pow_val (sx_eval a s) (sx_eval b s)
  end.

Lemma numval_pow10_nz k : numval (Npos (pow10 k)) 0 <> 0.
Proof. exact (mkq_pos_nz (pow10 k) 1). Qed.

Lemma numval_ratio m k : numval m k = numval m 0 / numval (Npos (pow10 k)) 0.
Proof. exact (mkq_div (Z.of_N m) 1 (pow10 k)). Qed.

(* decimal versus fraction notation: the literal d1..dj.e1..ek and the quotient of the
   integer literals d1..dj e1..ek and 1 0..0 (k zeros) have the same value *)
Theorem decimal_fraction_same : forall ip fp s,
  let m := digits_val (ip ++ fp) in
  sx_eval (XNum m (length fp)) s = sx_eval (XDiv (XNum m 0) (XNum (Npos (pow10 (length fp))) 0)) s
  /\ sx_eval (XNum m (length fp)) s = Some (dec_value ip fp).
Proof.
  intros ip fp s m. split.
  - simpl. unfold div_val.
    destruct (Qc_eqb_spec (numval (N.pos (pow10 (length fp))) 0) 0) as [E|_].
    + exfalso. exact (numval_pow10_nz _ E).
    + rewrite <- numval_ratio. reflexivity.
  - simpl. unfold m. rewrite decimal_literal_value. reflexivity.
Qed.

(* the polynomial fragment as Syntax.expr *)
Fixpoint cval (e : sx) : option Qc :=      (* value of a closed expression *)
  match e with
  | XNum m k => Some (numval m k)
  | XVar _ => None
  | XNeg a => option_map Qcopp (cval a)
  | XAdd a b => bind2 (fun u v => Some (u + v)) (cval a) (cval b)
  | XSub a b => bind2 (fun u v => Some (u - v)) (cval a) (cval b)
  | XMul a b => bind2 (fun u v => Some (u * v)) (cval a) (cval b)
  | XDiv a b => bind2 div_val (cval a) (cval b)
  | XPow a b => bind2 pow_val (cval a) (cval b)
  end.

Lemma bind2_mono f a b a' b' v :
  (forall u, a = Some u -> a' = Some u) -> (forall u, b = Some u -> b' = Some u) ->
  bind2 f a b = Some v -> bind2 f a' b' = Some v.
Proof.
  intros Ha Hb H. destruct a as [u|], b as [w|]; try discriminate H.
  rewrite (Ha u eq_refl), (Hb w eq_refl). exact H.
Qed.

Lemma cval_eval : forall e v, cval e = Some v -> forall s, sx_eval e s = Some v.
Proof.
  intros e v H s. revert v H.
  induction e; cbn [cval sx_eval]; intros v H;
    [exact H | discriminate H | | exact (bind2_mono _ _ _ _ _ _ IHe1 IHe2 H) ..].
  destruct (cval e) as [u|]; [|discriminate H]. rewrite (IHe u eq_refl). exact H.
Qed.

Definition as_nat (v : Qc) : option nat :=
  match as_int v with Some z => if (0 <=? z)%Z then Some (Z.to_nat z) else None | None => None end.

Fixpoint to_expr (e : sx) : option expr :=
  match e with
  | XNum m k => Some (EConst (numval m k))
  | XVar x => Some (EVar x)
  | XNeg a => option_map ENeg (to_expr a)
  | XAdd a b => match to_expr a, to_expr b with Some p, Some q => Some (EAdd p q) | _, _ => None end
  | XSub a b => match to_expr a, to_expr b with Some p, Some q => Some (ESub p q) | _, _ => None end
  | XMul a b => match to_expr a, to_expr b with Some p, Some q => Some (EMul p q) | _, _ => None end
  | XDiv a b => match to_expr a, cval b with
                | Some p, Some v => if Qc_eqb v 0 then None else Some (EMul p (EConst (/ v)))
                | _, _ => None end
  | XPow a b => match to_expr a, cval b with
                | Some p, Some v => match as_nat v with Some n => Some (EPow p n) | None => None end
                | _, _ => None end
  end.

Theorem to_expr_sound : forall e p, to_expr e = Some p -> forall s, sx_eval e s = Some (eval p s).
Proof.
  induction e; cbn [to_expr sx_eval]; intros p H s.
  - inversion H; reflexivity.
  - inversion H; reflexivity.
  - destruct (to_expr e) as [q|]; [|discriminate H]. inversion H; subst.
    rewrite (IHe q eq_refl s), eval_ENeg. reflexivity.
  - destruct (to_expr e1) as [q1|], (to_expr e2) as [q2|]; try discriminate H. inversion H; subst.
    rewrite (IHe1 q1 eq_refl s), (IHe2 q2 eq_refl s). reflexivity.
  - destruct (to_expr e1) as [q1|], (to_expr e2) as [q2|]; try discriminate H. inversion H; subst.
    rewrite (IHe1 q1 eq_refl s), (IHe2 q2 eq_refl s), eval_ESub. reflexivity.
  - destruct (to_expr e1) as [q1|], (to_expr e2) as [q2|]; try discriminate H. inversion H; subst.
    rewrite (IHe1 q1 eq_refl s), (IHe2 q2 eq_refl s). reflexivity.
  - destruct (to_expr e1) as [q1|]; [|discriminate H].
    destruct (cval e2) as [v|] eqn:Ev; [|discriminate H].
    destruct (Qc_eqb v 0) eqn:Ez; [discriminate H|]. inversion H; subst.
    rewrite (IHe1 q1 eq_refl s), (cval_eval _ _ Ev s). cbn [bind2]. unfold div_val. rewrite Ez. reflexivity.
  - destruct (to_expr e1) as [q1|]; [|discriminate H].
    destruct (cval e2) as [v|] eqn:Ev; [|discriminate H].
    unfold as_nat in H. destruct (as_int v) as [z|] eqn:Ei; [|discriminate H].
    destruct (0 <=? z)%Z eqn:Ep; [|discriminate H]. inversion H; subst.
    rewrite (IHe1 q1 eq_refl s), (cval_eval _ _ Ev s). cbn [bind2]. unfold pow_val. rewrite Ei, Ep. reflexivity.
Qed.

Definition to_cop (o : scop) : option cop :=
  match o with Oeq => Some Ceq | Ole => Some Cle | Oge => Some Cge | Olt => Some Clt | Ogt => Some Cgt | One => None end.

Fixpoint to_cond (c : sc) : option cond :=
  match c with
  | KTrue => Some CTrue
  | KFalse => Some CFalse
  | KAtom a o b => match to_expr a, to_cop o, to_expr b with
                   | Some p, Some o', Some q => Some (CAtom p o' q) | _, _, _ => None end
  | KNot c => option_map CNot (to_cond c)
  | KAnd c1 c2 => match to_cond c1, to_cond c2 with Some a, Some b => Some (CAnd a b) | _, _ => None end
  | KOr c1 c2 => match to_cond c1, to_cond c2 with Some a, Some b => Some (COr a b) | _, _ => None end
  end.

(* the implicit last probability as the parser builds it
   (a) structure_transformer._assign_categorical since /repo commit 1ab34b4: every listed
       probability text is handed to the CAS parser ON ITS OWN and the last one is 1 - sum(given). *)
Fixpoint parse_all (ts : list (list tok)) : option (list sx) :=
  match ts with
  | [] => Some []
  | t :: r => match parse_expr t, parse_all r with Some e, Some es => Some (e :: es) | _, _ => None end
  end.
Definition sum_sx (ps : list sx) : sx := fold_right XAdd (XNum 0 0) ps.
Definition implicit_fixed (ts : list (list tok)) : option sx :=
  option_map (fun ps => XSub (XNum 1 0) (sum_sx ps)) (parse_all ts).

Lemma parse_all_spellings : forall ps ts, Forall2 (pr 0) ps ts -> parse_all ts = Some ps.
Proof.
  induction 1 as [|p t ps ts Hp Hps IH]; [reflexivity|].
  cbn [parse_all]. rewrite (parse_spelling _ _ Hp), IH. reflexivity.
Qed.

Lemma numval_0 : numval 0 0 = 0.
Proof. exact mkq_0_1. Qed.
Lemma numval_1 : numval 1 0 = 1.
Proof. exact mkq_1_1. Qed.

Lemma sum_sx_eval : forall ps s vs, Forall2 (fun p v => sx_eval p s = Some v) ps vs ->
  sx_eval (sum_sx ps) s = Some (fold_right Qcplus 0 vs).
Proof.
  induction 1 as [|p v ps vs Hp Hps IH]; cbn [sum_sx fold_right sx_eval].
  - rewrite numval_0. reflexivity.
  - fold (sum_sx ps). rewrite Hp, IH. reflexivity.
Qed.

(* for EVERY spelling of the listed probabilities (sums, differences, any parentheses) the
   omitted probability is 1 - (p1 + ... + pk) *)
Theorem implicit_last_parsed_separately : forall ps ts, Forall2 (pr 0) ps ts ->
  implicit_fixed ts = Some (XSub (XNum 1 0) (sum_sx ps)) /\
  forall s vs, Forall2 (fun p v => sx_eval p s = Some v) ps vs ->
    sx_eval (XSub (XNum 1 0) (sum_sx ps)) s = Some (1 - fold_right Qcplus 0 vs).
Proof.
  intros ps ts H. split.
  - unfold implicit_fixed. rewrite (parse_all_spellings _ _ H). reflexivity.
  - intros s vs Hv. cbn [sx_eval]. rewrite (sum_sx_eval _ _ _ Hv), numval_1. reflexivity.
Qed.

(* (b) the construction used before that commit: last_param = "1-" + "-".join(probabilities),
   i.e. the token list  1 - <p1> - <p2> ... of the probability texts AS WRITTEN.  Kept as the
   regression witness the check uses to recognise that defect. *)
Definition implicit_tokens (ps : list (list tok)) : list tok :=
  TNum 1 0 :: concat (map (fun t => TMinus :: t) ps).
Definition implicit_sx (ps : list sx) : sx := fold_left XSub ps (XNum 1 0).

Lemma implicit_pr : forall ps ts, Forall2 (pr 1) ps ts ->
  forall acc tacc, pr 0 acc tacc ->
  pr 0 (fold_left XSub ps acc) (tacc ++ concat (map (fun t => TMinus :: t) ts)).
Proof.
  induction 1 as [|p t ps ts Hp Hps IH]; intros acc tacc Hacc; cbn [fold_left map concat].
  - rewrite app_nil_r. exact Hacc.
  - rewrite app_assoc. apply IH. apply (pr_addop 0 TMinus XSub); auto.
Qed.

(* if every listed probability is spelled as a TERM (no top-level + or -, or parenthesised)
   the parser's text denotes 1 - p1 - ... - pk *)
Theorem implicit_last_tokens : forall ps ts, Forall2 (pr 1) ps ts ->
  parse_expr (implicit_tokens ts) = Some (implicit_sx ps).
Proof.
  intros ps ts H. apply parse_spelling. unfold implicit_tokens, implicit_sx.
  apply (implicit_pr ps ts H (XNum 1 0) [TNum 1 0]). constructor.
Qed.

Lemma implicit_sx_eval : forall ps s vs, Forall2 (fun p v => sx_eval p s = Some v) ps vs ->
  forall acc a, sx_eval acc s = Some a ->
  sx_eval (fold_left XSub ps acc) s = Some (fold_left Qcminus vs a).
Proof.
  induction 1 as [|p v ps vs Hp Hps IH]; intros acc a Ha; simpl; [exact Ha|].
  apply IH. simpl. rewrite Ha, Hp. reflexivity.
Qed.

Lemma fold_minus_sum : forall vs a, fold_left Qcminus vs a = a - fold_right Qcplus 0 vs.
Proof. induction vs as [|v vs IH]; intros a; simpl; [ring | rewrite IH; ring]. Qed.

Theorem implicit_last_value : forall ps s vs, Forall2 (fun p v => sx_eval p s = Some v) ps vs ->
  sx_eval (implicit_sx ps) s = Some (1 - fold_right Qcplus 0 vs).
Proof.
  intros ps s vs H. unfold implicit_sx.
  rewrite (implicit_sx_eval ps s vs H (XNum 1 0) 1); [rewrite fold_minus_sum; reflexivity|].
  cbn [sx_eval]. rewrite numval_1. reflexivity.
Qed.

Lemma some_qc_eq (o : option Qc) (q : Qc) : option_map this o = Some (this q) -> o = Some q.
Proof.
  destruct o as [v|]; simpl; intros H; [|discriminate H].
  inversion H as [H1]. f_equal. apply Qc_is_canon. rewrite H1. reflexivity.
Qed.

(* ... and it does NOT for a probability written as an unparenthesised sum: the faithful
   token model of the parser reads  1 {1/4+1/4} 2  as last probability 1-1/4+1/4 = 1 *)
Definition quarter_plus_quarter : sx := XAdd (XDiv (XNum 1 0) (XNum 4 0)) (XDiv (XNum 1 0) (XNum 4 0)).
Theorem implicit_last_unparenthesised_refuted :
  exists p tp e', pr 0 p tp /\ parse_expr (implicit_tokens [tp]) = Some e' /\
    sx_eval p st0 = Some (mkq 1 2) /\ sx_eval e' st0 = Some (mkq 1 1) /\ mkq 1 1 <> 1 - mkq 1 2.
Proof.
  exists quarter_plus_quarter, (print_min quarter_plus_quarter).
  eexists. split; [eapply pr_weaken; [apply print_min_pr | simpl; lia]|].
  split; [vm_compute; reflexivity|].
  split; [apply some_qc_eq; vm_compute; reflexivity|].
  split; [apply some_qc_eq; vm_compute; reflexivity|].
  intros H. apply (f_equal this) in H. vm_compute in H. discriminate H.
Qed.
