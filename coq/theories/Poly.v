(* Multivariate polynomials over Qc as lists of (coefficient, monomial), evaluation
   homomorphisms, normal forms with a SOUND zero test, and reduction of powers of finitely
   typed variables (the interpolation Polar's Finite.reduce_power performs). *)
From Coq Require Import List String QArith Qcanon ZArith Bool Ring Arith Lia.
From Polar Require Import Qcx CRing ExpPoly Dist Syntax Sem Types.
Import ListNotations.
Local Open Scope Qc_scope.

Definition poly := list (Qc * mono).

Fixpoint eval_poly (p : poly) (s : state) : Qc :=
  match p with [] => 0 | (c, m) :: p' => c * eval_mono m s + eval_poly p' s end.

Definition pconst (c : Qc) : poly := [(c, [])].
Definition pvar (x : var) : poly := [(1, [(x, 1%nat)])].
Definition padd (p q : poly) : poly := p ++ q.
Definition pscale (c : Qc) (p : poly) : poly := map (fun t => (c * fst t, snd t)) p.
Definition pneg (p : poly) : poly := pscale (-(1)) p.
Definition psub (p q : poly) : poly := padd p (pneg q).
Definition pmul1 (t : Qc * mono) (q : poly) : poly := map (fun u => (fst t * fst u, snd t ++ snd u)) q.
Fixpoint pmul (p q : poly) : poly :=
  match p with [] => [] | t :: p' => pmul1 t q ++ pmul p' q end.
Fixpoint ppow (p : poly) (k : nat) : poly :=
  match k with O => pconst 1 | S k' => pmul p (ppow p k') end.
Fixpoint psum (l : list poly) : poly := match l with [] => [] | p :: l' => padd p (psum l') end.

Fixpoint of_expr (e : expr) : poly :=
  match e with
  | EConst q => pconst q
  | EVar x => pvar x
  | EAdd a b => padd (of_expr a) (of_expr b)
  | EMul a b => pmul (of_expr a) (of_expr b)
  | EPow a k => ppow (of_expr a) k
  end.

Lemma qpow_1 n : qpow 1 n = 1.
Proof. apply Qcx.qpow_1. Qed.

Lemma eval_mono_app m1 m2 s : eval_mono (m1 ++ m2) s = eval_mono m1 s * eval_mono m2 s.
Proof. induction m1 as [|[x k] m IH]; simpl; [ring | rewrite IH; ring]. Qed.

Lemma eval_padd p q s : eval_poly (padd p q) s = eval_poly p s + eval_poly q s.
Proof. unfold padd; induction p as [|[c m] p IH]; simpl; [ring | rewrite IH; ring]. Qed.
Lemma eval_pscale c p s : eval_poly (pscale c p) s = c * eval_poly p s.
Proof. induction p as [|[a m] p IH]; simpl; [ring | rewrite IH; ring]. Qed.
Lemma eval_pneg p s : eval_poly (pneg p) s = - eval_poly p s.
Proof. unfold pneg; rewrite eval_pscale; ring. Qed.
Lemma eval_psub p q s : eval_poly (psub p q) s = eval_poly p s - eval_poly q s.
Proof. unfold psub; rewrite eval_padd, eval_pneg; ring. Qed.
Lemma eval_pmul1 t q s : eval_poly (pmul1 t q) s = fst t * eval_mono (snd t) s * eval_poly q s.
Proof.
  induction q as [|[a m] q IH]; simpl; [ring|].
  rewrite IH, eval_mono_app; ring.
Qed.
Lemma eval_pmul p q s : eval_poly (pmul p q) s = eval_poly p s * eval_poly q s.
Proof.
  induction p as [|[c m] p IH]; simpl; [ring|].
  fold (padd (pmul1 (c, m) q) (pmul p q)). rewrite eval_padd, eval_pmul1, IH; simpl; ring.
Qed.
Lemma eval_pconst c s : eval_poly (pconst c) s = c.
Proof. simpl; ring. Qed.
Lemma eval_pvar x s : eval_poly (pvar x) s = s x.
Proof. simpl; ring. Qed.
Lemma eval_ppow p k s : eval_poly (ppow p k) s = qpow (eval_poly p s) k.
Proof. induction k as [|k IH]; [apply eval_pconst | cbn [ppow qpow]; rewrite eval_pmul, IH; reflexivity]. Qed.
Lemma eval_psum l s : eval_poly (psum l) s = fold_right (fun p acc => eval_poly p s + acc) 0 l.
Proof. induction l as [|p l IH]; simpl; [reflexivity | fold (padd p (psum l)); rewrite eval_padd, IH; reflexivity]. Qed.

Lemma E_eval_poly (d : dist state) (p : poly) :
  E d (eval_poly p) =
  fold_right (fun t acc => fst t * E d (eval_mono (snd t)) + acc) 0 p.
Proof.
  induction p as [|[c m] p IH]; cbn [eval_poly fold_right fst snd]; [apply E_zero|].
  rewrite E_add, E_cmul, IH. reflexivity.
Qed.

Theorem eval_of_expr e s : eval_poly (of_expr e) s = eval e s.
Proof.
  induction e as [q|x|a IHa b IHb|a IHa b IHb|a IHa k]; cbn [of_expr eval].
  - apply eval_pconst.
  - apply eval_pvar.
  - rewrite eval_padd, IHa, IHb; reflexivity.
  - rewrite eval_pmul, IHa, IHb; reflexivity.
  - rewrite eval_ppow, IHa; reflexivity.
Qed.

Fixpoint mdeg (x : var) (m : mono) : nat :=
  match m with [] => O | (y, k) :: m' => if var_eqb y x then (k + mdeg x m')%nat else mdeg x m' end.
Fixpoint mrest (x : var) (m : mono) : mono :=
  match m with [] => [] | (y, k) :: m' => if var_eqb y x then mrest x m' else (y, k) :: mrest x m' end.

Lemma eval_mono_split x m s : eval_mono m s = qpow (s x) (mdeg x m) * eval_mono (mrest x m) s.
Proof.
  induction m as [|[y k] m IH]; simpl; [ring|].
  destruct (var_eqb_spec y x) as [->|_]; simpl.
  - rewrite qpow_add, IH; ring.
  - rewrite IH; ring.
Qed.
Lemma eval_mrest_upd x m s v : eval_mono (mrest x m) (upd s x v) = eval_mono (mrest x m) s.
Proof.
  induction m as [|[y k] m IH]; simpl; [reflexivity|].
  destruct (var_eqb y x) eqn:E; simpl; [exact IH|].
  unfold upd at 1. rewrite E, IH. reflexivity.
Qed.
Lemma eval_mono_upd x m s v : eval_mono m (upd s x v) = qpow v (mdeg x m) * eval_mono (mrest x m) s.
Proof.
  rewrite (eval_mono_split x m (upd s x v)), eval_mrest_upd, upd_same. reflexivity.
Qed.

(* normal form of a monomial: sorted by variable, exponents merged, zero exponents dropped *)
Fixpoint minsert (x : var) (k : nat) (m : mono) : mono :=
  match m with
  | [] => [(x, k)]
  | (y, j) :: m' =>
      if var_eqb x y then (y, (k + j)%nat) :: m'
      else if String.ltb x y then (x, k) :: (y, j) :: m'
      else (y, j) :: minsert x k m'
  end.
Fixpoint mnorm (m : mono) : mono :=
  match m with [] => [] | (x, k) :: m' => match k with O => mnorm m' | _ => minsert x k (mnorm m') end end.

Lemma eval_minsert x k m s : eval_mono (minsert x k m) s = qpow (s x) k * eval_mono m s.
Proof.
  induction m as [|[y j] m IH]; simpl; [ring|].
  destruct (var_eqb_spec x y) as [->|_].
  - simpl. rewrite qpow_add; ring.
  - destruct (String.ltb x y); simpl; [ring | rewrite IH; ring].
Qed.
Lemma eval_mnorm m s : eval_mono (mnorm m) s = eval_mono m s.
Proof.
  induction m as [|[x k] m IH]; simpl; [reflexivity|].
  destruct k as [|k]; [simpl; rewrite IH; ring|].
  rewrite eval_minsert, IH; reflexivity.
Qed.

Fixpoint mono_eqb (m1 m2 : mono) : bool :=
  match m1, m2 with
  | [], [] => true
  | (x, k) :: m1', (y, j) :: m2' => var_eqb x y && Nat.eqb k j && mono_eqb m1' m2'
  | _, _ => false
  end.
Lemma mono_eqb_refl m : mono_eqb m m = true.
Proof.
  induction m as [|[x k] m IH]; cbn [mono_eqb]; [reflexivity|].
  rewrite var_eqb_refl, Nat.eqb_refl, IH. reflexivity.
Qed.
Lemma mono_eqb_eq m1 m2 : mono_eqb m1 m2 = true -> m1 = m2.
Proof.
  revert m2; induction m1 as [|[x k] m1 IH]; intros [|[y j] m2]; simpl; intros H; try discriminate; auto.
  apply andb_true_iff in H; destruct H as [H H3]. apply andb_true_iff in H; destruct H as [H1 H2].
  apply var_eqb_eq in H1. apply Nat.eqb_eq in H2. subst. f_equal. auto.
Qed.
Lemma mnorm_eqb_eval m m' : mono_eqb (mnorm m) (mnorm m') = true -> forall s, eval_mono m s = eval_mono m' s.
Proof. intros H s. apply mono_eqb_eq in H. rewrite <- (eval_mnorm m), <- (eval_mnorm m'), H. reflexivity. Qed.

(* polynomials: merge terms with equal (normalised) monomials *)
Fixpoint pinsert (c : Qc) (m : mono) (p : poly) : poly :=
  match p with
  | [] => [(c, m)]
  | (a, m') :: p' => if mono_eqb m m' then (c + a, m') :: p' else (a, m') :: pinsert c m p'
  end.
Fixpoint pnorm (p : poly) : poly :=
  match p with [] => [] | (c, m) :: p' => pinsert c (mnorm m) (pnorm p') end.
Definition pzero (p : poly) : bool := forallb (fun t => Qc_eqb (fst t) 0) (pnorm p).

Lemma eval_pinsert c m p s : eval_poly (pinsert c m p) s = c * eval_mono m s + eval_poly p s.
Proof.
  induction p as [|[a m'] p IH]; simpl; [ring|].
  destruct (mono_eqb m m') eqn:E; simpl.
  - apply mono_eqb_eq in E; subst; ring.
  - rewrite IH; ring.
Qed.
Lemma eval_pnorm p s : eval_poly (pnorm p) s = eval_poly p s.
Proof.
  induction p as [|[c m] p IH]; simpl; [reflexivity|].
  rewrite eval_pinsert, eval_mnorm, IH; reflexivity.
Qed.
Lemma allzero_eval p s : forallb (fun t : Qc * mono => Qc_eqb (fst t) 0) p = true -> eval_poly p s = 0.
Proof.
  induction p as [|[c m] p IH]; simpl; intros H; [reflexivity|].
  apply andb_true_iff in H; destruct H as [Hc Hp]. apply Qc_eqb_true in Hc; subst.
  rewrite (IH Hp); ring.
Qed.
Theorem pzero_sound p : pzero p = true -> forall s, eval_poly p s = 0.
Proof. intros H s; rewrite <- eval_pnorm; apply allzero_eval; exact H. Qed.

Lemma pzero_psub_sound p q : pzero (psub p q) = true -> forall s, eval_poly p s = eval_poly q s.
Proof. intros H s. apply Qc_minus_0. rewrite <- eval_psub. apply pzero_sound, H. Qed.

(* drop zero terms, for readable output of the model *)
Definition pclean (p : poly) : poly := filter (fun t => negb (Qc_eqb (fst t) 0)) (pnorm p).
Lemma eval_filter_nz (l : poly) s :
  eval_poly (filter (fun t : Qc * mono => negb (Qc_eqb (fst t) 0)) l) s = eval_poly l s.
Proof.
  induction l as [|[c m] l IH]; cbn [filter eval_poly fst]; [reflexivity|].
  destruct (Qc_eqb_spec c 0) as [->|Hne]; cbn [negb eval_poly]; rewrite IH; ring.
Qed.
Lemma eval_pclean p s : eval_poly (pclean p) s = eval_poly p s.
Proof. unfold pclean. rewrite eval_filter_nz. apply eval_pnorm. Qed.

(* Reduction of powers of finitely typed variables.  For values vs, P(x) = prod (x - v);
   x^k mod P is computed by repeated multiplication by x and subtraction of lead * P.
   Sound for ANY list vs (no distinctness needed). *)
Notation upoly := (list Qc).
Definition upeval : upoly -> Qc -> Qc := @ExpPoly.peval Qc_cring.
Definition upadd : upoly -> upoly -> upoly := @ExpPoly.padd Qc_cring.
Definition upscale : Qc -> upoly -> upoly := @ExpPoly.pscale Qc_cring.
Definition upmul : upoly -> upoly -> upoly := @ExpPoly.pmul Qc_cring.

Fixpoint root_poly (vs : list Qc) : upoly :=
  match vs with [] => [1] | v :: vs' => upmul [- v; 1] (root_poly vs') end.

Lemma root_poly_zero vs v : In v vs -> upeval (root_poly vs) v = 0.
Proof.
  induction vs as [|u vs IH]; intros H; [destruct H|].
  cbn [root_poly]. unfold upeval, upmul. rewrite (ExpPoly.peval_pmul Qc_cring).
  destruct H as [H|H].
  - subst. simpl. ring.
  - fold (upeval (root_poly vs) v). rewrite (IH H). simpl. ring.
Qed.

(* one step: multiply by x, cancel the coefficient at degree n with lead * P
   (P monic of degree n; the caller has P = root_poly vs, n = length vs) *)
Definition xstep (P : upoly) (n : nat) (r : upoly) : upoly :=
  let t := 0 :: r in
  let lead := nth n t 0 in
  upadd t (upscale (- lead) P).
Fixpoint xpow_mod (P : upoly) (n : nat) (k : nat) : upoly :=
  match k with O => [1] | S k' => xstep P n (xpow_mod P n k') end.

Lemma xpow_mod_sound P n k v : upeval P v = 0 -> upeval (xpow_mod P n k) v = qpow v k.
Proof.
  intros HP; induction k as [|k IH]; [simpl; unfold upeval; simpl; ring|].
  cbn [xpow_mod qpow]. unfold xstep, upeval, upadd, upscale in *.
  rewrite (ExpPoly.peval_padd Qc_cring), (ExpPoly.peval_pscale Qc_cring).
  cbn [ExpPoly.peval]. rewrite IH, HP. simpl. ring.
Qed.

(* trailing zero coefficients are dropped (soundly: only when they test equal to 0) *)
Fixpoint utrim (p : upoly) : upoly :=
  match p with
  | [] => []
  | c :: p' => match utrim p' with [] => if Qc_eqb c 0 then [] else [c] | q => c :: q end
  end.
Lemma utrim_eval p v : upeval (utrim p) v = upeval p v.
Proof.
  unfold upeval; induction p as [|c p IH]; simpl; [reflexivity|].
  destruct (utrim p) as [|d q] eqn:E.
  - destruct (Qc_eqb_spec c 0) as [->|_]; simpl in *; rewrite <- IH; simpl; ring.
  - simpl in *. rewrite <- IH. reflexivity.
Qed.

(* x^k as a polynomial in x of low degree, for x ranging over vs *)
Definition reduced_power (vs : list Qc) (k : nat) : upoly :=
  if Nat.ltb k (List.length vs) then repeat 0 k ++ [1]
  else utrim (xpow_mod (root_poly vs) (List.length vs) k).

Lemma upeval_monomial k v : upeval (repeat 0 k ++ [1]) v = qpow v k.
Proof.
  unfold upeval; induction k as [|k IH]; simpl; [ring|]. rewrite IH; ring.
Qed.
Lemma reduced_power_sound vs k v : In v vs -> upeval (reduced_power vs k) v = qpow v k.
Proof.
  intros H. unfold reduced_power. destruct (Nat.ltb k (List.length vs)).
  - apply upeval_monomial.
  - rewrite utrim_eval. apply xpow_mod_sound. apply root_poly_zero; exact H.
Qed.

(* a univariate polynomial in the variable x as a multivariate one *)
Fixpoint upoly_in (x : var) (p : upoly) (j : nat) : poly :=
  match p with [] => [] | c :: p' => (c, [(x, j)]) :: upoly_in x p' (S j) end.
Lemma eval_upoly_in x p j s : eval_poly (upoly_in x p j) s = qpow (s x) j * upeval p (s x).
Proof.
  unfold upeval; revert j; induction p as [|c p IH]; intros j; simpl; [ring|].
  rewrite IH. simpl. ring.
Qed.

Definition reduce_entry (T : tenv) (xk : var * nat) : poly :=
  match tlookup T (fst xk) with
  | Some vs => upoly_in (fst xk) (reduced_power vs (snd xk)) 0
  | None => [(1, [xk])]
  end.
Lemma eval_reduce_entry T x k s : typed T s ->
  eval_poly (reduce_entry T (x, k)) s = qpow (s x) k.
Proof.
  intros HT. unfold reduce_entry; simpl. destruct (tlookup T x) as [vs|] eqn:E.
  - rewrite eval_upoly_in. simpl. rewrite reduced_power_sound; [ring | apply HT; exact E].
  - simpl. ring.
Qed.

Fixpoint reduce_mono (T : tenv) (m : mono) : poly :=
  match m with [] => pconst 1 | xk :: m' => pmul (reduce_entry T xk) (reduce_mono T m') end.
Lemma eval_reduce_mono T m s : typed T s -> eval_poly (reduce_mono T m) s = eval_mono m s.
Proof.
  intros HT; induction m as [|[x k] m IH]; cbn [reduce_mono eval_mono]; [apply eval_pconst|].
  rewrite eval_pmul, eval_reduce_entry, IH by exact HT. reflexivity.
Qed.

(* reduce every monomial (after merging exponents) *)
Fixpoint preduce (T : tenv) (p : poly) : poly :=
  match p with [] => [] | (c, m) :: p' => padd (pscale c (reduce_mono T (mnorm m))) (preduce T p') end.
Lemma eval_preduce T p s : typed T s -> eval_poly (preduce T p) s = eval_poly p s.
Proof.
  intros HT; induction p as [|[c m] p IH]; cbn [preduce eval_poly]; [reflexivity|].
  rewrite eval_padd, eval_pscale, eval_reduce_mono, eval_mnorm, IH by exact HT. reflexivity.
Qed.

(* equality of two polynomials as functions on typed states (sound direction) *)
Definition pequiv (T : tenv) (p q : poly) : bool := pzero (preduce T (psub p q)).
Theorem pequiv_sound T p q : pequiv T p q = true ->
  forall s, typed T s -> eval_poly p s = eval_poly q s.
Proof.
  unfold pequiv; intros H s HT. apply Qc_minus_0.
  rewrite <- eval_psub, <- (eval_preduce T _ s HT). apply pzero_sound, H.
Qed.

Global Arguments pmul : simpl never.
Global Arguments padd : simpl never.
Global Arguments psub : simpl never.
Global Arguments pneg : simpl never.
Global Arguments pscale : simpl never.
Global Arguments pconst : simpl never.
Global Arguments pvar : simpl never.
Global Arguments ppow : simpl never.
Global Arguments of_expr : simpl never.
Global Arguments preduce : simpl never.
Global Arguments pnorm : simpl never.
