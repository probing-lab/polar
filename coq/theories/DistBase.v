(* C08 — vocabulary shared by the translated distribution code (gen/DistGen.v), the
   hand-written specifications and the proofs: finite sums over Qc, literal pmfs, supports
   with infinite endpoints, factorial / rising factorial in Qc, and the "moments of mu + Y"
   operator [shift] with the lemmas that turn recurrences of central moments into
   recurrences of raw moments. *)
From Coq Require Import List QArith Qcanon ZArith Lia Bool Arith Field.
From Polar Require Import Qcx.
Import ListNotations.
Local Open Scope Qc_scope.

Definition qz (z : Z) : Qc := mkq z 1.
Definition qabs (x : Qc) : Qc := if Qc_ltb x 0 then - x else x.

Fixpoint qfact (n : nat) : Qc := match n with O => 1 | S m => qnat (S m) * qfact m end.
(* x (x+1) ... (x+n-1) *)
Fixpoint rising (x : Qc) (n : nat) : Qc := match n with O => 1 | S m => rising x m * (x + qnat m) end.

Lemma qfact_neq0 n : qfact n <> 0.
Proof.
  induction n as [|n IH]; [discriminate|].
  cbn [qfact]. intros H. apply Qcmult_integral in H. destruct H as [H|H]; [exact (qnat_S_neq0 n H) | exact (IH H)].
Qed.

Lemma qfact_fact n : qfact n = qnat (fact n).
Proof. induction n as [|n IH]; [reflexivity|]. cbn [qfact]. rewrite IH. change (fact (S n)) with (S n * fact n)%nat. rewrite qnat_mul. reflexivity. Qed.

Lemma qpow_add x a b : qpow x (a + b) = qpow x a * qpow x b.
Proof. exact (Qcx.qpow_add x a b). Qed.

Definition qsum (l : list Qc) : Qc := fold_right Qcplus 0 l.

Lemma qsum_nil : qsum [] = 0.
Proof. reflexivity. Qed.
Lemma qsum_cons x l : qsum (x :: l) = x + qsum l.
Proof. reflexivity. Qed.
Lemma qsum_app l1 l2 : qsum (l1 ++ l2) = qsum l1 + qsum l2.
Proof. induction l1 as [|x l IH]; [rewrite qsum_nil; cbn [app]; ring|]. cbn [app]. rewrite !qsum_cons, IH. ring. Qed.

(* the shape produced by translating  `m = a; for x in l: m += f(x)` *)
Lemma fold_left_acc_sum {A} (g : Qc -> A -> Qc) (f : A -> Qc) (l : list A) (a : Qc) :
  (forall m x, g m x = m + f x) -> fold_left g l a = a + qsum (map f l).
Proof.
  intros E. revert a. induction l as [|x l IH]; intros a; cbn [fold_left map]; [rewrite qsum_nil; ring|].
  rewrite IH, qsum_cons, E. ring.
Qed.
Lemma fold_left_add_sum {A} (f : A -> Qc) (l : list A) (a : Qc) :
  fold_left (fun m x => m + f x) l a = a + qsum (map f l).
Proof. apply fold_left_acc_sum. reflexivity. Qed.

(* a finite law given literally: list of (probability, value) *)
Definition pmf := list (Qc * Qc).
Definition pmf_moment (d : pmf) (k : nat) : Qc := qsum (map (fun pv => fst pv * qpow (snd pv) k) d).
Definition pmf_total (d : pmf) : Qc := qsum (map fst d).
Definition pmf_values (d : pmf) : list Qc := map snd d.

Lemma pmf_moment_0 d : pmf_moment d 0 = pmf_total d.
Proof.
  unfold pmf_moment, pmf_total. induction d as [|[p v] d IH]; [reflexivity|].
  cbn [map]. rewrite !qsum_cons, IH. cbn [fst snd qpow]. ring.
Qed.

(* the shape produced by translating  `m = 0; for x in l: m += value(x)**k * prob(x)` *)
Lemma fold_left_pmf_moment {A} (g : Qc -> A -> Qc) (pv : A -> Qc * Qc) (l : list A) k :
  (forall m x, g m x = m + qpow (snd (pv x)) k * fst (pv x)) -> fold_left g l 0 = pmf_moment (map pv l) k.
Proof.
  intros E. rewrite (fold_left_acc_sum g _ l 0 E). unfold pmf_moment.
  rewrite map_map, Qcplus_0_l. f_equal. apply map_ext. intros x. apply Qcmult_comm.
Qed.

(* Python's enumerate / range *)
Definition enumerate {A} (l : list A) : list (nat * A) := combine (seq 0 (length l)) l.
Definition zrange (a b : Z) : list Z := map (fun i => (a + Z.of_nat i)%Z) (seq 0 (Z.to_nat (b - a))).

Lemma zrange_length a b : length (zrange a b) = Z.to_nat (b - a).
Proof. unfold zrange. rewrite map_length, seq_length. reflexivity. Qed.

Lemma in_zrange a b z : In z (zrange a b) <-> (a <= z < b)%Z.
Proof.
  unfold zrange. rewrite in_map_iff. split.
  - intros [i [E Hi]]. apply in_seq in Hi. lia.
  - intros H. exists (Z.to_nat (z - a)). split; [lia|]. apply in_seq. lia.
Qed.

(* supports: finite unions of points and intervals with possibly infinite endpoints *)
Inductive ext := NegInf | Fin (q : Qc) | PosInf.
Inductive sitem := SPoint (q : Qc) | SIv (lo hi : ext).

Definition ext_le (x y : ext) : Prop :=
  match x, y with
  | NegInf, _ => True
  | _, PosInf => True
  | Fin a, Fin b => a <= b
  | _, _ => False
  end.

Definition in_item (x : Qc) (s : sitem) : Prop :=
  match s with
  | SPoint q => x = q
  | SIv lo hi => ext_le lo (Fin x) /\ ext_le (Fin x) hi
  end.

Definition in_support (x : Qc) (S : list sitem) : Prop := exists s, In s S /\ in_item x s.

Lemma in_support_single x s : in_support x [s] <-> in_item x s.
Proof.
  split.
  - intros [s' [[<-|[]] H]]. exact H.
  - intros H. exists s. split; [left; reflexivity | exact H].
Qed.
Lemma in_support_points x vs : in_support x (map SPoint vs) <-> In x vs.
Proof.
  split.
  - intros [s [Hs Hx]]. apply in_map_iff in Hs. destruct Hs as [v [<- Hv]]. cbn in Hx. subst x. exact Hv.
  - intros H. exists (SPoint x). split; [apply in_map; exact H | reflexivity].
Qed.

(* boolean comparison of declared supports as sets (used by the correspondence cases) *)
Definition ext_eqb (x y : ext) : bool :=
  match x, y with
  | NegInf, NegInf => true | PosInf, PosInf => true
  | Fin a, Fin b => Qc_eqb a b | _, _ => false
  end.
Definition sitem_eqb (x y : sitem) : bool :=
  match x, y with
  | SPoint a, SPoint b => Qc_eqb a b
  | SIv a b, SIv c d => ext_eqb a c && ext_eqb b d
  | _, _ => false
  end.
Definition support_eqb (l1 l2 : list sitem) : bool :=
  forallb (fun x => existsb (sitem_eqb x) l2) l1 && forallb (fun x => existsb (sitem_eqb x) l1) l2.

(* moments of mu + Y from the moments c of Y:
   [shift mu c k] is L((mu + y)^k) for the linear functional L(y^j) = c j, computed by
   expanding one factor:  (mu+y)^(k+1) = mu (mu+y)^k + (mu+y)^k y,  and  L(p(y) y) is the
   functional with moments c (j+1).  [shift_binomial] shows it is the binomial sum. *)
Fixpoint shift (mu : Qc) (c : nat -> Qc) (k : nat) : Qc :=
  match k with
  | O => c O
  | S k' => mu * shift mu c k' + shift mu (fun j => c (S j)) k'
  end.

Lemma shift_S mu c k : shift mu c (S k) = mu * shift mu c k + shift mu (fun j => c (S j)) k.
Proof. reflexivity. Qed.

Lemma shift_ext mu c c' k : (forall j, c j = c' j) -> shift mu c k = shift mu c' k.
Proof.
  revert c c'. induction k as [|k IH]; intros c c' E; cbn [shift]; [apply E|].
  rewrite (IH c c' E). rewrite (IH (fun j => c (S j)) (fun j => c' (S j))); [reflexivity|]. intros j; apply E.
Qed.

Lemma shift_add mu c d k : shift mu (fun j => c j + d j) k = shift mu c k + shift mu d k.
Proof. revert c d. induction k as [|k IH]; intros c d; cbn [shift]; [reflexivity|]. rewrite !IH. ring. Qed.

Lemma shift_scale mu a c k : shift mu (fun j => a * c j) k = a * shift mu c k.
Proof. revert c. induction k as [|k IH]; intros c; cbn [shift]; [reflexivity|]. rewrite !IH. ring. Qed.

Lemma shift_zero_loc c k : shift 0 c k = c k.
Proof. revert c. induction k as [|k IH]; intros c; cbn [shift]; [reflexivity|]. rewrite (IH (fun j => c (S j))). ring. Qed.

(* the functional "evaluate at 0": moments 1,0,0,...  gives  mu^k *)
Definition delta0 (j : nat) : Qc := match j with O => 1 | S _ => 0 end.
Lemma shift_zero_fun mu k : shift mu (fun _ => 0) k = 0.
Proof. induction k as [|k IH]; cbn [shift]; [reflexivity|]. rewrite IH. ring. Qed.
Lemma shift_delta0 mu k : shift mu delta0 k = qpow mu k.
Proof.
  induction k as [|k IH]; cbn [shift qpow]; [reflexivity|]. rewrite IH.
  rewrite (shift_ext mu (fun j => delta0 (S j)) (fun _ => 0)); [|reflexivity]. rewrite shift_zero_fun. ring.
Qed.

(* the functional "evaluate at d": moments d^j  gives  (mu + d)^k *)
Lemma shift_pow mu d k : shift mu (qpow d) k = qpow (mu + d) k.
Proof.
  induction k as [|k IH]; [reflexivity|]. cbn [shift qpow].
  rewrite (shift_scale mu d (qpow d) k), IH. ring.
Qed.

(* "derivative" lemma: the sequence j |-> j * d (j-1) (moments of  y |-> d/dy ) shifts to
   k * shift d (k-1) *)
Definition dseq (d : nat -> Qc) (j : nat) : Qc := match j with O => 0 | S i => qnat (S i) * d i end.

Lemma shift_dseq mu d k : shift mu (dseq d) (S k) = qnat (S k) * shift mu d k.
Proof.
  revert d. induction k as [|k IH]; intros d.
  - cbn [shift dseq qnat]. ring.
  - rewrite (shift_S mu (dseq d) (S k)), IH.
    rewrite (shift_ext mu (fun j => dseq d (S j)) (fun j => dseq (fun i => d (S i)) j + d j)).
    2:{ intros [|j]; cbn [dseq qnat]; ring. }
    rewrite shift_add, IH, (shift_S mu d k), (qnat_S (S k)). ring.
Qed.

Lemma shift_dseq_0 mu d : shift mu (dseq d) 0 = 0.
Proof. reflexivity. Qed.

(* binomial coefficients in Qc (Pascal's rule as definition) and the binomial form of shift *)
Fixpoint qbinom (n k : nat) : Qc :=
  match n, k with
  | _, O => 1
  | O, S _ => 0
  | S n', S k' => qbinom n' k' + qbinom n' (S k')
  end.

(* sum_{j < n} f j *)
Fixpoint sumn (f : nat -> Qc) (n : nat) : Qc := match n with O => 0 | S m => sumn f m + f m end.

Lemma sumn_ext f g n : (forall j, (j < n)%nat -> f j = g j) -> sumn f n = sumn g n.
Proof. induction n as [|n IH]; intros E; cbn [sumn]; [reflexivity|]. rewrite IH, E; auto. Qed.
Lemma sumn_add f g n : sumn (fun j => f j + g j) n = sumn f n + sumn g n.
Proof. induction n as [|n IH]; cbn [sumn]; [ring|]. rewrite IH. ring. Qed.
Lemma sumn_scale a f n : sumn (fun j => a * f j) n = a * sumn f n.
Proof. induction n as [|n IH]; cbn [sumn]; [ring|]. rewrite IH. ring. Qed.
Lemma sumn_shift f n : sumn f (S n) = f O + sumn (fun j => f (S j)) n.
Proof. induction n as [|n IH]; [cbn [sumn]; ring|]. change (sumn f (S (S n))) with (sumn f (S n) + f (S n)). rewrite IH. cbn [sumn]. ring. Qed.

Lemma qbinom_0_r n : qbinom n 0 = 1.
Proof. destruct n; reflexivity. Qed.
Lemma qbinom_gt n k : (n < k)%nat -> qbinom n k = 0.
Proof.
  revert k. induction n as [|n IH]; intros [|k] H; try lia; [reflexivity|].
  cbn [qbinom]. rewrite !IH by lia. ring.
Qed.
Lemma qbinom_diag n : qbinom n n = 1.
Proof. induction n as [|n IH]; [reflexivity|]. cbn [qbinom]. rewrite IH, qbinom_gt by lia. ring. Qed.

(* binomial sum  sum_{j<=k} C(k,j) mu^(k-j) c_j *)
Definition binsum (mu : Qc) (c : nat -> Qc) (k : nat) : Qc :=
  sumn (fun j => qbinom k j * qpow mu (k - j) * c j) (S k).

(* Pascal's rule for the coefficient of c (j+1) in [binsum mu c (S k)]; at j >= k the last term vanishes *)
Lemma bincoef_S mu k j :
  qbinom (S k) (S j) * qpow mu (S k - S j)
  = qbinom k j * qpow mu (k - j) + mu * (qbinom k (S j) * qpow mu (k - S j)).
Proof.
  cbn [qbinom Nat.sub]. destruct (le_lt_dec k j) as [H|H].
  - rewrite (qbinom_gt k (S j)) by lia. ring.
  - replace (k - j)%nat with (S (k - S j)) by lia. cbn [qpow]. ring.
Qed.

Lemma binsum_step mu c k : binsum mu c (S k) = mu * binsum mu c k + binsum mu (fun j => c (S j)) k.
Proof.
  unfold binsum. rewrite (sumn_shift _ (S k)).
  rewrite (sumn_ext _ (fun j => qbinom k j * qpow mu (k - j) * c (S j)
                                + mu * (qbinom k (S j) * qpow mu (k - S j) * c (S j))) (S k))
    by (intros j _; rewrite bincoef_S; ring).
  rewrite sumn_add, sumn_scale, (sumn_shift (fun j => qbinom k j * qpow mu (k - j) * c j) k).
  (* the sum of the C(k, j+1) terms has one term more than its counterpart on the right: j = k, where C(k, k+1) = 0 *)
  cbn [sumn]. rewrite (qbinom_gt k (S k)) by lia. rewrite !qbinom_0_r, !Nat.sub_0_r. cbn [qpow]. ring.
Qed.

Lemma shift_binomial mu c k : shift mu c k = binsum mu c k.
Proof.
  revert c. induction k as [|k IH]; intros c.
  - unfold binsum. cbn [shift sumn qbinom qpow Nat.sub]. ring.
  - rewrite binsum_step. cbn [shift]. rewrite !IH. reflexivity.
Qed.

(* quadratic-time evaluation of [shift] (Pascal-triangle iteration on a list) *)
Fixpoint tstep (mu : Qc) (l : list Qc) : list Qc :=
  match l with
  | a :: t => match t with b :: _ => (mu * a + b) :: tstep mu t | [] => [] end
  | [] => []
  end.
Fixpoint titer (mu : Qc) (n : nat) (l : list Qc) : list Qc :=
  match n with O => l | S n' => titer mu n' (tstep mu l) end.
Definition shift_fast (mu : Qc) (c : nat -> Qc) (k : nat) : Qc := hd 0 (titer mu k (map c (seq 0 (S k)))).

Lemma tstep_map mu (f : nat -> Qc) s n :
  tstep mu (map f (seq s (S (S n)))) = map (fun j => mu * f j + f (S j)) (seq s (S n)).
Proof.
  revert s. induction n as [|n IH]; intros s; [reflexivity|].
  change (seq s (S (S (S n)))) with (s :: seq (S s) (S (S n))).
  change (map f (s :: seq (S s) (S (S n)))) with (f s :: map f (seq (S s) (S (S n)))).
  change (seq s (S (S n))) with (s :: seq (S s) (S n)).
  cbn [map]. rewrite <- IH. reflexivity.
Qed.

Lemma titer_spec mu i : forall (G : nat -> nat -> Qc) n,
  (forall i j, G (S i) j = mu * G i j + G i (S j)) ->
  titer mu i (map (G O) (seq 0 (i + S n))) = map (G i) (seq 0 (S n)).
Proof.
  induction i as [|i IH]; intros G n HG; [reflexivity|].
  cbn [titer]. replace (S i + S n)%nat with (S (S (i + n))) by lia.
  rewrite tstep_map.
  rewrite (map_ext (fun j => mu * G O j + G O (S j)) (G 1%nat)) by (intros j; symmetry; apply HG).
  replace (S (i + n)) with (i + S n)%nat by lia.
  apply (IH (fun a j => G (S a) j) n). intros a j. apply HG.
Qed.

Lemma shift_fast_eq mu c k : shift_fast mu c k = shift mu c k.
Proof.
  unfold shift_fast.
  pose (G := fun (i j : nat) => shift mu (fun t => c (j + t)%nat) i).
  assert (HG : forall i j, G (S i) j = mu * G i j + G i (S j)).
  { intros i j. unfold G. cbn [shift]. f_equal. apply shift_ext. intros t. f_equal. lia. }
  pose proof (titer_spec mu k G 0 HG) as E.
  replace (k + 1)%nat with (S k) in E by lia.
  rewrite (map_ext c (G O)) by (intros j; unfold G; cbn [shift]; f_equal; lia).
  rewrite E. cbn [seq map hd]. unfold G. apply shift_ext. intros t. reflexivity.
Qed.
