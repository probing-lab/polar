(* C15 — the queue-based topological sort of the code generator (BayesNet.topo_sort):
   soundness (a permutation of all variables with parents first), and the assert
   `len(out) == len(vars)` fails exactly on cyclic parent structures. *)
From Coq Require Import Arith Bool Lia List Permutation.
From Polar Require Import Qcx BayesNet BayesNetSem BayesNetSpec.
Import ListNotations.
Open Scope nat_scope.

Lemma parents_first_snoc pars out s :
  parents_first pars out -> (forall p, In p (nth s pars []) -> In p out) ->
  parents_first pars (out ++ [s]).
Proof.
  intros Hpf Hs l1 x l2 E p Hp.
  induction l2 as [|z l2' _] using rev_ind.
  - apply app_inj_tail in E as [-> <-]. apply Hs, Hp.
  - rewrite app_comm_cons, app_assoc in E. apply app_inj_tail in E as [E _].
    exact (Hpf l1 x l2' E p Hp).
Qed.

(* number of elements of out occurring in ps: for a parent list ps, the number of parents
   already output *)
Definition hitl (out ps : list nat) : nat := length (filter (fun s => mem_nat s ps) out).

Lemma hitl_snoc out s ps :
  hitl (out ++ [s]) ps = hitl out ps + (if mem_nat s ps then 1 else 0).
Proof.
  unfold hitl. rewrite filter_app, app_length. cbn [filter].
  destruct (mem_nat s ps); reflexivity.
Qed.

Lemma hitl_incl out ps : incl (filter (fun s => mem_nat s ps) out) ps.
Proof. intros x Hx. apply filter_In in Hx. apply mem_nat_In. tauto. Qed.

Lemma hitl_full out ps : NoDup out -> length ps <= hitl out ps -> NoDup ps /\ incl ps out.
Proof.
  intros Hnd Hle. pose proof (NoDup_filter (fun s => mem_nat s ps) Hnd) as Hf. split.
  - exact (NoDup_incl_NoDup Hf Hle (hitl_incl out ps)).
  - intros p Hp. apply (NoDup_length_incl Hf Hle (hitl_incl out ps)) in Hp.
    apply filter_In in Hp. tauto.
Qed.

Lemma hitl_all out ps : NoDup ps -> incl ps out -> length ps <= hitl out ps.
Proof.
  intros Hnd Hin. apply NoDup_incl_length; [exact Hnd|].
  intros p Hp. apply filter_In. split; [exact (Hin p Hp) | apply mem_nat_In, Hp].
Qed.

Section Topo.
Variable pars : list (list nat).

(* The counter list of the Python loop is a function of the output so far: for each
   variable, the number of its parent entries minus the number of output variables among
   them.  A repeated parent is two entries and one output: such a counter never reaches 0. *)
Definition counters (out : list nat) : list nat :=
  map (fun ps => length ps - hitl out ps) pars.

Lemma nth_counters out i : i < length pars ->
  nth i (counters out) 1 = length (nth i pars []) - hitl out (nth i pars []).
Proof.
  intros Hi. unfold counters.
  rewrite (nth_indep _ 1 (length (@nil nat) - hitl out [])) by (rewrite map_length; exact Hi).
  apply (map_nth (fun ps => length ps - hitl out ps)).
Qed.

Lemma counters_nil : counters [] = map (@length nat) pars.
Proof. apply map_ext. intros ps. apply Nat.sub_0_r. Qed.

Lemma counters_snoc out s : topo_dec pars s (counters out) = counters (out ++ [s]).
Proof.
  unfold topo_dec, counters. rewrite combine_map_r, map_map. apply map_ext. intros ps.
  cbn [fst snd]. rewrite hitl_snoc. destruct (mem_nat s ps); lia.
Qed.

Lemma in_topo_new s out i :
  In i (topo_new pars s (counters out)) <->
  i < length pars /\ In s (nth i pars []) /\ length (nth i pars []) <= hitl out (nth i pars []).
Proof.
  unfold topo_new. rewrite filter_In, in_seq, andb_true_iff, mem_nat_In, Nat.eqb_eq. split.
  - intros [Hi [Hs Hz]]. rewrite nth_counters in Hz by lia. repeat split; [lia | exact Hs | lia].
  - intros [Hi [Hs Hz]]. rewrite nth_counters by exact Hi. repeat split; [lia | lia | exact Hs | lia].
Qed.

(* The variables output or queued are those whose counter is 0; nothing is assumed of pars. *)
Record Inv (queue out : list nat) : Prop := mkInv {
  inv_nd : NoDup (out ++ queue);
  inv_zero : forall i, In i (out ++ queue) <->
             i < length pars /\ length (nth i pars []) <= hitl out (nth i pars []);
  inv_pf : parents_first pars out }.

Lemma inv_incl queue out : Inv queue out -> incl (out ++ queue) (seq 0 (length pars)).
Proof. intros [_ Hzero _] x Hx. apply in_seq. apply Hzero in Hx. lia. Qed.

Lemma inv_length queue out : Inv queue out -> length (out ++ queue) <= length pars.
Proof.
  intros HI. rewrite <- (seq_length (length pars) 0).
  apply NoDup_incl_length; [apply HI | apply inv_incl, HI].
Qed.

Lemma inv_step s q out : Inv (s :: q) out ->
  Inv (q ++ topo_new pars s (counters (out ++ [s]))) (out ++ [s]).
Proof.
  intros [Hnd Hzero Hpf].
  assert (Hs_out : ~ In s out).
  { intros H. apply (NoDup_remove_2 _ _ _ Hnd), in_app_iff. now left. }
  assert (Hnd_out : NoDup out) by apply (NoDup_app_iff out (s :: q)), Hnd.
  (* whoever is output or queued has all its parents in out *)
  assert (Hpar : forall i, In i (out ++ s :: q) -> incl (nth i pars []) out).
  { intros i Hi. apply (hitl_full out _ Hnd_out), Hzero, Hi. }
  assert (E : forall new, (out ++ [s]) ++ q ++ new = (out ++ s :: q) ++ new).
  { intros new. rewrite <- !app_assoc. reflexivity. }
  constructor.
  - rewrite E. apply NoDup_app_iff. split; [exact Hnd|]. split; [apply NoDup_filter, seq_NoDup|].
    intros x Hx Hxn. apply in_topo_new in Hxn as [_ [Hm _]]. exact (Hs_out (Hpar x Hx s Hm)).
  - intros i. rewrite E, in_app_iff, in_topo_new, Hzero, hitl_snoc.
    destruct (mem_nat s (nth i pars [])) eqn:Em.
    + apply mem_nat_In in Em. intuition lia.
    + assert (~ In s (nth i pars [])) by (rewrite <- mem_nat_In, Em; discriminate). intuition lia.
  - apply parents_first_snoc; [exact Hpf|]. apply Hpar, in_elt.
Qed.

Lemma loop_inv fuel : forall queue out,
  Inv queue out -> length pars <= fuel + length out ->
  Inv [] (topo_loop fuel pars (counters out) queue out).
Proof.
  induction fuel as [|f IH]; intros queue out HI Hf; cbn [topo_loop].
  - assert (Hq : queue = []).
    { pose proof (inv_length _ _ HI) as Hl. rewrite app_length in Hl.
      destruct queue as [|s q]; [reflexivity|]. cbn [length] in Hl. lia. }
    subst queue. exact HI.
  - destruct queue as [|s q]; [exact HI|]. rewrite counters_snoc.
    apply IH; [apply inv_step; exact HI|].
    rewrite app_length. cbn [length]. lia.
Qed.

Lemma inv_init :
  Inv (filter (fun i => Nat.eqb (nth i (counters []) 1) 0) (seq 0 (length pars))) [].
Proof.
  constructor; cbn [app].
  - apply NoDup_filter, seq_NoDup.
  - intros i. rewrite filter_In, in_seq, Nat.eqb_eq. split.
    + intros [Hi Hz]. rewrite nth_counters in Hz by lia. lia.
    + intros [Hi Hz]. rewrite nth_counters by exact Hi. lia.
  - intros [|y l1] x l2 E; discriminate.
Qed.

Lemma topo_sort_inv : exists res, Inv [] res /\
  topo_sort pars = if Nat.eqb (length res) (length pars) then Some res else None.
Proof.
  eexists. split; [apply (loop_inv (length pars) _ [] inv_init); cbn [length]; lia|].
  unfold topo_sort. rewrite <- counters_nil. reflexivity.
Qed.

Lemma topo_sort_Some_inv ord : topo_sort pars = Some ord ->
  Inv [] ord /\ length ord = length pars.
Proof.
  intros H. destruct topo_sort_inv as [res [HI E]]. rewrite E in H.
  destruct (Nat.eqb (length res) (length pars)) eqn:El; [|discriminate].
  injection H as <-. split; [exact HI | apply Nat.eqb_eq, El].
Qed.

End Topo.

Theorem topo_sort_Some : forall pars ord,
  topo_sort pars = Some ord ->
  Permutation ord (seq 0 (length pars)) /\ parents_first pars ord.
Proof.
  intros pars ord H. destruct (topo_sort_Some_inv pars ord H) as [HI El].
  pose proof (inv_incl pars _ _ HI) as Hin. destruct HI as [Hnd _ Hpf]. rewrite app_nil_r in *.
  split; [|exact Hpf].
  apply NoDup_Permutation_bis; [exact Hnd | rewrite seq_length; lia | exact Hin].
Qed.

Theorem topo_sort_sound : forall pars ord,
  wf_pars pars -> topo_sort pars = Some ord ->
  Permutation ord (seq 0 (length pars)) /\ parents_first pars ord.
Proof. intros pars ord _. apply topo_sort_Some. Qed.

(* the rank function for acyclic: the position in the order *)
Fixpoint idx (x : nat) (l : list nat) : nat :=
  match l with [] => 0 | y :: r => if Nat.eqb x y then 0 else S (idx x r) end.

Lemma idx_before p x l1 l2 :
  In p l1 -> ~ In x l1 -> idx p (l1 ++ x :: l2) < idx x (l1 ++ x :: l2).
Proof.
  induction l1 as [|y r IH]; cbn [In idx app]; [tauto|]. intros Hp Hx.
  destruct (Nat.eqb x y) eqn:Ex.
  { apply Nat.eqb_eq in Ex. exfalso. apply Hx. left. now symmetry. }
  destruct (Nat.eqb p y) eqn:Ep; [lia|].
  apply Nat.eqb_neq in Ep. destruct Hp as [Hp|Hp]; [congruence|].
  apply -> Nat.succ_lt_mono. apply IH; [exact Hp | tauto].
Qed.

Theorem topo_sort_acyclic : forall pars ord,
  wf_pars pars -> topo_sort pars = Some ord -> acyclic pars.
Proof.
  intros pars ord _ H. destruct (topo_sort_Some pars ord H) as [Hperm Hpf].
  exists (fun x => idx x ord). intros x p Hx Hp.
  assert (Hin : In x ord).
  { apply (Permutation_in x (Permutation_sym Hperm)). apply in_seq. lia. }
  assert (Hnd : NoDup ord).
  { apply (Permutation_NoDup (Permutation_sym Hperm)). apply seq_NoDup. }
  apply in_split in Hin. destruct Hin as [l1 [l2 E]].
  pose proof (Hpf l1 x l2 E p Hp) as Hp1.
  subst ord. apply NoDup_remove_2 in Hnd.
  apply idx_before; [exact Hp1|]. intros Hc. apply Hnd, in_app_iff. now left.
Qed.

(* Parent lists without repetition are needed here: with them, a variable all of whose
   parents are output has counter 0. *)
Theorem topo_sort_complete : forall pars,
  wf_pars pars -> acyclic pars -> exists ord, topo_sort pars = Some ord.
Proof.
  intros pars wf [rank Hrank]. destruct (topo_sort_inv pars) as [res [HI E]]. rewrite E.
  pose proof (inv_length pars _ _ HI) as Hle.
  destruct HI as [Hnd Hzero _]. rewrite app_nil_r in *.
  assert (Hall : forall r i, rank i < r -> i < length pars -> In i res).
  { induction r as [|r IH]; intros i Hr Hi; [lia|].
    destruct (wf i _ (nth_error_nth' pars [] Hi)) as [Hndi Hbi].
    apply Hzero. split; [exact Hi|]. apply hitl_all; [exact Hndi|].
    intros p Hp. apply IH; [specialize (Hrank i p Hi Hp); lia | exact (Hbi p Hp)]. }
  assert (Hge : length pars <= length res).
  { rewrite <- (seq_length (length pars) 0) at 1.
    apply NoDup_incl_length; [apply seq_NoDup|].
    intros x Hx. apply in_seq in Hx. apply (Hall (S (rank x))); lia. }
  rewrite (proj2 (Nat.eqb_eq _ _)) by lia. exists res. reflexivity.
Qed.

(* The assert also fails when some parent list has a repetition. *)
Theorem topo_sort_nodup : forall pars ord,
  (forall i ps, nth_error pars i = Some ps -> forall p, In p ps -> p < length pars) ->
  topo_sort pars = Some ord -> wf_pars pars.
Proof.
  intros pars ord Hb H. destruct (topo_sort_Some pars ord H) as [Hperm _].
  destruct (topo_sort_Some_inv pars ord H) as [[Hnd Hzero _] _]. rewrite app_nil_r in *.
  intros i ps Hi. split; [|exact (Hb i ps Hi)].
  assert (Hin : In i ord).
  { apply (Permutation_in i (Permutation_sym Hperm)), in_seq.
    assert (i < length pars) by (apply nth_error_Some; congruence). lia. }
  apply Hzero in Hin as [_ Hin]. rewrite (nth_error_nth _ _ [] Hi) in Hin.
  exact (proj1 (hitl_full ord ps Hnd Hin)).
Qed.

Theorem topo_sort_sound' : forall pars ord,
  (forall i ps, nth_error pars i = Some ps -> forall p, In p ps -> p < length pars) ->
  topo_sort pars = Some ord ->
  Permutation ord (seq 0 (length pars)) /\ parents_first pars ord.
Proof. intros pars ord _. apply topo_sort_Some. Qed.
