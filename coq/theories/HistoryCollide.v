(* C20 — the two generators of auxiliary names share one name space.
   MultiAssignTransformer names the i-th version of a variable  "_" + var + str(i);
   utils.identifiers.get_unique_var names its k-th result        "_" + tag + str(k).
   The first is literally [gen_name var i]: a version name IS a counter name exactly when the
   source variable is spelled like a tag and the counter has the right value, so whether two
   different objects of a program get the same name depends on how many names earlier
   analyses of the process consumed.  The repaired spelling "_" + var + "_" + str(i) is never a
   counter name of one of Polar's tags. *)
From Coq Require Import List String Ascii Bool Arith.
From Coq Require FinFun.
From Polar Require Import HistoryNames.
Import ListNotations.
Local Open Scope string_scope.

Definition ma_name (var : string) (i : nat) : string := "_" ++ var ++ dec i.
Definition ma_name_fixed (var : string) (i : nat) : string := "_" ++ var ++ "_" ++ dec i.

Lemma ma_name_is_gen_name var i : ma_name var i = gen_name var i.
Proof. reflexivity. Qed.

(* the property "version names and counter names are different objects' names" fails ... *)
Theorem multiassign_collision_refuted :
  ~ (forall var i tag k, In tag polar_tags -> ma_name var i <> gen_name tag k).
Proof.
  intros H. apply (H "t" 1 "t" 1); [right; right; right; left; reflexivity | reflexivity].
Qed.

(* ... exactly for tag-named variables (among variables not ending in a digit), and then only
   at ONE value of the counter: the collision is an accident of the process history *)
Theorem multiassign_collision_iff var i tag k :
  ends_nondigit var = true -> ends_nondigit tag = true ->
  (ma_name var i = gen_name tag k <-> var = tag /\ i = k).
Proof.
  intros Hv Ht. split.
  - intros H. apply (gen_name_injective_tags var tag i k Hv Ht H).
  - intros [-> ->]. reflexivity.
Qed.

(* the counter k0 + j of the j-th name generated after k0 earlier ones hits the version index
   i for exactly one k0: with any other history there is no collision *)
Corollary multiassign_collision_depends_on_history var i j k0 k0' :
  ends_nondigit var = true ->
  ma_name var i = gen_name var (k0 + j) -> ma_name var i = gen_name var (k0' + j) -> k0 = k0'.
Proof.
  intros Hv H1 H2. rewrite H1 in H2. apply gen_name_injective in H2.
  apply (Nat.add_cancel_r k0 k0' j). exact H2.
Qed.

Fixpoint ends_underscore (s : string) : bool :=
  match s with
  | "" => false
  | String c "" => Ascii.eqb c "_"
  | String _ r => ends_underscore r
  end.

Lemma ends_underscore_app v : ends_underscore (v ++ "_") = true.
Proof.
  induction v as [|c r IH]; [reflexivity|].
  cbn [append]. destruct (r ++ "_") eqn:E.
  - destruct r; discriminate E.
  - cbn [ends_underscore]. exact IH.
Qed.

Lemma ends_underscore_nondigit s : ends_underscore s = true -> ends_nondigit s = true.
Proof.
  induction s as [|c r IH]; [discriminate|]. cbn [ends_underscore ends_nondigit].
  destruct r; [|exact IH]. intros H. apply Ascii.eqb_eq in H. subst c. reflexivity.
Qed.

Lemma app_assoc_str (a b c : string) : (a ++ b) ++ c = a ++ (b ++ c).
Proof. induction a as [|x a IH]; cbn [append]; [reflexivity | rewrite IH; reflexivity]. Qed.

Lemma ma_name_fixed_is_gen_name var i : ma_name_fixed var i = gen_name (var ++ "_") i.
Proof. unfold ma_name_fixed, gen_name. rewrite app_assoc_str. reflexivity. Qed.

Theorem multiassign_fixed_never_collides var i tag k :
  ends_nondigit tag = true -> ends_underscore tag = false -> ma_name_fixed var i <> gen_name tag k.
Proof.
  intros Ht Hu H. rewrite ma_name_fixed_is_gen_name in H.
  apply gen_name_injective_tags in H; [|apply ends_underscore_nondigit, ends_underscore_app | exact Ht].
  destruct H as [H _]. rewrite <- H, ends_underscore_app in Hu. discriminate Hu.
Qed.

Lemma polar_tags_no_underscore_end : forallb (fun t => ends_nondigit t && negb (ends_underscore t)) polar_tags = true.
Proof. vm_compute. reflexivity. Qed.

Corollary multiassign_fixed_never_collides_polar var i tag k :
  In tag polar_tags -> ma_name_fixed var i <> gen_name tag k.
Proof.
  intros Hin. pose proof polar_tags_no_underscore_end as H. rewrite forallb_forall in H.
  specialize (H tag Hin). apply andb_true_iff in H. destruct H as [H1 H2].
  apply multiassign_fixed_never_collides; [exact H1 | apply negb_true_iff, H2].
Qed.

(* The rule in force since /repo 156ba8a + e4a742c:
     MultiAssignTransformer:  name = "_" + var + str(i);  while reserved(name) or name in used: name = "_" + name
     get_unique_var:          name = "_" + tag + str(counter++); while name in reserved: next counter
   [avoid] = identifiers of the program text + variables of the program.  Both loops are
   modelled with fuel = number of names to avoid (each failed attempt rules one of them out). *)
Definition mem_str (s : string) (l : list string) : bool := existsb (String.eqb s) l.
Lemma mem_str_In s l : mem_str s l = true <-> In s l.
Proof.
  unfold mem_str. rewrite existsb_exists. split.
  - intros [x [Hin He]]. apply String.eqb_eq in He. subst. exact Hin.
  - intros H. exists s. split; [exact H | apply String.eqb_refl].
Qed.

(* Both loops walk along an injective sequence of candidates c j, c (j+1), ... until one is
   not in [avoid].  With fuel >= |avoid| the candidate they stop at is not in [avoid]:
   otherwise fuel + 1 distinct candidates would all be members of [avoid]. *)
Section FirstFree.
  Variable c : nat -> string.
  Hypothesis c_inj : forall i j, c i = c j -> i = j.

  Fixpoint first_free (avoid : list string) (fuel j : nat) : nat :=
    match fuel with
    | O => j
    | S f => if mem_str (c j) avoid then first_free avoid f (S j) else j
    end.

  Lemma first_free_ge avoid : forall fuel j, j <= first_free avoid fuel j.
  Proof.
    induction fuel as [|f IH]; intros j; cbn [first_free]; [apply Nat.le_refl|].
    destruct (mem_str (c j) avoid); [|apply Nat.le_refl].
    apply Nat.le_trans with (S j); [apply Nat.le_succ_diag_r | apply IH].
  Qed.

  Lemma first_free_tried avoid : forall fuel j,
    In (c (first_free avoid fuel j)) avoid -> incl (map c (seq j (S fuel))) avoid.
  Proof.
    induction fuel as [|f IH]; intros j; cbn [first_free].
    - intros H x [<-|[]]. exact H.
    - destruct (mem_str (c j) avoid) eqn:E; intros H.
      + intros x [<-|Hx]; [apply mem_str_In; exact E | exact (IH (S j) H x Hx)].
      + apply mem_str_In in H. rewrite H in E. discriminate E.
  Qed.

  Lemma first_free_fresh avoid fuel j :
    List.length avoid <= fuel -> ~ In (c (first_free avoid fuel j)) avoid.
  Proof.
    intros Hl Hin. apply first_free_tried, NoDup_incl_length in Hin.
    - rewrite map_length, seq_length in Hin. exact (Nat.nle_succ_diag_l _ (Nat.le_trans _ _ _ Hin Hl)).
    - apply FinFun.Injective_map_NoDup; [exact c_inj | apply seq_NoDup].
  Qed.
End FirstFree.

Fixpoint prefix_until (avoid : list string) (fuel : nat) (nm : string) : string :=
  match fuel with
  | O => nm
  | S f => if mem_str nm avoid then prefix_until avoid f ("_" ++ nm) else nm
  end.
Definition version_name (avoid : list string) (var : string) (i : nat) : string :=
  prefix_until avoid (List.length avoid) (ma_name var i).

(* the candidates of [prefix_until]: nm, "_" ++ nm, "__" ++ nm, ... *)
Fixpoint underscored (nm : string) (j : nat) : string :=
  match j with O => nm | S j' => "_" ++ underscored nm j' end.

Lemma underscored_inj nm i j : underscored nm i = underscored nm j -> i = j.
Proof.
  assert (L : forall n, String.length (underscored nm n) = n + String.length nm).
  { induction n as [|n IH]; [reflexivity|]. cbn [underscored append String.length]. rewrite IH. reflexivity. }
  intros H. apply (f_equal String.length) in H. rewrite !L in H. exact (proj1 (Nat.add_cancel_r _ _ _) H).
Qed.

Lemma prefix_until_first_free avoid nm : forall fuel j,
  prefix_until avoid fuel (underscored nm j) = underscored nm (first_free (underscored nm) avoid fuel j).
Proof.
  induction fuel as [|f IH]; intros j; cbn [prefix_until first_free]; [reflexivity|].
  destruct (mem_str (underscored nm j) avoid); [apply (IH (S j)) | reflexivity].
Qed.

(* a version name is never an identifier of the program text nor an existing variable *)
Theorem version_name_avoids avoid var i : ~ In (version_name avoid var i) avoid.
Proof.
  unfold version_name. rewrite (prefix_until_first_free avoid (ma_name var i) _ 0 : prefix_until _ _ (ma_name var i) = _).
  apply first_free_fresh; [apply underscored_inj | apply Nat.le_refl].
Qed.

Fixpoint unique_var (reserved : list string) (fuel : nat) (tag : string) (k : nat) : string * nat :=
  match fuel with
  | O => (gen_name tag k, S k)
  | S f => if mem_str (gen_name tag k) reserved then unique_var reserved f tag (S k) else (gen_name tag k, S k)
  end.

Lemma unique_var_first_free reserved tag : forall fuel k,
  unique_var reserved fuel tag k
  = (gen_name tag (first_free (gen_name tag) reserved fuel k), S (first_free (gen_name tag) reserved fuel k)).
Proof.
  induction fuel as [|f IH]; intros k; cbn [unique_var first_free]; [reflexivity|].
  destruct (mem_str (gen_name tag k) reserved); [apply IH | reflexivity].
Qed.

(* get_unique_var never returns a reserved name, and the counter moves on *)
Theorem unique_var_avoids reserved tag k :
  ~ In (fst (unique_var reserved (List.length reserved) tag k)) reserved /\ k < snd (unique_var reserved (List.length reserved) tag k).
Proof.
  rewrite unique_var_first_free. cbn [fst snd]. split.
  - apply first_free_fresh; [apply gen_name_injective | apply Nat.le_refl].
  - apply Nat.lt_succ_r, first_free_ge.
Qed.

(* the gap that remained under the rule of /repo e4a742c (before 221667c): version names were not
   registered, so a name handed out LATER by get_unique_var could equal a version name — for
   exactly one counter value *)
Theorem version_then_counter_collision_old_rule_refuted :
  ~ (forall avoid reserved var i tag k,
       (forall x, In x reserved -> In x avoid) ->
       fst (unique_var reserved (List.length reserved) tag k) <> version_name avoid var i).
Proof.
  intros H. apply (H ["r"; "f"; "g"; "x"; "_old0"] ["r"; "f"; "g"; "x"] "r" 1 "r" 1).
  - intros x Hx. exact (in_or_app _ ["_old0"] x (or_introl Hx)).
  - reflexivity.
Qed.

(* rule since /repo 221667c: every version name is registered as reserved; no later counter name
   equals a version name, whatever the counter *)
Theorem reserved_versions_never_collide avoid reserved var i tag k :
  In (version_name avoid var i) reserved ->
  fst (unique_var reserved (List.length reserved) tag k) <> version_name avoid var i.
Proof.
  intros Hin Heq. apply (proj1 (unique_var_avoids reserved tag k)). rewrite Heq. exact Hin.
Qed.

(* MultiAssignTransformer since 221667c: pick the version name, register it *)
Definition register_version (avoid reserved : list string) (var : string) (i : nat) : string * list string :=
  let nm := version_name avoid var i in (nm, nm :: reserved).

Theorem later_names_avoid_versions avoid reserved var i tag k :
  let '(nm, reserved') := register_version avoid reserved var i in
  fst (unique_var reserved' (List.length reserved') tag k) <> nm /\ ~ In nm avoid.
Proof.
  unfold register_version. split.
  - apply reserved_versions_never_collide. left. reflexivity.
  - apply version_name_avoids.
Qed.
