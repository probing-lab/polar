(* C05: the result of the typer model (Typer.typer_run) is a post-fixpoint accepted by the
   verified validator Types.check_types, for every flat program.  The final state is a
   fixedpoint reached by a round of _progress in which nothing changed, so every assignment is
   stable in it: its values, computed from the final state, lie within the values of its
   variable.  A numeric result of _get_values_for_expr holds the value of the expression under
   every valuation by the values of its variables, hence contains the validator's set. *)
From Coq Require Import List String QArith Qcanon ZArith Bool Arith Lia.
From Polar Require Import Qcx Dist Syntax Sem Types Poly PassCNBase Typer.
Import ListNotations.
Local Open Scope Qc_scope.

Lemma val_eqb_eq a b : val_eqb a b = true <-> a = b.
Proof.
  destruct a as [x|], b as [y|]; cbn [val_eqb]; split; intros H; try discriminate; try reflexivity.
  - f_equal. apply Qc_eqb_true; exact H.
  - injection H as ->. apply Qc_eqb_refl.
Qed.

Lemma vmem_In v l : vmem v l = true <-> In v l.
Proof.
  induction l as [|w l IH]; cbn [vmem In]; [split; [discriminate | tauto]|].
  rewrite orb_true_iff, IH, val_eqb_eq. split; intros [H|H]; auto.
Qed.

Lemma vsubset_In a b : vsubset a b = true <-> (forall v, In v a -> In v b).
Proof.
  unfold vsubset. rewrite forallb_forall. split; intros H v Hv.
  - apply vmem_In, H, Hv.
  - apply vmem_In, H, Hv.
Qed.

Lemma In_vadd acc v w : In w (vadd acc v) <-> In w acc \/ w = v.
Proof.
  unfold vadd. destruct (vmem v acc) eqn:E.
  - apply vmem_In in E. split; [auto | intros [H| ->]; auto].
  - rewrite in_app_iff. cbn [In]. split; intros [H|H]; auto.
    + destruct H as [H|[]]; auto.
Qed.

Lemma In_vunion a b w : In w (vunion a b) <-> In w a \/ In w b.
Proof.
  unfold vunion. revert a; induction b as [|v b IH]; intros a; cbn [fold_left In]; [tauto|].
  rewrite IH, In_vadd. split; [intros [[H| ->]|H] | intros [H|[<-|H]]]; auto.
Qed.

Lemma In_nums q l : In q (nums l) <-> In (Some q) l.
Proof.
  unfold nums. rewrite in_flat_map. split.
  - intros [v [Hv Hq]]. destruct v as [q'|]; [destruct Hq as [->|[]]; exact Hv | destruct Hq].
  - intros H. exists (Some q); split; [exact H | left; reflexivity].
Qed.

(* partially substituted expressions are compared as polynomials: equal up to evaluation *)
Definition pp_equiv (a b : pp) : Prop :=
  match a, b with
  | None, None => True
  | Some p, Some q => forall s, eval_poly p s = eval_poly q s
  | _, _ => False
  end.

Lemma pp_eqb_equiv a b : pp_eqb a b = true -> pp_equiv a b.
Proof.
  destruct a as [p|], b as [q|]; cbn [pp_eqb pp_equiv]; intros H; try discriminate; auto.
  apply pzero_psub_sound. exact H.
Qed.
Lemma pp_equiv_refl a : pp_equiv a a.
Proof. destruct a; cbn [pp_equiv]; auto. Qed.

Lemma pp_mem_equiv p l : pp_mem p l = true -> exists q, In q l /\ pp_equiv p q.
Proof.
  induction l as [|q l IH]; cbn [pp_mem]; intros H; [discriminate|].
  apply orb_true_iff in H. destruct H as [H|H].
  - exists q; split; [left; reflexivity | apply pp_eqb_equiv; exact H].
  - destruct (IH H) as [q' [Hin He]]. exists q'; split; [right; exact Hin | exact He].
Qed.

Lemma pp_add_keeps acc p q : In q acc -> In q (pp_add acc p).
Proof. unfold pp_add. destruct (pp_mem p acc); [auto | intros H; apply in_or_app; left; exact H]. Qed.
Lemma pp_add_has acc p : exists q, In q (pp_add acc p) /\ pp_equiv p q.
Proof.
  unfold pp_add. destruct (pp_mem p acc) eqn:E.
  - apply pp_mem_equiv; exact E.
  - exists p; split; [apply in_or_app; right; left; reflexivity | apply pp_equiv_refl].
Qed.

Lemma pp_fold_keeps l acc q : In q acc -> In q (fold_left pp_add l acc).
Proof.
  revert acc; induction l as [|p l IH]; intros acc H; cbn [fold_left]; [exact H|].
  apply IH, pp_add_keeps, H.
Qed.
Lemma pp_fold_has l acc p : In p l -> exists q, In q (fold_left pp_add l acc) /\ pp_equiv p q.
Proof.
  revert acc; induction l as [|p' l IH]; intros acc H; [destruct H|]. cbn [fold_left].
  destruct H as [->|H].
  - destruct (pp_add_has acc p) as [q [Hin He]]. exists q; split; [apply pp_fold_keeps; exact Hin | exact He].
  - apply IH; exact H.
Qed.
Lemma pp_dedup_has l p : In p l -> exists q, In q (pp_dedup l) /\ pp_equiv p q.
Proof. apply pp_fold_has. Qed.

Lemma eval_psubst1 x q p s : eval_poly (psubst1 x q p) s = eval_poly p (upd s x q).
Proof.
  unfold psubst1. induction p as [|[c m] p IH]; cbn [map eval_poly fst snd]; [reflexivity|].
  rewrite IH, (eval_mono_upd x m s q). ring.
Qed.

Lemma pp_val_num p c : pp_val (Some p) = Some c -> forall s, eval_poly p s = c.
Proof.
  cbn [pp_val]. intros H s. rewrite <- eval_pclean.
  destruct (pclean p) as [|[c' m] r]; [injection H as <-; reflexivity|].
  destruct m as [|? ?]; [|discriminate]. destruct r; [|discriminate].
  injection H as <-. cbn [eval_poly eval_mono]. ring.
Qed.

(* override a state on the listed variables *)
Fixpoint ovf (xs : list var) (f : state) (s : state) : state :=
  match xs with [] => s | x :: xs' => upd (ovf xs' f s) x (f x) end.
Lemma ovf_in xs f s y : In y xs -> ovf xs f s y = f y.
Proof.
  induction xs as [|x xs IH]; cbn [ovf In]; intros H; [destruct H|].
  destruct (var_eqb_spec y x) as [->|Hne]; [apply upd_same|].
  rewrite upd_other by exact Hne. destruct H as [->|H]; [contradiction | exact (IH H)].
Qed.

Lemma flat_map_nil {A B} (f : A -> list B) l : (forall a, f a = []) -> flat_map f l = [].
Proof. intros H. induction l as [|a l IH]; cbn [flat_map]; [reflexivity | rewrite H, IH; reflexivity]. Qed.

Section Values.
  Variable P : tparams.
  Variable syms : list var.

  Notation rd := (rd syms).
  Notation subst_vars := (subst_vars P syms).
  Notation values_for_expr := (values_for_expr P syms).
  Notation assign_values := (assign_values P syms).

  Definition subst_one (st : tstate) (x : var) (res : list pp) : list pp :=
    pp_dedup (flat_map (fun p => map (fun v => pp_subst x v p) (s_vals (rd st x))) res).

  Lemma subst_vars_cons st x xs res res' :
    subst_vars st (x :: xs) res = Some res' ->
    s_fail (rd st x) = false /\ subst_vars st xs (subst_one st x res) = Some res'.
  Proof.
    cbn [Typer.subst_vars]. fold (subst_one st x res). destruct (s_fail (rd st x)); [discriminate|].
    destruct (Nat.ltb _ _); [discriminate | auto].
  Qed.

  Lemma subst_one_has st x res p v : In p res -> In v (s_vals (rd st x)) ->
    exists q, In q (subst_one st x res) /\ pp_equiv (pp_subst x v p) q.
  Proof.
    intros Hp Hv. apply pp_dedup_has, in_flat_map. exists p; split; [exact Hp | apply (in_map (fun v => pp_subst x v p)), Hv].
  Qed.

  (* a set that is empty or holds "not a number" cannot become a non-empty set of numbers *)
  Definition dead (res : list pp) : Prop := res = [] \/ In None res.

  Lemma subst_one_none st x res p v :
    In p res -> In v (s_vals (rd st x)) -> pp_subst x v p = None -> dead (subst_one st x res).
  Proof.
    intros Hp Hv E. destruct (subst_one_has st x res p v Hp Hv) as [q [Hq He]].
    rewrite E in He. right. destruct q; [destruct He | exact Hq].
  Qed.

  Lemma subst_one_dead st x res : dead res -> dead (subst_one st x res).
  Proof.
    intros [->|Hn]; [left; reflexivity|]. destruct (s_vals (rd st x)) as [|v vs] eqn:Ev.
    - left. unfold subst_one. rewrite Ev, flat_map_nil; reflexivity.
    - apply (subst_one_none st x res None v Hn); [rewrite Ev; left; reflexivity | destruct v; reflexivity].
  Qed.

  Definition all_num (vs : list val) : Prop := ~ In None vs.

  Lemma subst_vars_usable st xs res res' :
    subst_vars st xs res = Some res' -> ~ dead res' ->
    ~ dead res /\ forall x, In x xs -> s_fail (rd st x) = false /\ all_num (s_vals (rd st x)).
  Proof.
    revert res; induction xs as [|y xs IH]; intros res H Hlive.
    - injection H as <-. split; [exact Hlive | intros x []].
    - apply subst_vars_cons in H. destruct H as [Ef H]. destruct (IH _ H Hlive) as [Hlive1 Hxs].
      assert (Hlive0 : ~ dead res) by (intros Hd; apply Hlive1, subst_one_dead, Hd).
      split; [exact Hlive0|]. intros x [<-|Hx]; [|exact (Hxs x Hx)]. split; [exact Ef|].
      intros Hbad. apply Hlive1. destruct res as [|p res]; [destruct Hlive0; left; reflexivity|].
      exact (subst_one_none st y (p :: res) p None (or_introl eq_refl) Hbad eq_refl).
  Qed.

  (* every typed valuation is represented in the final set *)
  Lemma subst_vars_complete st (f : state) xs res res' p :
    subst_vars st xs res = Some res' ->
    (forall x, In x xs -> In (Some (f x)) (s_vals (rd st x))) ->
    In (Some p) res ->
    exists p', In (Some p') res' /\ forall s, eval_poly p' s = eval_poly p (ovf xs f s).
  Proof.
    revert res p; induction xs as [|x xs IH]; intros res p H Hf Hp.
    - injection H as <-. exists p; split; [exact Hp | reflexivity].
    - apply subst_vars_cons in H.
      destruct (subst_one_has st x res _ _ Hp (Hf x (or_introl eq_refl))) as [q [Hq He]].
      destruct q as [p1|]; [|destruct He]. cbn [pp_subst pp_equiv] in He.
      destruct (IH _ p1 (proj2 H) (fun y Hy => Hf y (or_intror Hy)) Hq) as [p' [Hp' Hev]].
      exists p'; split; [exact Hp'|]. intros s. cbn [ovf]. rewrite Hev, <- He, eval_pclean, eval_psubst1. reflexivity.
  Qed.

  Lemma var_order_In e x : In x (vars_of e) <-> In x (var_order P e).
  Proof.
    unfold var_order. destruct (tp_rev P).
    - rewrite <- in_rev. symmetry. apply nodup_In.
    - symmetry. apply nodup_In.
  Qed.

  (* _get_values_for_expr: if the result consists of numbers, every variable of the expression
     is usable (not failed, numbers only) and every typed valuation's value is in the result *)
  Lemma values_for_expr_spec st e vs :
    values_for_expr st e = Some vs -> all_num vs ->
    (forall x, In x (vars_of e) -> s_fail (rd st x) = false /\ all_num (s_vals (rd st x))) /\
    (forall f : state, (forall x, In x (vars_of e) -> In (Some (f x)) (s_vals (rd st x))) -> In (Some (eval e f)) vs).
  Proof.
    unfold Typer.values_for_expr. intros H Hnum.
    destruct (Typer.subst_vars P syms st (var_order P e) [Some (of_expr e)]) as [res|] eqn:Es; [|discriminate].
    destruct (is_nil (vunion [] (map pp_val res))) eqn:En; [discriminate|]. injection H as <-.
    assert (Hlive : ~ dead res).
    { intros [->|Hn]; [discriminate En|]. apply Hnum, In_vunion. right. exact (in_map pp_val res None Hn). }
    split.
    - intros x Hx. apply (subst_vars_usable _ _ _ _ Es Hlive), var_order_In, Hx.
    - intros f Hf.
      destruct (subst_vars_complete st f _ _ _ (of_expr e) Es) as [p' [Hp' Hev]].
      + intros x Hx. apply Hf. apply var_order_In; exact Hx.
      + left; reflexivity.
      + assert (Hv : In (pp_val (Some p')) (vunion [] (map pp_val res))).
        { apply In_vunion. right. apply in_map. exact Hp'. }
        destruct (pp_val (Some p')) as [c|] eqn:Ec; [|contradiction].
        pose proof (pp_val_num _ _ Ec f) as E1. rewrite Hev, eval_of_expr in E1.
        rewrite (eval_ext e f (ovf (var_order P e) f f)); [rewrite E1; exact Hv|].
        intros x Hx. symmetry. apply ovf_in. apply var_order_In; exact Hx.
  Qed.

  (* a part of a support that did not fail and lies within [vs] *)
  Definition part_in (vs : list val) (part : option (list val)) : Prop :=
    exists ws, part = Some ws /\ forall v, In v ws -> In v vs.

  Lemma union_parts_spec l acc vs :
    union_parts l acc = Some vs ->
    (forall v, In v acc -> In v vs) /\ (forall part, In part l -> part_in vs part).
  Proof.
    revert acc; induction l as [|[ws|] l IH]; cbn [union_parts]; intros acc H; try discriminate.
    - injection H as <-. split; [auto | intros part []].
    - destruct (IH _ H) as [Hacc Hparts]. split.
      + intros v Hv. apply Hacc, In_vunion. left; exact Hv.
      + intros part [<-|Hp]; [|apply Hparts; exact Hp].
        exists ws; split; [reflexivity|]. intros v Hv. apply Hacc, In_vunion. right; exact Hv.
  Qed.

  Lemma assign_values_parts st g drop vs :
    assign_values st g drop = Some vs -> forall part, In part (support_parts P syms st g drop) -> part_in vs part.
  Proof.
    unfold Typer.assign_values. destruct (union_parts _ []) as [us|] eqn:Eu; [|discriminate].
    destruct (Nat.ltb (tp_max P) (List.length us) || is_nil us); [discriminate|]. intros H; injection H as <-.
    apply (union_parts_spec _ _ _ Eu).
  Qed.
End Values.

(* from value sets that hold the value under every valuation to Types.eval_set / choice_set *)
Lemma eval_set_from_values (T : tenv) (rdv : var -> list val) e (ws : list val) :
  (forall y, In y (vars_of e) -> exists ty, tlookup T y = Some ty /\ forall q, In q ty -> In (Some q) (rdv y)) ->
  (forall f : state, (forall y, In y (vars_of e) -> In (Some (f y)) (rdv y)) -> In (Some (eval e f)) ws) ->
  exists es, eval_set all_vars T e = Some es /\ forall q, In q es -> In (Some q) ws.
Proof.
  intros Hty Hall. unfold eval_set.
  destruct (valuations_some all_vars T (nodup string_dec (vars_of e))) as [envs He].
  { intros x Hx. apply nodup_In in Hx. split; [reflexivity|]. destruct (Hty x Hx) as [ty [H1 _]]. exists ty; exact H1. }
  rewrite He. eexists; split; [reflexivity|].
  intros q Hq. apply in_map_iff in Hq. destruct Hq as [env [<- Henv]].
  apply Hall. intros y Hy.
  destruct (valuations_typed _ _ _ _ _ He Henv y) as [ty [H1 H2]]; [apply nodup_In; exact Hy|].
  destruct (Hty y Hy) as [ty' [H1' H2']]. rewrite H1 in H1'. injection H1' as <-.
  apply H2'. exact H2.
Qed.

Lemma choice_set_from (T : tenv) (Pq : Qc -> Prop) alts :
  (forall pe, In pe alts -> exists es, eval_set all_vars T (snd pe) = Some es /\ forall q, In q es -> Pq q) ->
  exists rs, choice_set all_vars T alts = Some rs /\ forall q, In q rs -> Pq q.
Proof.
  induction alts as [|[p e] alts IH]; cbn [choice_set]; intros H; [exists []; split; [reflexivity | intros q []]|].
  destruct (H (p, e) (or_introl eq_refl)) as [es [He Hes]]. cbn [snd] in He. rewrite He.
  destruct IH as [rs [Hr Hrs]]; [intros pe Hpe; apply H; right; exact Hpe|]. rewrite Hr.
  eexists; split; [reflexivity|]. intros q Hq. apply in_app_or in Hq. destruct Hq; auto.
Qed.

Lemma sfind_sset st x s y : sfind (sset st x s) y = if var_eqb y x then Some s else sfind st y.
Proof.
  induction st as [|[z t] st IH]; cbn [sset sfind]; [reflexivity|].
  destruct (var_eqb_spec x z) as [<-|Hxz]; cbn [sfind].
  - destruct (var_eqb y x); reflexivity.
  - rewrite IH. destruct (var_eqb_spec y z) as [->|_]; [|reflexivity].
    rewrite (proj2 (var_eqb_neq z x)); [reflexivity | auto].
Qed.
Lemma sget_sset st x s y : sget (sset st x s) y = if var_eqb y x then s else sget st y.
Proof. unfold sget. rewrite sfind_sset. destruct (var_eqb y x); reflexivity. Qed.
Lemma shas_sset st x s y : shas (sset st x s) y = var_eqb y x || shas st y.
Proof. unfold shas. rewrite sfind_sset. destruct (var_eqb y x); reflexivity. Qed.

Lemma sfind_In st x s : sfind st x = Some s -> In (x, s) st.
Proof.
  induction st as [|[y t] st IH]; cbn [sfind]; intros H; [discriminate|].
  destruct (var_eqb_spec x y) as [->|_]; [injection H as ->; left; reflexivity | right; exact (IH H)].
Qed.
Lemma sfind_notin st x : ~ In x (map fst st) -> sfind st x = None.
Proof.
  induction st as [|[y t] st IH]; cbn [sfind map fst In]; intros H; [reflexivity|].
  destruct (var_eqb_spec x y) as [->|_]; [destruct H; left; reflexivity | apply IH; tauto].
Qed.
Lemma var_eqb_sym x y : var_eqb x y = var_eqb y x.
Proof. apply Syntax.var_eqb_sym. Qed.

Definition entries_ok (Q : var -> status -> Prop) (st : tstate) : Prop :=
  forall x s, sfind st x = Some s -> Q x s.
Lemma entries_sset Q st x s : entries_ok Q st -> Q x s -> entries_ok Q (sset st x s).
Proof.
  intros H Hs y t. rewrite sfind_sset.
  destruct (var_eqb_spec y x) as [->|_]; [intros E; injection E as <-; exact Hs | apply H].
Qed.

Lemma fold_left_invariant {A B} (I : A -> Prop) (f : A -> B -> A) l a :
  (forall a b, In b l -> I a -> I (f a b)) -> I a -> I (fold_left f l a).
Proof.
  revert a; induction l as [|b l IH]; intros a Hf Ha; cbn [fold_left]; [exact Ha|].
  apply IH; [intros a' b' Hb'; apply Hf; right; exact Hb' | apply Hf; [left; reflexivity | exact Ha]].
Qed.

(* _extract_types as a lookup *)
Lemma tlookup_flat_ok (ok : var -> bool) (v : var -> list Qc) ks x :
  tlookup (flat_map (fun y => if ok y then [(y, v y)] else []) ks) x =
  if mem_var x ks && ok x then Some (v x) else None.
Proof.
  induction ks as [|y ks IH]; cbn [flat_map mem_var existsb]; [reflexivity|]. fold (mem_var x ks).
  destruct (ok y) eqn:Ey; cbn [app tlookup]; destruct (var_eqb_spec x y) as [->|_]; cbn [orb andb]; try exact IH.
  - rewrite Ey. reflexivity.
  - rewrite IH, Ey, andb_false_r. reflexivity.
Qed.

Lemma tlookup_extract st x :
  tlookup (extract st) x = if s_ok (sget st x) then Some (nums (s_vals (sget st x))) else None.
Proof.
  unfold extract.
  rewrite (tlookup_flat_ok (fun y => s_ok (sget st y)) (fun y => nums (s_vals (sget st y)))).
  destruct (mem_var x (nodup string_dec (map fst st))) eqn:Em; [reflexivity|].
  unfold sget. rewrite sfind_notin; [reflexivity|].
  intros H. apply (mem_var_false _ _ Em), nodup_In, H.
Qed.

Lemma In_extract st x vs : In (x, vs) (extract st) -> s_ok (sget st x) = true /\ vs = nums (s_vals (sget st x)).
Proof.
  unfold extract. intros H. apply in_flat_map in H. destruct H as [y [_ H]].
  destruct (s_ok (sget st y)) eqn:E; [|destruct H]. destruct H as [H|[]]. injection H as <- <-. auto.
Qed.

Lemma s_ok_spec s : s_ok s = true <-> s_fail s = false /\ all_num (s_vals s).
Proof.
  unfold s_ok, all_num. rewrite andb_true_iff, negb_true_iff, forallb_forall. split; intros [H1 H2]; split; auto.
  - intros Hn. specialize (H2 None Hn). discriminate.
  - intros [q|] Hv; [reflexivity | contradiction].
Qed.

Lemma all_num_sub (a b : list val) : (forall v, In v a -> In v b) -> all_num b -> all_num a.
Proof. unfold all_num. intros H Hb Ha. apply Hb, H, Ha. Qed.

(* the states differ in has_changed at most *)
Definition core_eq (st st' : tstate) : Prop :=
  forall x, s_vals (sget st x) = s_vals (sget st' x) /\ s_fail (sget st x) = s_fail (sget st' x) /\
            s_lock (sget st x) = s_lock (sget st' x).
Lemma core_eq_refl st : core_eq st st.
Proof. intros x; auto. Qed.
Lemma core_eq_trans a b c : core_eq a b -> core_eq b c -> core_eq a c.
Proof.
  intros H1 H2 x. destruct (H1 x) as [A1 [A2 A3]], (H2 x) as [B1 [B2 B3]].
  repeat split; congruence.
Qed.
Lemma core_eq_sym a b : core_eq a b -> core_eq b a.
Proof. intros H x. destruct (H x) as [A1 [A2 A3]]. auto. Qed.

(* values only grow, failures persist, and a variable is locked only by failing *)
Definition grows (s s' : status) : Prop :=
  (s_fail s = true -> s_fail s' = true) /\ (forall v, In v (s_vals s) -> In v (s_vals s')) /\
  (s_lock s' = true -> s_lock s = true \/ s_fail s' = true).
Lemma grows_refl s : grows s s.
Proof. repeat split; auto. Qed.
Lemma grows_trans a b c : grows a b -> grows b c -> grows a c.
Proof.
  intros [F1 [V1 L1]] [F2 [V2 L2]]. repeat split; auto.
  intros H. destruct (L2 H) as [H'|H']; [destruct (L1 H'); auto | auto].
Qed.

Lemma s_ok_grows s s' : grows s s' -> s_ok s' = true -> s_ok s = true.
Proof.
  intros [F [V _]] H. apply s_ok_spec in H. destruct H as [Hnf Hnum]. apply s_ok_spec. split.
  - destruct (s_fail s); [rewrite (F eq_refl) in Hnf; discriminate Hnf | reflexivity].
  - exact (all_num_sub _ _ V Hnum).
Qed.

Definition st_le (st st' : tstate) : Prop := forall x, grows (sget st x) (sget st' x).
Lemma st_le_refl st : st_le st st.
Proof. intros x; apply grows_refl. Qed.
Lemma st_le_trans a b c : st_le a b -> st_le b c -> st_le a c.
Proof. intros H1 H2 x. exact (grows_trans _ _ _ (H1 x) (H2 x)). Qed.
Lemma st_le_sset st x s' : grows (sget st x) s' -> st_le st (sset st x s').
Proof.
  intros H y. rewrite sget_sset. destruct (var_eqb_spec y x) as [->|_]; [exact H | apply grows_refl].
Qed.

(* invariant: only failed or declared variables are locked *)
Definition lock_inv (D : tenv) (st : tstate) : Prop :=
  forall x, s_lock (sget st x) = true -> s_fail (sget st x) = true \/ mem_var x (map fst D) = true.
Lemma lock_inv_le D st st' : lock_inv D st -> st_le st st' -> lock_inv D st'.
Proof.
  intros H Hle x Hl. destruct (Hle x) as [F [_ L]]. destruct (L Hl) as [Hl0|Hf]; [|left; exact Hf].
  destruct (H x Hl0) as [Hf0|Hd]; [left; exact (F Hf0) | right; exact Hd].
Qed.

Section Rounds.
  Variable P : tparams.
  Variable syms : list var.
  Notation rd := (rd syms).
  Notation assign_values := (assign_values P syms).
  Notation step := (step P syms).
  Notation progress := (progress P syms).

  Definition stable_at (st : tstate) (gd : gassign * bool) : Prop :=
    s_lock (sget st (ga_var (fst gd))) = true \/
    exists new, assign_values st (fst gd) (snd gd) = Some new /\
                forall v, In v new -> In v (s_vals (sget st (ga_var (fst gd)))).

  (* the values of an assignment depend on the state through values and failures only *)
  Section Core.
    Variables st st' : tstate.
    Hypothesis Hcore : core_eq st st'.

    Lemma rd_core x : s_vals (rd st x) = s_vals (rd st' x) /\ s_fail (rd st x) = s_fail (rd st' x).
    Proof. unfold Typer.rd. destruct (mem_var x syms); [auto|]. destruct (Hcore x) as [A [B _]]. auto. Qed.

    Lemma subst_vars_core xs res : subst_vars P syms st xs res = subst_vars P syms st' xs res.
    Proof.
      revert res; induction xs as [|x xs IH]; intros res; cbn [subst_vars]; [reflexivity|].
      destruct (rd_core x) as [A B]. rewrite A, B.
      destruct (s_fail (rd st' x)); [reflexivity|].
      destruct (Nat.ltb _ _); [reflexivity | apply IH].
    Qed.
    Lemma values_for_expr_core e : values_for_expr P syms st e = values_for_expr P syms st' e.
    Proof. unfold values_for_expr. rewrite subst_vars_core. reflexivity. Qed.
    Lemma assign_values_core g drop : assign_values st g drop = assign_values st' g drop.
    Proof.
      unfold Typer.assign_values, support_parts.
      rewrite (values_for_expr_core _).
      destruct (ga_rhs g) as [alts|d]; [|reflexivity].
      rewrite (map_ext _ _ (fun pe => values_for_expr_core (snd pe))). reflexivity.
    Qed.

    Lemma stable_at_core gd : stable_at st gd -> stable_at st' gd.
    Proof.
      intros [Hl|[new [Ha Hs]]]; unfold stable_at.
      - left. destruct (Hcore (ga_var (fst gd))) as [_ [_ E]]. congruence.
      - right. exists new. rewrite <- assign_values_core. split; [exact Ha|].
        destruct (Hcore (ga_var (fst gd))) as [E _]. rewrite <- E. exact Hs.
    Qed.
  End Core.

  (* _update_variable_status: either the status is kept (has_changed reset) and the assignment
     is stable, or it is replaced by a larger one that has_changed *)
  Lemma step_cases st gd :
    (step st gd = sset st (ga_var (fst gd)) (set_chg (sget st (ga_var (fst gd))) false) /\ stable_at st gd) \/
    (exists s', step st gd = sset st (ga_var (fst gd)) s' /\ s_chg s' = true /\ grows (sget st (ga_var (fst gd))) s').
  Proof.
    unfold Typer.step, stable_at, grows. cbv zeta. set (x := ga_var (fst gd)).
    destruct (s_lock (sget st x)) eqn:El; [left; auto|].
    destruct (Typer.assign_values P syms st (fst gd) (snd gd)) as [new|].
    - destruct (vsubset new (s_vals (sget st x))) eqn:Es.
      + left. split; [reflexivity|]. right. exists new; split; [reflexivity | apply vsubset_In, Es].
      + right. eexists; split; [reflexivity|]. cbn. repeat split; auto.
        intros v Hv. apply In_vunion. left; exact Hv.
    - right. eexists; split; [reflexivity|]. cbn. repeat split; auto.
  Qed.

  Lemma grows_set_chg s b : grows s (set_chg s b).
  Proof. exact (grows_refl s). Qed.
  Lemma core_eq_set_chg st x b : core_eq st (sset st x (set_chg (sget st x) b)).
  Proof.
    intros y. rewrite sget_sset. destruct (var_eqb_spec y x) as [->|_]; cbn; auto.
  Qed.

  Lemma step_other st gd y : var_eqb y (ga_var (fst gd)) = false -> sget (step st gd) y = sget st y.
  Proof.
    intros E. destruct (step_cases st gd) as [[-> _]|[s' [-> _]]]; rewrite sget_sset, E; reflexivity.
  Qed.
  Lemma step_le st gd : st_le st (step st gd).
  Proof.
    destruct (step_cases st gd) as [[-> _]|[s' [-> [_ H]]]]; apply st_le_sset; [apply grows_set_chg | exact H].
  Qed.

  Lemma progress_other body st y :
    ~ In y (map (fun gd : gassign * bool => ga_var (fst gd)) body) -> sget (progress body st) y = sget st y.
  Proof.
    unfold Typer.progress. revert st; induction body as [|gd body IH]; intros st H; cbn [fold_left]; [reflexivity|].
    rewrite IH; [|intros Hin; apply H; right; exact Hin].
    apply step_other, var_eqb_neq. intros E. apply H. left. symmetry; exact E.
  Qed.

  Lemma progress_le body st : st_le st (progress body st).
  Proof.
    unfold Typer.progress. revert st; induction body as [|gd body IH]; intros st; cbn [fold_left]; [apply st_le_refl|].
    eapply st_le_trans; [apply step_le | apply IH].
  Qed.

  (* a round after which nobody has_changed changed nothing and every assignment is stable *)
  Lemma progress_stable body st :
    NoDup (map (fun gd : gassign * bool => ga_var (fst gd)) body) ->
    (forall gd, In gd body -> s_chg (sget (progress body st) (ga_var (fst gd))) = false) ->
    core_eq st (progress body st) /\ forall gd, In gd body -> stable_at (progress body st) gd.
  Proof.
    unfold Typer.progress. revert st; induction body as [|gd body IH]; intros st Hnd Hchg; cbn [fold_left].
    - split; [apply core_eq_refl | intros gd []].
    - cbn [map] in Hnd. inversion Hnd as [|? ? Hnotin Hnd']; subst.
      assert (Hx : s_chg (sget (step st gd) (ga_var (fst gd))) = false).
      { rewrite <- (progress_other body (step st gd) _ Hnotin). apply (Hchg gd). left; reflexivity. }
      destruct (step_cases st gd) as [[E Hst]|[s' [E [Hc _]]]];
        [|rewrite E, sget_sset, var_eqb_refl in Hx; congruence].
      assert (Hcore : core_eq st (step st gd)) by (rewrite E; apply core_eq_set_chg).
      destruct (IH (step st gd) Hnd') as [Hcore' Hst'].
      { intros gd' Hin. apply (Hchg gd'). right; exact Hin. }
      split; [eapply core_eq_trans; eauto|].
      intros gd' [<-|Hin]; [|apply Hst'; exact Hin].
      eapply stable_at_core; [|exact Hst]. eapply core_eq_trans; eauto.
  Qed.

  Lemma fixedpoint_chg st x : fixedpoint st = true -> s_chg (sget st x) = false.
  Proof.
    unfold fixedpoint, sget. intros H. destruct (sfind st x) as [s|] eqn:E; [|reflexivity].
    rewrite forallb_forall in H. specialize (H (x, s) (sfind_In _ _ _ E)). cbn [snd] in H.
    apply negb_true_iff in H. exact H.
  Qed.

  (* _fail_changed_variables *)
  Lemma sfind_fail_changed st x :
    sfind (fail_changed st) x = option_map (fun s => if s_chg s then failed_of s else s) (sfind st x).
  Proof.
    unfold fail_changed. induction st as [|[y t] st IH]; cbn [map sfind fst snd option_map]; [reflexivity|].
    destruct (var_eqb x y); [reflexivity | exact IH].
  Qed.
  Lemma sget_fail_changed st x :
    sget (fail_changed st) x = if s_chg (sget st x) then failed_of (sget st x) else sget st x.
  Proof.
    unfold sget. rewrite sfind_fail_changed. destruct (sfind st x) as [s|]; cbn [option_map]; reflexivity.
  Qed.
  Lemma fail_changed_le st : st_le st (fail_changed st).
  Proof.
    intros x. rewrite sget_fail_changed. destruct (s_chg (sget st x)); [|apply grows_refl].
    unfold grows. cbn. auto.
  Qed.

  (* the two loops: the result is the start state or the result of a round *)
  Definition after_round (body : list (gassign * bool)) (st r : tstate) : Prop :=
    r = st \/ exists st', r = progress body st'.

  Lemma phase1_spec body n st :
    st_le st (phase1 P syms body n st) /\ after_round body st (phase1 P syms body n st).
  Proof.
    revert st; induction n as [|n IH]; intros st; cbn [phase1]; [split; [apply st_le_refl | left; reflexivity]|].
    destruct (fixedpoint (progress body st)).
    - split; [apply progress_le | right; exists st; reflexivity].
    - destruct (IH (progress body st)) as [H1 H2]. split; [exact (st_le_trans _ _ _ (progress_le body st) H1)|].
      right. destruct H2 as [->|H2]; [exists st; reflexivity | exact H2].
  Qed.

  Lemma cascade_spec body fuel st r : cascade P syms body fuel st = Some r ->
    fixedpoint r = true /\ st_le st r /\ after_round body st r.
  Proof.
    revert st; induction fuel as [|fuel IH]; intros st; cbn [cascade]; destruct (fixedpoint st) eqn:Ef; intros H;
      try discriminate; try (injection H as <-; split; [exact Ef | split; [apply st_le_refl | left; reflexivity]]).
    destruct (IH _ H) as [H1 [H2 H3]]. split; [exact H1 | split].
    - exact (st_le_trans _ _ _ (fail_changed_le st) (st_le_trans _ _ _ (progress_le body _) H2)).
    - right. destruct H3 as [->|H3]; [eexists; reflexivity | exact H3].
  Qed.
End Rounds.

(* _infer_types: the final state is a fixedpoint above the initial state, and it is the
   initial state itself or the result of a round *)
Lemma typer_state_spec P syms fp D implied drops st :
  typer_state P syms fp D implied drops = Some st ->
  applicable fp = true /\ fixedpoint st = true /\ st_le (init_state P syms fp D implied) st /\
  after_round P syms (zip_drops (fp_body fp) drops) (init_state P syms fp D implied) st.
Proof.
  unfold typer_state. destruct (applicable fp); [|discriminate]. intros H.
  destruct (phase1_spec P syms (zip_drops (fp_body fp) drops) (tp_iters P) (init_state P syms fp D implied)) as [Hle1 Ha1].
  destruct (cascade_spec P syms _ _ _ st H) as [Hfix [Hle Ha]].
  split; [reflexivity | split; [exact Hfix | split; [exact (st_le_trans _ _ _ Hle1 Hle)|]]].
  destruct Ha as [->|Ha]; [exact Ha1 | right; exact Ha].
Qed.

(* a stable assignment passes the validator's test *)
Section Body.
  Variable P : tparams.
  Variable syms : list var.
  Notation rd := (rd syms).

  (* what a type environment must offer: a type for every variable the model can use, within
     the values the model has for it *)
  Definition offers (T : tenv) (st : tstate) : Prop :=
    forall y, s_ok (sget st y) = true ->
              exists ty, tlookup T y = Some ty /\ forall q, In q ty -> In (Some q) (s_vals (sget st y)).

  Lemma offers_extract st : offers (extract st) st.
  Proof.
    intros y Hok. rewrite tlookup_extract, Hok. eexists; split; [reflexivity|]. intros q Hq. apply In_nums; exact Hq.
  Qed.

  Lemma with_default_neq g drop : ga_cond g <> CTrue -> with_default g drop = negb drop.
  Proof. unfold with_default. destruct (ga_cond g); intros H; try reflexivity. congruence. Qed.

  Section Offered.
    Variable T : tenv.
    Variable st : tstate.
    Hypothesis HT : offers T st.

    (* a symbolic constant reads as "not a number", so a usable variable is read from the state *)
    Lemma offers_rd y : s_fail (rd st y) = false -> all_num (s_vals (rd st y)) ->
      exists ty, tlookup T y = Some ty /\ forall q, In q ty -> In (Some q) (s_vals (rd st y)).
    Proof.
      unfold Typer.rd. destruct (mem_var y syms).
      - intros _ H. exfalso. apply H. left; reflexivity.
      - intros H1 H2. apply HT, s_ok_spec. auto.
    Qed.

    Lemma expr_part e new :
      all_num new -> part_in new (values_for_expr P syms st e) ->
      exists es, eval_set all_vars T e = Some es /\ forall q, In q es -> In (Some q) new.
    Proof.
      intros Hnum [ws [Hv Hsub]].
      destruct (values_for_expr_spec P syms st e ws Hv (all_num_sub _ _ Hsub Hnum)) as [Hvars Hall].
      apply (eval_set_from_values T (fun y => s_vals (rd st y))).
      - intros y Hy. destruct (Hvars y Hy) as [H1 H2]. exact (offers_rd y H1 H2).
      - intros f Hf. apply Hsub, Hall, Hf.
    Qed.

    Lemma assign_rhs_part g drop new :
      assign_values P syms st g drop = Some new -> all_num new ->
      exists rs, rhs_set all_vars T (ga_rhs g) = Some rs /\ forall q, In q rs -> In (Some q) new.
    Proof.
      intros Ha Hnum. pose proof (assign_values_parts P syms st g drop new Ha) as Hparts.
      unfold support_parts in Hparts. destruct (ga_rhs g) as [alts|d]; cbn [rhs_set].
      - apply (choice_set_from T (fun q => In (Some q) new)). intros pe Hpe.
        apply (expr_part (snd pe) new Hnum), Hparts, in_or_app. left.
        exact (in_map (fun pe => values_for_expr P syms st (snd pe)) alts pe Hpe).
      - destruct (Hparts (draw_vals d) (or_introl eq_refl)) as [ws [Hws Hsub]].
        destruct d as [p|ps|a b|f args]; cbn [draw_vals] in Hws; try discriminate; injection Hws as <-;
          (eexists; split; [reflexivity|]); intros q Hq; apply Hsub.
        + destruct Hq as [<-|[<-|[]]]; cbn [In]; auto.
        + apply in_map; exact Hq.
        + apply in_map; exact Hq.
    Qed.

    (* the default's own values are part of the support unless the assignment is unconditional *)
    Lemma assign_default_part g new :
      assign_values P syms st g false = Some new -> all_num new -> ga_cond g <> CTrue ->
      exists ds, tlookup T (ga_default g) = Some ds /\ forall q, In q ds -> In (Some q) new.
    Proof.
      intros Ha Hnum Hc.
      destruct (assign_values_parts P syms st g false new Ha (values_for_expr P syms st (EVar (ga_default g))))
        as [ws [Hv Hsub]].
      { unfold support_parts. apply in_or_app. right. rewrite (with_default_neq g false Hc). left; reflexivity. }
      destruct (values_for_expr_spec P syms st _ ws Hv (all_num_sub _ _ Hsub Hnum)) as [Hvars Hall].
      destruct (Hvars _ (or_introl eq_refl)) as [H1 H2]. destruct (offers_rd _ H1 H2) as [ty [Hty Hin]].
      exists ty; split; [exact Hty|]. intros q Hq.
      apply Hsub, (Hall (fun _ => q)). intros y [<-|[]]. apply Hin; exact Hq.
    Qed.
  End Offered.

  Definition drop_harmless (g : gassign) (drop : bool) : bool :=
    negb drop || match ga_cond g with CTrue => true | _ => var_eqb (ga_default g) (ga_var g) end.

  Lemma check_ga_of_stable D st g drop :
    lock_inv D st -> stable_at P syms st (g, drop) ->
    mem_var (ga_var g) (map fst D) = false -> drop_harmless g drop = true ->
    check_ga (extract st) g = true.
  Proof.
    intros Hinv Hst HnD Hdrop. apply check_ga_iff. intros vs. rewrite tlookup_extract.
    destruct (s_ok (sget st (ga_var g))) eqn:Eok; [|discriminate]. intros E. injection E as <-.
    pose proof (proj1 (s_ok_spec _) Eok) as [Hnf Hnum].
    destruct Hst as [Hl|[new [Ha Hsub]]]; cbn [fst snd] in *.
    { destruct (Hinv _ Hl) as [H|H]; congruence. }
    pose proof (all_num_sub _ _ Hsub Hnum) as Hnewnum. split.
    - destruct (assign_rhs_part (extract st) st (offers_extract st) g drop new Ha Hnewnum) as [rs [Hrs Hin]].
      exists rs; split; [exact Hrs|]. apply subset_complete. intros q Hq. apply In_nums, Hsub, Hin, Hq.
    - intros Hc. destruct drop.
      + (* the dropped default is the assigned variable itself *)
        unfold drop_harmless in Hdrop. cbn [negb orb] in Hdrop.
        assert (E : var_eqb (ga_default g) (ga_var g) = true) by (destruct (ga_cond g); congruence).
        apply var_eqb_eq in E. rewrite E, tlookup_extract, Eok.
        eexists; split; [reflexivity|]. apply subset_complete. auto.
      + destruct (assign_default_part (extract st) st (offers_extract st) g new Ha Hnewnum Hc) as [ds [Hds Hind]].
        exists ds; split; [exact Hds|]. apply subset_complete. intros q Hq. apply In_nums, Hsub, Hind, Hq.
  Qed.
End Body.

Fixpoint nodupb (l : list var) : bool :=
  match l with [] => true | x :: l' => negb (mem_var x l') && nodupb l' end.
Lemma nodupb_NoDup l : nodupb l = true -> NoDup l.
Proof.
  induction l as [|x l IH]; cbn [nodupb]; intros H; [constructor|].
  apply andb_true_iff in H. destruct H as [H1 H2]. apply negb_true_iff in H1.
  constructor; [apply mem_var_false; exact H1 | apply IH; exact H2].
Qed.

Lemma zip_drops_vars body drops :
  map (fun gd : gassign * bool => ga_var (fst gd)) (zip_drops body drops) = map ga_var body.
Proof. revert drops; induction body as [|g body IH]; intros drops; cbn [zip_drops map fst]; [reflexivity | rewrite IH; reflexivity]. Qed.
Lemma zip_drops_In body drops g : In g body -> exists d, In (g, d) (zip_drops body drops).
Proof.
  revert drops; induction body as [|g' body IH]; intros drops H; [destruct H|]. cbn [zip_drops].
  destruct H as [->|H]; [eexists; left; reflexivity|]. destruct (IH (tl drops) H) as [d Hd]. exists d; right; exact Hd.
Qed.

Definition drops_harmless (body : list gassign) (drops : list bool) : bool :=
  forallb (fun gd : gassign * bool => drop_harmless (fst gd) (snd gd)) (zip_drops body drops).
Definition body_single (fp : flatprog) : bool := nodupb (map ga_var (fp_body fp)).

(* _initialize_state ([Typer.init_state]) builds a state from which the rounds can start *)
Section Init.
  Variable P : tparams.
  Variable syms : list var.

  Definition init_status (st : tstate) (g : gassign) : status :=
    match assign_values P syms st g false with
    | Some vs => {| s_vals := vs; s_chg := true; s_fail := false; s_lock := false |}
    | None => {| s_vals := []; s_chg := true; s_fail := true; s_lock := true |}
    end.
  Lemma init_step_eq D st g :
    init_step P syms D st g =
    if mem_var (ga_var g) (map fst D) then st else sset st (ga_var g) (init_status st g).
  Proof. unfold init_step, init_status. destruct (assign_values P syms st g false); reflexivity. Qed.

  Variable D : tenv.

  (* an entry of the initial state is locked only if it failed or is declared, and has_changed
     unless it is declared *)
  Definition fresh_entry (x : var) (s : status) : Prop :=
    (s_lock s = true -> s_fail s = true \/ mem_var x (map fst D) = true) /\
    (mem_var x (map fst D) = false -> s_chg s = true).

  Lemma fresh_entry_unlocked x vs : fresh_entry x {| s_vals := vs; s_chg := true; s_fail := false; s_lock := false |}.
  Proof. split; cbn; [discriminate | reflexivity]. Qed.

  Lemma init_state_fresh_entries fp implied : entries_ok fresh_entry (init_state P syms fp D implied).
  Proof.
    unfold init_state.
    assert (H : entries_ok fresh_entry (fold_left (init_step P syms D) (fp_init fp) (declared_state D))).
    { apply (fold_left_invariant (entries_ok fresh_entry));
        [|unfold declared_state; apply (fold_left_invariant (entries_ok fresh_entry)); [|intros x s E; discriminate E]].
      - intros st g _ H. rewrite init_step_eq. destruct (mem_var (ga_var g) (map fst D)); [exact H|].
        apply entries_sset; [exact H|]. unfold init_status.
        destruct (assign_values P syms st g false); [apply fresh_entry_unlocked | split; cbn; auto].
      - intros st xt Hin H. apply entries_sset; [exact H|].
        pose proof (mem_var_In _ _ (in_map fst _ _ Hin)) as Hd.
        split; cbn; [auto | intros E; rewrite Hd in E; discriminate E]. }
    revert H. generalize (fold_left (init_step P syms D) (fp_init fp) (declared_state D)) (@nil var).
    revert implied; induction (fp_body fp) as [|g body IH]; intros implied st running H; cbn [body_init]; [exact H|].
    apply IH. destruct (shas st (ga_var g)); [exact H | apply entries_sset; [exact H | apply fresh_entry_unlocked]].
  Qed.

  Lemma fresh_entries_lock_inv st : entries_ok fresh_entry st -> lock_inv D st.
  Proof.
    intros H x. unfold sget. destruct (sfind st x) as [s|] eqn:E; [apply (H x s E) | left; reflexivity].
  Qed.

  Lemma body_init_keeps body implied running st x :
    shas st x = true -> sget (body_init body implied running st) x = sget st x.
  Proof.
    revert implied running st; induction body as [|g body IH]; intros implied running st H; cbn [body_init]; [reflexivity|].
    destruct (shas st (ga_var g)) eqn:Eh; [apply IH; exact H|].
    assert (E : var_eqb x (ga_var g) = false) by (apply var_eqb_neq; intros ->; congruence).
    rewrite IH, sget_sset, E; [reflexivity | rewrite shas_sset, E; exact H].
  Qed.
End Init.

(* the body part of the post-fixpoint, for any declared types *)
Theorem typer_state_body P syms fp D implied drops st :
  typer_state P syms fp D implied drops = Some st ->
  body_single fp = true -> drops_harmless (fp_body fp) drops = true ->
  forall g, In g (fp_body fp) -> mem_var (ga_var g) (map fst D) = false -> check_ga (extract st) g = true.
Proof.
  intros Hc Hsingle Hdrops g Hg HgD.
  destruct (typer_state_spec _ _ _ _ _ _ _ Hc) as [_ [Hfix [Hle Ha]]].
  pose proof (init_state_fresh_entries P syms D fp implied) as H0.
  destruct Ha as [->|[st' ->]].
  - (* no round was run and nobody has_changed: only declared variables have entries *)
    unfold check_ga. rewrite tlookup_extract.
    pose proof (fixedpoint_chg _ (ga_var g) Hfix) as Hchg. revert Hchg. unfold sget.
    destruct (sfind _ (ga_var g)) as [s|] eqn:E; [|reflexivity].
    intros Hchg. rewrite (proj2 (H0 _ s E) HgD) in Hchg. discriminate Hchg.
  - destruct (zip_drops_In (fp_body fp) drops g Hg) as [d Hd].
    destruct (progress_stable P syms (zip_drops (fp_body fp) drops) st') as [_ Hst].
    + rewrite zip_drops_vars. apply nodupb_NoDup. exact Hsingle.
    + intros gd _. apply fixedpoint_chg. exact Hfix.
    + apply (check_ga_of_stable P syms D _ g d); [|apply (Hst (g, d) Hd) | exact HgD|].
      * exact (lock_inv_le D _ _ (fresh_entries_lock_inv D _ H0) Hle).
      * unfold drops_harmless in Hdrops. rewrite forallb_forall in Hdrops. apply (Hdrops (g, d) Hd).
Qed.

(* the initial block (no declared types): the model's pass over the initial assignments
   computes supersets of the validator's flow-sensitive environment Types.init_env *)
Section InitBlock.
  Variable P : tparams.
  Variable syms : list var.
  Variable D' : tenv.

  Lemma offers_init_step st L g :
    offers (L ++ D') st -> offers (init_env_step D' L g ++ D') (init_step P syms [] st g).
  Proof.
    intros HR y. rewrite init_step_eq. cbn [map mem_var existsb]. rewrite sget_sset.
    destruct (var_eqb_spec y (ga_var g)) as [->|Hne].
    - unfold init_status. destruct (assign_values P syms st g false) as [vs|] eqn:Ea; [|discriminate].
      intros Hok. apply s_ok_spec in Hok. destruct Hok as [_ Hnum]. cbn [s_vals] in *.
      destruct (assign_rhs_part P syms (L ++ D') st HR g false vs Ea Hnum) as [rs [Hrs Hin]].
      rewrite tlookup_app, tlookup_init_step_same, Hrs. exists rs; auto.
    - apply var_eqb_neq in Hne. rewrite tlookup_app, (tlookup_init_step_other D' L g y Hne), <- tlookup_app. apply HR.
  Qed.

  Lemma offers_init_fold l st L :
    forallb (fun g => match ga_cond g with CTrue => true | _ => false end) l = true -> offers (L ++ D') st ->
    exists L', init_env D' L l = Some L' /\ offers (L' ++ D') (fold_left (init_step P syms []) l st).
  Proof.
    revert st L; induction l as [|g l IH]; intros st L Hc HR; [exists L; split; [reflexivity | exact HR]|].
    cbn [forallb] in Hc. apply andb_true_iff in Hc. destruct Hc as [Hg Hl].
    rewrite init_env_cons. cbn [fold_left]. destruct (ga_cond g); try discriminate Hg.
    apply (IH _ _ Hl), offers_init_step, HR.
  Qed.

  Lemma init_fold_shas l st y :
    shas (fold_left (init_step P syms []) l st) y = mem_var y (map ga_var l) || shas st y.
  Proof.
    revert st; induction l as [|g l IH]; intros st; cbn [fold_left map mem_var existsb]; [reflexivity|].
    rewrite IH, init_step_eq. cbn [map mem_var existsb]. rewrite shas_sset.
    unfold mem_var. destruct (var_eqb y (ga_var g)), (existsb (var_eqb y) (map ga_var l)); reflexivity.
  Qed.

  (* the pass over the body leaves the entries made by the initial block as they are *)
  Lemma init_state_offers fp implied :
    applicable fp = true ->
    exists L', init_env D' [] (fp_init fp) = Some L' /\
      forall x, mem_var x (map ga_var (fp_init fp)) = true ->
                s_ok (sget (init_state P syms fp [] implied) x) = true ->
                exists ty, tlookup (L' ++ D') x = Some ty /\
                           forall q, In q ty -> In (Some q) (s_vals (sget (init_state P syms fp [] implied) x)).
  Proof.
    intros Happ. destruct (offers_init_fold (fp_init fp) [] [] Happ) as [L' [HL HR]]; [intros y Hy; discriminate Hy|].
    exists L'; split; [exact HL|]. intros x Hx. unfold init_state. cbn [declared_state fold_left].
    rewrite body_init_keeps; [apply HR | rewrite init_fold_shas, Hx; reflexivity].
  Qed.
End InitBlock.

Theorem typer_state_init P syms fp implied drops st :
  typer_state P syms fp [] implied drops = Some st -> check_init (extract st) (fp_init fp) = true.
Proof.
  intros Hc. destruct (typer_state_spec _ _ _ _ _ _ _ Hc) as [Happ [_ [Hle _]]].
  unfold check_init. cbv zeta.
  destruct (init_state_offers P syms (declared (map ga_var (fp_init fp)) (extract st)) fp implied Happ) as [L' [HL HR]].
  rewrite HL. apply forallb_forall. intros [x vs] Hin. cbn [fst snd].
  destruct (mem_var x (map ga_var (fp_init fp))) eqn:Em; [|reflexivity].
  destruct (In_extract _ _ _ Hin) as [Hok ->].
  destruct (HR x Em (s_ok_grows _ _ (Hle x) Hok)) as [ty [Hty Hsub]].
  rewrite tlookup_app, (tlookup_declared_init _ _ x Em) in Hty.
  destruct (tlookup L' x) as [rs|]; [|discriminate Hty]. injection Hty as ->.
  destruct (Hle x) as [_ [Hvals _]].
  apply subset_complete. intros q Hq. apply In_nums, Hvals, Hsub, Hq.
Qed.

Lemma typer_run_extract P syms fp D implied drops T :
  typer_run P syms fp D implied drops = Some T ->
  exists st, typer_state P syms fp D implied drops = Some st /\ T = extract st.
Proof.
  unfold typer_run. destruct (typer_state P syms fp D implied drops) as [st|]; [|discriminate].
  intros H. injection H as <-. exists st; auto.
Qed.

(* declared types are trusted by the typer (locked); the validator checks them: with declared
   types the theorem needs the validator's verdict on the initial block and on the declared
   variables' assignments as (evaluated) hypotheses.  What is missing for a full statement:
   a proof of check_init in the presence of declared types. *)
Definition declared_ok (fp : flatprog) (D T : tenv) : bool :=
  check_init T (fp_init fp) &&
  forallb (fun g => negb (mem_var (ga_var g) (map fst D)) || check_ga T g) (fp_body fp).

Theorem typer_run_postfixpoint_declared_partial P syms fp D implied drops T :
  typer_run P syms fp D implied drops = Some T ->
  body_single fp = true -> drops_harmless (fp_body fp) drops = true ->
  declared_ok fp D T = true ->
  check_types fp T = true.
Proof.
  intros H Hs Hd Hdecl. destruct (typer_run_extract _ _ _ _ _ _ _ H) as [st [Es ->]].
  apply andb_true_iff in Hdecl. destruct Hdecl as [Hi Hb]. apply andb_true_iff. split; [exact Hi|].
  apply forallb_forall. intros g Hg. rewrite forallb_forall in Hb. specialize (Hb g Hg).
  destruct (mem_var (ga_var g) (map fst D)) eqn:Em; [exact Hb|].
  exact (typer_state_body P syms fp D implied drops st Es Hs Hd g Hg Em).
Qed.

(* without declared types the validator's verdict on the initial block is proved *)
Theorem typer_run_postfixpoint P syms fp implied drops T :
  typer_run P syms fp [] implied drops = Some T ->
  body_single fp = true -> drops_harmless (fp_body fp) drops = true ->
  check_types fp T = true.
Proof.
  intros H Hs Hd. apply (typer_run_postfixpoint_declared_partial P syms fp [] implied drops T H Hs Hd).
  destruct (typer_run_extract _ _ _ _ _ _ _ H) as [st [Es ->]].
  unfold declared_ok. rewrite (typer_state_init P syms fp implied drops st Es).
  apply forallb_forall. intros g _. reflexivity.
Qed.

(* no default dropped at all is a special case *)
Lemma drops_false_harmless body drops : forallb negb drops = true -> drops_harmless body drops = true.
Proof.
  unfold drops_harmless. revert drops; induction body as [|g body IH]; intros drops H; [reflexivity|].
  cbn [zip_drops forallb fst snd]. destruct drops as [|d drops]; cbn [hd tl]; [exact (IH [] eq_refl)|].
  cbn [forallb] in H. apply andb_true_iff in H. destruct H as [Hd H].
  apply negb_true_iff in Hd. rewrite Hd. exact (IH drops H).
Qed.

Theorem typer_run_sound P syms fp implied drops T :
  typer_run P syms fp [] implied drops = Some T ->
  body_single fp = true -> drops_harmless (fp_body fp) drops = true ->
  forall (law : string -> list Qc -> dist Qc) s0, init_ok fp T s0 ->
  forall n s, supp (frun law fp n s0) s -> typed T s.
Proof.
  intros H Hs Hd law. apply check_types_sound, (typer_run_postfixpoint P syms fp implied drops T H Hs Hd).
Qed.
