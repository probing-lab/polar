(* C06 composed with C04: an invariant accepted against closed forms that are themselves accepted
   for the system  x(n+1) = A x(n), x(0) = v  holds on the TRUE recurrence sequence A^n v at
   every n from the cut-off (the number of listed special cases) on -- no reference to the
   closed forms remains in the conclusion. *)
From Coq Require Import List Bool Arith Lia.
From Polar Require Import CRing ExpPoly ClosedForm ClosedFormSeq Invariant InvariantIdeal.
Import ListNotations.

Section OnSeq.
  Variable R : cring.

  Lemma iter_mat_evalF A v (F : list (epoly R)) sp n :
    check_solution A v F sp = true -> length sp <= n -> iter_mat A n v = Invariant.evalF F n.
  Proof. intros HS Hn. symmetry. exact (general_part_from_cutoff R A v F sp HS n Hn). Qed.

  Theorem invariant_on_recurrence_sequence A v (F : list (epoly R)) sp (B : mpoly R) :
    check_solution A v F sp = true -> check_invariant B F = true ->
    forall n, length sp <= n -> poly_eval B (iter_mat A n v) = r0.
  Proof.
    intros HS HB n Hn. rewrite (iter_mat_evalF A v F sp n HS Hn).
    apply check_invariant_sound; exact HB.
  Qed.

  Theorem ideal_member_on_recurrence_sequence A v (F : list (epoly R)) sp (Bs Cs : list (mpoly R)) :
    check_solution A v F sp = true ->
    forallb (fun B => check_invariant B F) Bs = true ->
    forallb (exps_ok (length F)) Cs = true ->
    forall n, length sp <= n -> poly_eval (ideal_comb Cs Bs) (iter_mat A n v) = r0.
  Proof.
    intros HS HB HC n Hn. rewrite (iter_mat_evalF A v F sp n HS Hn).
    apply ideal_member_invariant; assumption.
  Qed.
End OnSeq.
