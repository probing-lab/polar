(* C02, what the passes on FLAT programs (lists of guarded assignments) share.  Each of them
   introduces generated names G; its theorem is a simulation: from states that agree outside G
   the source and the transformed list give the same expectation to every observation that
   does not read G ([sim_on]), first for one execution, then for all iterations ([frun_lift]). *)
From Coq Require Import List String QArith Qcanon ZArith Bool Lia.
From Coq Require Import DecimalString DecimalNat Decimal.
From Polar Require Import Qcx Dist Syntax Sem Types.
Import ListNotations.
Local Open Scope Qc_scope.

(* Python's str(int) *)
Definition nat_str (k : nat) : string := NilEmpty.string_of_uint (Nat.to_uint k).
Lemma nat_str_inj j k : nat_str j = nat_str k -> j = k.
Proof.
  unfold nat_str. intros H.
  assert (Hu : Nat.to_uint j = Nat.to_uint k).
  { pose proof (NilEmpty.usu (Nat.to_uint j)) as A. pose proof (NilEmpty.usu (Nat.to_uint k)) as B.
    rewrite H in A. rewrite A in B. inversion B. reflexivity. }
  rewrite <- (Unsigned.of_to j), <- (Unsigned.of_to k), Hu. reflexivity.
Qed.

Lemma append_inj_l (p a b : string) : (p ++ a = p ++ b)%string -> a = b.
Proof. induction p as [|c p IH]; cbn [append]; intros H; [exact H | inversion H; auto]. Qed.

Definition smem (x : var) (l : list var) : bool := existsb (var_eqb x) l.
(* [smem] is [Types.mem_var] *)
Lemma smem_In x l : smem x l = true <-> In x l.
Proof. split; [exact (mem_var_true x l) | exact (mem_var_In x l)]. Qed.
Lemma smem_false x l : smem x l = false <-> ~ In x l.
Proof.
  split.
  - intros H Hin. apply smem_In in Hin. rewrite Hin in H. discriminate.
  - intros H. destruct (smem x l) eqn:E; [apply smem_In in E; contradiction | reflexivity].
Qed.
Definition sdisjoint (a b : list var) : bool := forallb (fun x => negb (smem x b)) a.
Lemma sdisjoint_spec a b : sdisjoint a b = true -> forall x, In x a -> ~ In x b.
Proof.
  unfold sdisjoint. rewrite forallb_forall. intros H x Ha. specialize (H x Ha).
  apply negb_true_iff in H. apply smem_false. exact H.
Qed.

Fixpoint cond_vars (c : cond) : list var :=
  match c with
  | CTrue | CFalse => []
  | CAtom a _ b => vars_of a ++ vars_of b
  | CNot c1 => cond_vars c1
  | CAnd c1 c2 | COr c1 c2 => cond_vars c1 ++ cond_vars c2
  end.
Definition draw_vars (d : draw) : list var :=
  match d with
  | DBern p => vars_of p
  | DCat ps => flat_map vars_of ps
  | DUnif _ _ => []
  | DCont _ args => flat_map vars_of args
  end.
Definition rhs_vars (r : rhs) : list var :=
  match r with
  | RChoice alts => flat_map (fun pe => vars_of (fst pe) ++ vars_of (snd pe)) alts
  | RDraw d => draw_vars d
  end.
(* everything a guarded assignment mentions: target, default, condition, right-hand side *)
Definition ga_vars (g : gassign) : list var :=
  ga_var g :: ga_default g :: cond_vars (ga_cond g) ++ rhs_vars (ga_rhs g).
Definition gas_vars (l : list gassign) : list var := flat_map ga_vars l.

Lemma holds_ext c s s' : (forall x, In x (cond_vars c) -> s x = s' x) -> holds c s = holds c s'.
Proof.
  induction c as [| |a o b|c IH|c1 IH1 c2 IH2|c1 IH1 c2 IH2]; cbn [holds cond_vars]; intros H; try reflexivity.
  - rewrite (eval_ext a s s'), (eval_ext b s s'); [reflexivity| |]; intros x Hx; apply H; apply in_or_app; auto.
  - rewrite IH; [reflexivity | exact H].
  - rewrite IH1, IH2; [reflexivity| |]; intros x Hx; apply H; apply in_or_app; auto.
  - rewrite IH1, IH2; [reflexivity| |]; intros x Hx; apply H; apply in_or_app; auto.
Qed.

Section Flat.
  Variable law : string -> list Qc -> dist Qc.

  Lemma sample_ext r s s' : (forall x, In x (rhs_vars r) -> s x = s' x) -> sample law r s = sample law r s'.
  Proof.
    destruct r as [alts|[p|ps|a b|f args]]; cbn [sample draw_law rhs_vars draw_vars]; intros H.
    - apply map_ext_in. intros [p e] Hin. cbn [fst snd].
      rewrite (eval_ext p s s'), (eval_ext e s s'); [reflexivity| |]; intros x Hx;
        apply H, in_flat_map; exists (p, e); (split; [exact Hin | apply in_or_app; auto]).
    - rewrite (eval_ext p s s' H). reflexivity.
    - rewrite (map_eval_ext ps s s' H). reflexivity.
    - reflexivity.
    - rewrite (map_eval_ext args s s' H). reflexivity.
  Qed.

  Lemma ga_reads g s s' : (forall x, In x (ga_vars g) -> s' x = s x) ->
    holds (ga_cond g) s' = holds (ga_cond g) s /\ sample law (ga_rhs g) s' = sample law (ga_rhs g) s
    /\ s' (ga_default g) = s (ga_default g).
  Proof.
    unfold ga_vars. intros H. split; [|split].
    - apply holds_ext. intros x Hx. apply H. right. right. apply in_or_app. left. exact Hx.
    - apply sample_ext. intros x Hx. apply H. right. right. apply in_or_app. right. exact Hx.
    - apply H. right. left. reflexivity.
  Qed.

  (* the step of every simulation below: [g'] reads in [s'] what [g] reads in a view [u] of
     [s'] (s' itself, or s' through a renaming) that coincides with [s] on the variables of [g] *)
  Lemma exec_gas_cons_sim g g' l l' s s' (u : state) f :
    (forall x, In x (ga_vars g) -> u x = s x) ->
    holds (ga_cond g') s' = holds (ga_cond g) u ->
    sample law (ga_rhs g') s' = sample law (ga_rhs g) u ->
    s' (ga_default g') = u (ga_default g) ->
    (forall v, E (exec_gas law l' (upd s' (ga_var g') v)) f = E (exec_gas law l (upd s (ga_var g) v)) f) ->
    E (exec_gas law (g' :: l') s') f = E (exec_gas law (g :: l) s) f.
  Proof.
    intros Hu Hc Hs Hd Hk. destruct (ga_reads g s u Hu) as (Hc' & Hs' & Hd').
    rewrite !E_exec_gas_cons. apply E_exec_ga_rel; [congruence | congruence | congruence | exact Hk].
  Qed.

  Definition agree (G : var -> Prop) (s s' : state) : Prop := forall x, ~ G x -> s' x = s x.
  Definition respects (G : var -> Prop) (f : state -> Qc) : Prop := forall s s', agree G s s' -> f s' = f s.
  Definition fresh (G : var -> Prop) (l : list var) : Prop := forall x, G x -> ~ In x l.

  Lemma agree_refl G s : agree G s s.
  Proof. intros x _. reflexivity. Qed.
  Lemma agree_sym G s s' : agree G s s' -> agree G s' s.
  Proof. intros H x Hx. symmetry. apply H. exact Hx. Qed.
  Lemma agree_trans G s1 s2 s3 : agree G s1 s2 -> agree G s2 s3 -> agree G s1 s3.
  Proof. intros H1 H2 x Hx. rewrite H2, H1 by exact Hx. reflexivity. Qed.
  Lemma agree_upd G s s' x v : agree G s s' -> agree G (upd s x v) (upd s' x v).
  Proof. intros H y Hy. unfold upd. destruct (var_eqb y x); [reflexivity | apply H; exact Hy]. Qed.
  Lemma agree_upd_gen G s s' x v : agree G s s' -> G x -> agree G s (upd s' x v).
  Proof.
    intros H Hx y Hy. rewrite upd_other; [apply H; exact Hy | intros ->; contradiction].
  Qed.

  Lemma fresh_app G l1 l2 : fresh G (l1 ++ l2) -> fresh G l1 /\ fresh G l2.
  Proof. intros H. split; intros x Hx Hin; apply (H x Hx); apply in_or_app; auto. Qed.
  Lemma fresh_gas_cons G g l : fresh G (gas_vars (g :: l)) -> fresh G (ga_vars g) /\ fresh G (gas_vars l).
  Proof. apply fresh_app. Qed.
  Lemma agree_fresh G l s s' : fresh G l -> agree G s s' -> forall x, In x l -> s' x = s x.
  Proof. intros Hl Ha x Hx. apply Ha. intros HG. exact (Hl x HG Hx). Qed.

  Definition sim_on (G : var -> Prop) (l l' : list gassign) : Prop :=
    forall s s' f, agree G s s' -> respects G f -> E (exec_gas law l' s') f = E (exec_gas law l s) f.

  Lemma exec_gas_frame (G : var -> Prop) l : fresh G (gas_vars l) -> sim_on G l l.
  Proof.
    induction l as [|g l IH]; intros Hv s s' f Ha Hf.
    - rewrite !E_exec_gas_nil. apply Hf. exact Ha.
    - apply fresh_gas_cons in Hv. destruct Hv as [Hg Hl].
      apply (exec_gas_cons_sim g g l l s s' s' f (agree_fresh G _ s s' Hg Ha)); try reflexivity.
      intros v. apply IH; [exact Hl | apply agree_upd; exact Ha | exact Hf].
  Qed.

  Theorem frun_lift (G : var -> Prop) (fp fp' : flatprog) :
    sim_on G (fp_init fp) (fp_init fp') -> sim_on G (fp_body fp) (fp_body fp') ->
    forall n s0 s0' f, agree G s0 s0' -> respects G f ->
      E (frun law fp' n s0') f = E (frun law fp n s0) f.
  Proof.
    intros Hi Hb n. induction n as [|n IH]; intros s0 s0' f Ha Hf; cbn [frun].
    - apply Hi; assumption.
    - rewrite !E_bind. unfold fstep.
      (* the expectation after one more execution of the body is itself an observation that
         ignores G *)
      assert (Hb' : forall t, E (exec_gas law (fp_body fp') t) f = E (exec_gas law (fp_body fp) t) f).
      { intros t. apply Hb; [apply agree_refl | exact Hf]. }
      rewrite (IH s0 s0' _ Ha).
      + apply E_ext. exact Hb'.
      + intros t t' Ht. rewrite (Hb' t). apply Hb; [exact Ht | exact Hf].
  Qed.
End Flat.
