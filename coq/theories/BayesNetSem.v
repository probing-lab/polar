(* C15 — reference semantics (S) of the generated-program AST of BayesNet.v.
   States map variable indices to natural numbers (all values the generated programs ever
   hold are domain positions, 0/1 flags, products and counters); distributions are
   finitely supported weighted lists.  One loop iteration = exec_body; n iterations = iter_body. *)
From Coq Require Import Arith Bool QArith Qcanon Lia List.
From Polar Require Import Qcx BayesNet.
Import ListNotations.
Open Scope nat_scope.

Definition state := nat -> nat.
Definition upd (s : state) (x v : nat) : state := fun y => if Nat.eqb y x then v else s y.
Definition dist := list (Qc * state).

Lemma upd_same s x v : upd s x v x = v.
Proof. unfold upd. rewrite Nat.eqb_refl. reflexivity. Qed.

Lemma upd_other s x v y : y <> x -> upd s x v y = s y.
Proof. unfold upd. intros H. apply Nat.eqb_neq in H. rewrite H. reflexivity. Qed.

(* x = v0 {p0} v1 {p1} ... v_last : the last probability is implicit, 1 - (p0 + p1 + ...) *)
Definition cat_weights (probs : list Qc) : list Qc := probs ++ [(1 - qsum probs)%Qc].

Definition exec_assign (a : gassign) (s : state) : dist :=
  match a with
  | ACat x vals probs => map (fun pv => (fst pv, upd s x (snd pv))) (combine (cat_weights probs) vals)
  | AMul x a b => [(1%Qc, upd s x (s a * s b))]
  | AAdd x a b => [(1%Qc, upd s x (s a + s b))]
  end.

Definition cond_true (c : gcond) (s : state) : bool :=
  forallb (fun xv => Nat.eqb (s (fst xv)) (snd xv)) c.

(* first matching branch; no else and nothing matches: skip *)
Fixpoint exec_if (brs : list (gcond * gassign)) (els : option gassign) (s : state) : dist :=
  match brs with
  | [] => match els with Some a => exec_assign a s | None => [(1%Qc, s)] end
  | (c, a) :: r => if cond_true c s then exec_assign a s else exec_if r els s
  end.

Definition exec_stmt (st : gstmt) (s : state) : dist :=
  match st with
  | SAssign a => exec_assign a s
  | SIf brs els => exec_if brs els s
  end.

Definition scale (w : Qc) (d : dist) : dist := map (fun ws => ((w * fst ws)%Qc, snd ws)) d.
Definition bind (d : dist) (f : state -> dist) : dist := flat_map (fun ws => scale (fst ws) (f (snd ws))) d.

Fixpoint exec_body (b : list gstmt) (s : state) : dist :=
  match b with
  | [] => [(1%Qc, s)]
  | st :: r => bind (exec_stmt st s) (exec_body r)
  end.

(* the loop "while true: body" run for n iterations from a distribution over states *)
Fixpoint iter_body (b : list gstmt) (n : nat) (d : dist) : dist :=
  match n with
  | O => d
  | S k => bind (iter_body b k d) (exec_body b)
  end.

Definition init_state (init : list (nat * nat)) : state :=
  fold_left (fun s xv => upd s (fst xv) (snd xv)) init (fun _ => 0).

Definition run (p : gprog) (n : nat) : dist := iter_body (g_body p) n [(1%Qc, init_state (g_init p))].

Definition expect (d : dist) (f : state -> Qc) : Qc := qsum (map (fun ws => (fst ws * f (snd ws))%Qc) d).
Definition ind (b : bool) : Qc := if b then 1%Qc else 0%Qc.
Definition mass (d : dist) (ev : state -> bool) : Qc := expect d (fun s => ind (ev s)).

Lemma qsum_nil : qsum [] = 0%Qc.
Proof. reflexivity. Qed.

Lemma qsum_cons a l : qsum (a :: l) = (a + qsum l)%Qc.
Proof. reflexivity. Qed.

Lemma qsum_app l1 l2 : qsum (l1 ++ l2) = (qsum l1 + qsum l2)%Qc.
Proof. induction l1 as [|a l IH]; cbn [app]; [rewrite qsum_nil; ring | rewrite !qsum_cons, IH; ring]. Qed.

Lemma qsum_map_scale {A} (c : Qc) (f : A -> Qc) l :
  qsum (map (fun x => (c * f x)%Qc) l) = (c * qsum (map f l))%Qc.
Proof. induction l as [|a l IH]; cbn [map]; rewrite ?qsum_cons, ?qsum_nil; [ring | rewrite IH; ring]. Qed.

Lemma qsum_map_ext {A} (f g : A -> Qc) l : (forall x, In x l -> f x = g x) -> qsum (map f l) = qsum (map g l).
Proof.
  induction l as [|a l IH]; intros H; cbn [map]; [reflexivity|].
  rewrite !qsum_cons, H, IH; [reflexivity | intros; apply H; right; assumption | left; reflexivity].
Qed.

Lemma qsum_map_zero {A} (f : A -> Qc) l : (forall x, In x l -> f x = 0%Qc) -> qsum (map f l) = 0%Qc.
Proof.
  induction l as [|a l IH]; intros H; cbn [map]; [reflexivity|].
  rewrite qsum_cons, H, IH; [ring | intros; apply H; right; assumption | left; reflexivity].
Qed.

Lemma qsum_map_plus {A} (f g : A -> Qc) l :
  qsum (map (fun x => (f x + g x)%Qc) l) = (qsum (map f l) + qsum (map g l))%Qc.
Proof. induction l as [|a l IH]; cbn [map]; rewrite ?qsum_cons, ?qsum_nil; [ring | rewrite IH; ring]. Qed.

Lemma expect_nil f : expect [] f = 0%Qc.
Proof. reflexivity. Qed.

Lemma expect_cons w s d f : expect ((w, s) :: d) f = (w * f s + expect d f)%Qc.
Proof. reflexivity. Qed.

Lemma expect_app d1 d2 f : expect (d1 ++ d2) f = (expect d1 f + expect d2 f)%Qc.
Proof. unfold expect. rewrite map_app, qsum_app. reflexivity. Qed.

Lemma expect_scale w d f : expect (scale w d) f = (w * expect d f)%Qc.
Proof.
  unfold expect, scale. rewrite map_map. cbn [fst snd].
  rewrite <- qsum_map_scale. apply qsum_map_ext. intros; ring.
Qed.

(* law of total expectation for bind *)
Lemma expect_bind d k f : expect (bind d k) f = expect d (fun s => expect (k s) f).
Proof.
  induction d as [|[w s] d IH]; [reflexivity|].
  unfold bind in *. cbn [flat_map fst snd]. rewrite expect_app, expect_scale, IH, expect_cons. reflexivity.
Qed.

Lemma expect_ext d f g : (forall ws, In ws d -> f (snd ws) = g (snd ws)) -> expect d f = expect d g.
Proof. intros H. unfold expect. apply qsum_map_ext. intros ws Hin. rewrite (H ws Hin). reflexivity. Qed.

Lemma expect_plus d f g : expect d (fun s => (f s + g s)%Qc) = (expect d f + expect d g)%Qc.
Proof. unfold expect. rewrite <- qsum_map_plus. apply qsum_map_ext. intros; ring. Qed.

Lemma expect_cmul d c f : expect d (fun s => (c * f s)%Qc) = (c * expect d f)%Qc.
Proof. unfold expect. rewrite <- qsum_map_scale. apply qsum_map_ext. intros; ring. Qed.

Lemma expect_zero d f : (forall ws, In ws d -> f (snd ws) = 0%Qc) -> expect d f = 0%Qc.
Proof. intros H. unfold expect. apply qsum_map_zero. intros ws Hin. rewrite (H ws Hin). ring. Qed.

Lemma expect_single s f : expect [(1%Qc, s)] f = f s.
Proof. unfold expect. cbn. ring. Qed.

Lemma expect_body_nil s f : expect (exec_body [] s) f = f s.
Proof. apply expect_single. Qed.

Lemma expect_body_cons st b s f :
  expect (exec_body (st :: b) s) f = expect (exec_stmt st s) (fun s' => expect (exec_body b s') f).
Proof. apply expect_bind. Qed.

Lemma exec_body_app b1 b2 s f :
  expect (exec_body (b1 ++ b2) s) f = expect (exec_body b1 s) (fun s' => expect (exec_body b2 s') f).
Proof.
  revert s. induction b1 as [|st b1 IH]; intros s; cbn [app].
  - rewrite expect_body_nil. reflexivity.
  - rewrite !expect_body_cons. apply expect_ext. intros ws _. apply IH.
Qed.

Lemma in_bind ws d k : In ws (bind d k) -> exists w1 s1 w2, In (w1, s1) d /\ In (w2, snd ws) (k s1).
Proof.
  unfold bind. rewrite in_flat_map. intros [[w1 s1] [H1 H2]]. unfold scale in H2. rewrite in_map_iff in H2.
  destruct H2 as [[w2 s2] [E H2]]. subst ws. cbn [fst snd] in *. exists w1, s1, w2. split; assumption.
Qed.
